(* Index arithmetic of calls: where the block / the search position of a call lies in the
   (huge frame, row, bit) decomposition.  Everything here is static (geometry, `frames`, the call). *)
From Coq Require Import PeanoNat.
From LLF Require Import Base BitLemmas Row RowProofs Bitfield Lower Spec AbsLemmas LowerMachine ConcBase ConcInvDef.

Lemma aligned_fit A M x : A <> 0 -> M mod A = 0 -> x mod A = 0 -> x < M -> x + A <= M.
Proof. exact (aligned_block_fits x A M). Qed.
Lemma mod_mul_l a b c : b <> 0 -> c <> 0 -> (c * a) mod (c * b) = c * (a mod b).
Proof. intros. apply N.mul_mod_distr_l; assumption. Qed.
Lemma mod_of_multiple f A B : A <> 0 -> B <> 0 -> f mod (A * B) = 0 -> f mod A = 0.
Proof.
  intros HA HB H. assert (HAB : A * B <> 0) by nia. pose proof (N.div_mod f (A * B) HAB) as E. rewrite H in E.
  rewrite E, N.add_0_r. replace (A * B * (f / (A * B))) with ((B * (f / (A * B))) * A) by lia. apply N.mod_mul. exact HA.
Qed.
(* the remainder modulo a multiple keeps the alignment *)
Lemma mod_mod_aligned f A B : A <> 0 -> B <> 0 -> f mod A = 0 -> (f mod (A * B)) mod A = 0.
Proof.
  intros HA HB H. pose proof (N.div_mod f A HA) as E. rewrite H, N.add_0_r in E.
  rewrite E at 1. rewrite mod_mul_l by assumption. rewrite N.mul_comm. apply N.mod_mul. exact HA.
Qed.
Lemma div_of_aligned f A B : A <> 0 -> B <> 0 -> f mod (A * B) = 0 -> (f / A) mod B = 0.
Proof.
  intros HA HB H. assert (HAB : A * B <> 0) by nia. pose proof (N.div_mod f (A * B) HAB) as E. rewrite H, N.add_0_r in E.
  rewrite E at 1. replace (A * B * (f / (A * B))) with ((B * (f / (A * B))) * A) by lia.
  rewrite N.div_mul by exact HA. rewrite N.mul_comm. apply N.mod_mul. exact HB.
Qed.

Lemma mod_add_aligned a b m : m <> 0 -> a mod m = 0 -> b mod m = 0 -> (a + b) mod m = 0.
Proof. intros Hm Ha Hb. apply N.mod_divide in Ha, Hb; try assumption. apply N.mod_divide; [assumption|]. apply N.divide_add_r; assumption. Qed.
Lemma mod_mul_aligned a b m : m <> 0 -> b mod m = 0 -> (a * b) mod m = 0.
Proof. intros Hm Hb. apply N.mod_divide in Hb; try assumption. apply N.mod_divide; [assumption|]. apply N.divide_mul_r; assumption. Qed.

(* a frame number in (huge frame, row, bit) coordinates, R rows per huge frame *)
Lemma rowbit_decomp f R : R <> 0 -> f = f / (64 * R) * (64 * R) + (f / 64) mod R * 64 + f mod 64.
Proof.
  intros HR. rewrite <- N.div_div by lia.
  pose proof (N.div_mod f 64 ltac:(lia)). pose proof (N.div_mod (f / 64) R HR). nia.
Qed.
Lemma mul_succ_fit a x m : x < m -> a * x + a <= m * a.
Proof. intros H. nia. Qed.

Section Geom.
  Variable g : geom.
  Hypothesis wf : wf_geom g.
  Notation HF := (HF g).
  Notation TF := (TF g).
  Notation THUGE := (THUGE g).
  Notation ROWS := (ROWS g).

  Lemma div_ceil_spec a b : b <> 0 -> a <= div_ceil a b * b /\ (div_ceil a b <> 0 -> (div_ceil a b - 1) * b < a).
  Proof. intros Hb. split; [apply div_ceil_ge, Hb|]. intros Hn. apply div_ceil_lt_inv; [exact Hb|lia]. Qed.
  Lemma lt_nbf fm f : f < fm -> f / HF < nbf g fm.
  Proof. apply frame_lt_nbf. Qed.
  Lemma nbf_le_ents fm : nbf g fm <= ntab g fm * THUGE.
  Proof. apply nbf_le_ntab. Qed.

  (* a small block (f, k), aligned *)
  Section SmallBlock.
    Variables (f : N) (k : nat).
    Hypothesis Hal : f mod pow2 k = 0.
    Hypothesis Hk : (k < hord g)%nat.
    Let h := f / HF.
    Let r0 := (f / 64) mod ROWS.
    Let off := f mod 64.

    Lemma small_decomp : f = fidx g h r0 off /\ r0 < ROWS /\ off < 64.
    Proof.
      pose proof (ROWS_pos g wf) as PR. unfold fidx, h, r0, off. rewrite (HF_64 g wf).
      split; [apply rowbit_decomp; lia|]. split; apply N.mod_lt; lia.
    Qed.
    Lemma small_fit_bits : (k <= 6)%nat -> off + pow2 k <= 64.
    Proof.
      intros H6. unfold off. pose proof (pow2_nz k). pose proof (pow2_nz (6 - k)).
      apply aligned_fit; [assumption| | |apply N.mod_lt; lia].
      - change 64 with (pow2 6). rewrite (pow2_split k 6) by lia. apply N.mod_mul. assumption.
      - change 64 with (pow2 6). rewrite (pow2_split k 6), (N.mul_comm (pow2 (6 - k))) by lia.
        apply mod_mod_aligned; assumption.
    Qed.
    Lemma small_rows7 : (7 <= k)%nat -> off = 0 /\ pow2 k = 64 * pow2 (k - 6) /\ r0 + pow2 (k - 6) <= ROWS.
    Proof.
      intros H7. pose proof (pow2_nz (k - 6)) as Hn. pose proof (ROWS_pos g wf) as PR.
      assert (Ek : pow2 k = 64 * pow2 (k - 6)) by (rewrite (pow2_split 6 k (Nat.lt_le_incl _ _ H7)), pow2_6; apply N.mul_comm).
      assert (ER : ROWS = pow2 (hord g - 6 - (k - 6)) * pow2 (k - 6)).
      { rewrite (ROWS_pow2 g wf). apply pow2_split, Nat.sub_le_mono_r, Nat.lt_le_incl, Hk. }
      rewrite Ek in Hal. split; [|split; [exact Ek|]].
      - unfold off. apply (mod_of_multiple f 64 (pow2 (k - 6))); [discriminate|exact Hn|exact Hal].
      - unfold r0. apply aligned_fit; [exact Hn| | |apply N.mod_lt; lia].
        + rewrite ER. apply N.mod_mul, Hn.
        + rewrite ER, N.mul_comm.
          apply mod_mod_aligned; [exact Hn|apply pow2_nz|]. apply div_of_aligned; [discriminate|exact Hn|exact Hal].
    Qed.
    Lemma small_in_huge : f mod HF + pow2 k <= HF.
    Proof. apply aligned_in_huge; [apply Nat.lt_le_incl, Hk|exact Hal]. Qed.
  End SmallBlock.

  (* what the local facts say about the ghost of a thread *)
  (* the owned interval starts at a frame of the focus huge frame *)
  Definition anchored (G : ghost) : Prop :=
    0 < own_n G /\ exists r i, r < ROWS /\ i < 64 /\ own_lo G = fidx g (g_h G) r i.
  Record gwf (G : ghost) : Prop := {
    W_tr : tr_lo G + tr_n G <= ROWS;
    W_nd : nd G = true -> 0 < p_n G \/ anchored G;
    W_trn : 0 < tr_n G -> nd G = true \/ anchored G
  }.

  (* nothing in transit and no counter needed *)
  Lemma gwf_plain G : tr_lo G + tr_n G = 0 -> nd G = false -> gwf G.
  Proof. intros Et En. pose proof (ROWS_pos g wf). constructor; rewrite ?En; intros; try lia; discriminate. Qed.
  Lemma gwf_gh0 : gwf gh0. Proof. apply gwf_plain; reflexivity. Qed.
  Lemma gwf_gown lo n : gwf (gown lo n). Proof. apply gwf_plain; reflexivity. Qed.
  Lemma gwf_ghuge lo n : gwf (ghuge lo n). Proof. apply gwf_plain; reflexivity. Qed.
  Lemma gwf_gtr h n lo cnt : 0 < n -> lo + cnt <= ROWS -> gwf (gtr h n lo cnt).
  Proof. intros. constructor; cbn; intros; auto. Qed.
  Lemma gwf_gpend h n : 0 < n -> gwf (gpend h n).
  Proof. intros. pose proof (ROWS_pos g wf). constructor; cbn; intros; auto; lia. Qed.

  Lemma cwf_block fm c : cwf g fm c = true -> is_get c = false ->
    c_frame c mod pow2 (c_order c) = 0 /\ c_frame c + c_n c <= fm.
  Proof. unfold cwf, c_n. destruct c; try discriminate; cbn [c_frame c_order]; lia. Qed.

  (* the block of a small get_at / put *)
  Lemma small_call_decomp fm c : cwf g fm c = true -> small g c = true -> is_get c = false ->
    c_frame c = fidx g (c_huge g c) (t_row g XPut c) (t_off XPut c) /\ t_row g XPut c < ROWS /\ t_off XPut c < 64 /\
    c_frame c mod pow2 (c_order c) = 0 /\ c_frame c + c_n c <= fm /\ c_huge g c < nbf g fm.
  Proof.
    intros Hc Hs Hg. unfold small in Hs. apply Nat.ltb_lt in Hs.
    destruct (cwf_block fm c Hc Hg) as [Hal Hr].
    destruct (small_decomp (c_frame c) (c_order c) Hal Hs) as (E & H1 & H2).
    unfold t_row, t_off, c_huge. repeat split; auto.
    apply lt_nbf. pose proof (pow2_pos (c_order c)). unfold c_n in Hr. lia.
  Qed.

  Lemma small_call fm c : cwf g fm c = true -> small g c = true -> is_get c = false ->
    c_huge g c < nbf g fm /\ c_huge g c < ntab g fm * THUGE /\ (c_order c < hord g)%nat /\
    t_row g XPut c < ROWS /\ t_off XPut c < 64 /\ 0 < c_n c.
  Proof.
    intros Hc Hs Hg. destruct (small_call_decomp fm c Hc Hs Hg) as (_ & H1 & H2 & _ & _ & H3).
    pose proof (nbf_le_ents fm). apply Nat.ltb_lt in Hs. pose proof (pow2_pos (c_order c)).
    repeat split; try assumption; lia.
  Qed.

  Lemma is_put_not_get c : is_put c = true -> is_get c = false. Proof. destruct c; cbn; congruence. Qed.
  Lemma is_getat_not_get c : is_getat c = true -> is_get c = false. Proof. destruct c; cbn; congruence. Qed.
  Lemma is_getat_not_put c : is_getat c = true -> is_put c = false. Proof. destruct c; cbn; congruence. Qed.
  Lemma is_get_not_put c : is_get c = true -> is_put c = false. Proof. destruct c; cbn; congruence. Qed.
  Lemma wf_hord6 : (6 <= hord g)%nat. Proof. destruct wf; assumption. Qed.
  Lemma c_n_pos c : 0 < c_n c. Proof. apply pow2_pos. Qed.
  Lemma small_lt c : small g c = true -> (c_order c < hord g)%nat. Proof. apply Nat.ltb_lt. Qed.

  Lemma anchored_small fm c G : cwf g fm c = true -> small g c = true -> is_get c = false ->
    g_h G = c_huge g c -> own_lo G = c_frame c -> 0 < own_n G -> anchored G.
  Proof.
    intros Hc Hs Hg E1 E2 Hn. destruct (small_call_decomp fm c Hc Hs Hg) as (E & H1 & H2 & _).
    split; [exact Hn|]. exists (t_row g XPut c), (t_off XPut c). rewrite E1, E2. auto.
  Qed.

  (* chunk c of the multi-row search *)
  Lemma chunk_fits c ch q : (7 <= c_order c)%nat -> ch <? c_chunks g c = true -> q <= c_nr c -> ch * c_nr c + q <= ROWS.
  Proof.
    intros H7 Hch Hq. unfold c_chunks in Hch. pose proof (pow2_nz (c_order c - 6)) as Hn. fold (c_nr c) in Hn.
    pose proof (N.mul_div_le ROWS (c_nr c) Hn). apply N.ltb_lt in Hch. nia.
  Qed.

  Lemma t_nrows_split old c : t_nrows g (XSplit old) c = ROWS.
  Proof. unfold t_nrows, t_order. symmetry. apply (ROWS_pow2 g wf). Qed.

  (* rows of a multi-row toggle of the call's own block *)
  Lemma toggle_rows_fit fm c : cwf g fm c = true -> small g c = true -> is_get c = false -> (7 <= c_order c)%nat ->
    t_off XPut c = 0 /\ c_n c = 64 * pow2 (c_order c - 6) /\ t_row g XPut c + pow2 (c_order c - 6) <= ROWS.
  Proof.
    intros Hc Hs Hg H7. destruct (small_call_decomp fm c Hc Hs Hg) as (_ & _ & _ & Hal & _).
    unfold small in Hs. apply Nat.ltb_lt in Hs.
    exact (small_rows7 (c_frame c) (c_order c) Hal Hs H7).
  Qed.

  (* rows of a toggle, in each of its contexts *)
  Lemma t_row_lt x c : t_row g x c < ROWS.
  Proof. pose proof (ROWS_pos g wf). destruct x; cbn [t_row]; try apply N.mod_lt; lia. Qed.
  Lemma toggle_row_lt fm x c q : cwf g fm c = true -> ctx_ok x c = true -> small g c = true -> (7 <= t_order g x c)%nat ->
    q < t_nrows g x c -> t_row g x c + q < ROWS.
  Proof.
    unfold t_nrows. destruct x as [| |old]; cbn [ctx_ok t_order]; intros Hc Hx Hs H7 Hq.
    - destruct (toggle_rows_fit fm c Hc Hs (is_getat_not_get c Hx) H7) as (_ & _ & Hf).
      change (t_row g XGetAt c) with (t_row g XPut c). lia.
    - destruct (toggle_rows_fit fm c Hc Hs (is_put_not_get c Hx) H7) as (_ & _ & Hf). lia.
    - cbn [t_row]. rewrite (ROWS_pow2 g wf). lia.
  Qed.

  Lemma gwf_gtoggle fm x c cnt : cwf g fm c = true -> ctx_ok x c = true -> small g c = true ->
    (not_xput x = true -> t_row g x c + cnt <= ROWS) -> gwf (gtoggle g x c cnt).
  Proof.
    intros Hc Hx Hs Hfit. pose proof (c_n_pos c) as Hn. pose proof (ROWS_pos g wf).
    assert (Ha : forall G, is_put c = true -> g_h G = c_huge g c -> own_lo G = c_frame c -> 0 < own_n G -> anchored G).
    { intros G Hp. apply (anchored_small fm c G Hc Hs (is_put_not_get c Hp)). }
    destruct x as [| |old]; cbn [gtoggle ctx_ok not_xput t_row] in *.
    - apply gwf_gtr; [exact Hn|apply Hfit; reflexivity].
    - constructor; cbn; intros; try lia.
      destruct (N.eq_dec cnt 0) as [->|]; [right; apply (Ha _ Hx); cbn; lia|left; lia].
    - apply andb_true_iff in Hx. destruct Hx as [Hp _]. specialize (Hfit eq_refl).
      constructor; cbn; intros; try lia. right. apply (Ha _ Hp); reflexivity || exact Hn.
  Qed.

  (* the huge frames visited by a get lie in the tree of the hint, which has a table *)
  Lemma child_h_lt fm c j : cwf g fm c = true -> is_get c = true -> child_h g c j < ntab g fm * THUGE.
  Proof.
    intros Hc Hg. destruct c as [st o| |]; try discriminate. unfold cwf in Hc.
    unfold child_h, c_tbase. cbn [c_frame] in *. pose proof (THUGE_pos g) as PT.
    pose proof (N.mod_lt (c_choff g (CGet st o) + j) THUGE ltac:(lia)).
    assert (st * 64 / TF + 1 <= ntab g fm) by lia.
    assert ((st * 64 / TF + 1) * THUGE <= ntab g fm * THUGE) by (apply N.mul_le_mono_r; assumption). lia.
  Qed.

  (* huge orders: groups of entries *)
  Lemma huge_call_aligned_geom fm c : cwf g fm c = true -> (hord g <= c_order c)%nat -> is_get c = false ->
    c_frame c = c_huge g c * HF /\ c_n c = c_hnum g c * HF.
  Proof.
    intros Hc Hk Hg. unfold c_n, c_hnum. rewrite (pow2_split (hord g) (c_order c) Hk), <- HF_pow2. split; [|reflexivity].
    destruct (cwf_block fm c Hc Hg) as [Hal _].
    rewrite (pow2_split (hord g) (c_order c) Hk), <- HF_pow2 in Hal.
    pose proof (HF_pos g). pose proof (pow2_nz (c_order c - hord g)).
    pose proof (mod_of_multiple (c_frame c) HF (pow2 (c_order c - hord g)) ltac:(lia) ltac:(lia)) as M.
    rewrite (N.mul_comm HF) in M. specialize (M Hal). unfold c_huge. pose proof (N.div_mod (c_frame c) HF ltac:(lia)). lia.
  Qed.
  Lemma le_nbf fm X : X * HF <= fm -> X <= nbf g fm.
  Proof.
    intros H. pose proof (HF_pos g) as P. pose proof (div_ceil_ge fm HF ltac:(lia)) as H1.
    apply (N.mul_le_mono_pos_r _ _ HF P). unfold nbf. lia.
  Qed.
  Lemma hnum_divides c : (hord g <= c_order c)%nat -> (c_order c <= tord g)%nat ->
    THUGE = pow2 (tlog g - (c_order c - hord g)) * c_hnum g c.
  Proof. intros H1 H2. unfold c_hnum, tord in *. rewrite THUGE_pow2. apply pow2_split. lia. Qed.

  (* get_at and put: the block itself is the one group *)
  Lemma huge_block_group fm c : cwf g fm c = true -> (hord g <= c_order c)%nat -> is_get c = false ->
    c_huge g c + c_hnum g c <= ntab g fm * THUGE /\ (c_huge g c * HF) mod pow2 (c_order c) = 0.
  Proof.
    intros Hc Hk Hg. destruct (huge_call_aligned_geom fm c Hc Hk Hg) as [E1 E2]. destruct (cwf_block fm c Hc Hg) as [Hal Hr].
    rewrite E1, E2 in Hr. split; [|rewrite <- E1; exact Hal].
    etransitivity; [|apply nbf_le_ents]. apply le_nbf. lia.
  Qed.

  Lemma huge_group fm c gi : cwf g fm c = true -> (hord g <= c_order c)%nat ->
    group_h g c gi + c_hnum g c <= ntab g fm * THUGE /\ (group_h g c gi * HF) mod pow2 (c_order c) = 0.
  Proof.
    intros Hc Hk. pose proof (HF_pos g) as PH. pose proof (THUGE_pos g) as PT.
    assert (Hn : c_hnum g c <> 0) by apply pow2_nz.
    assert (Ek : pow2 (c_order c) = c_hnum g c * HF) by (unfold c_hnum; rewrite HF_pow2; apply pow2_split; exact Hk).
    assert (Hto : (c_order c <= tord g)%nat) by (unfold cwf in Hc; lia).
    pose proof (hnum_divides c Hk Hto) as ET. set (m := pow2 (tlog g - (c_order c - hord g))) in *.
    assert (Hm : m <> 0) by apply pow2_nz.
    destruct c as [st o|f o|f o]; cbn [group_h].
    - (* get: the group lies in the tree of the hint *)
      assert (Htree : st * 64 / TF < ntab g fm) by (unfold cwf in Hc; lia).
      set (c := CGet st o) in *.
      set (A := c_choff g c / c_hnum g c).
      assert (EX : (A * c_hnum g c + gi * c_hnum g c) mod THUGE = c_hnum g c * ((A + gi) mod m)).
      { rewrite ET. replace (A * c_hnum g c + gi * c_hnum g c) with (c_hnum g c * (A + gi)) by lia.
        rewrite (N.mul_comm m). apply mod_mul_l; assumption. }
      rewrite EX. pose proof (N.mod_lt (A + gi) m Hm) as Hlt.
      assert (Hfit : c_hnum g c * ((A + gi) mod m) + c_hnum g c <= THUGE) by (rewrite ET; apply mul_succ_fit, Hlt).
      unfold c_tbase. subst c. cbn [c_frame]. split.
      + assert (st * 64 / TF + 1 <= ntab g fm) by lia.
        assert ((st * 64 / TF + 1) * THUGE <= ntab g fm * THUGE) by (apply N.mul_le_mono_r; assumption). lia.
      + rewrite Ek, ET.
        replace ((st * 64 / TF * (m * c_hnum g (CGet st o)) + c_hnum g (CGet st o) * ((A + gi) mod m)) * HF)
          with ((st * 64 / TF * m + (A + gi) mod m) * (c_hnum g (CGet st o) * HF)) by lia.
        apply N.mod_mul. rewrite <- Ek. apply pow2_nz.
    - apply (huge_block_group fm _ Hc Hk eq_refl).
    - apply (huge_block_group fm _ Hc Hk eq_refl).
  Qed.

  (* the block of a small get_at / put in (huge frame, row, bit) coordinates *)
  Lemma own_block_bits fm c h' r' i : cwf g fm c = true -> small g c = true -> is_get c = false -> (c_order c <= 6)%nat ->
    r' < ROWS -> i < 64 ->
    inb (c_frame c) (c_n c) (fidx g h' r' i)
    = (h' =? c_huge g c) && ((r' =? t_row g XPut c) && inb (t_off XPut c) (c_n c) i).
  Proof.
    intros Hc Hs Hg H6 Hr Hi. destruct (small_call_decomp fm c Hc Hs Hg) as (E & H1 & H2 & Hal & _).
    assert (Hk : (c_order c < hord g)%nat) by (unfold small in Hs; apply Nat.ltb_lt in Hs; exact Hs).
    pose proof (small_fit_bits (c_frame c) (c_order c) Hal Hk H6) as Hfit. fold (t_off XPut c) in Hfit. fold (c_n c) in Hfit.
    rewrite E at 1. unfold fidx. rewrite <- !N.add_assoc.
    rewrite (inb_in_huge g (c_huge g c) (t_row g XPut c * 64 + t_off XPut c) (c_n c) h' (r' * 64 + i)).
    - rewrite (inb_in_row (t_row g XPut c) (t_off XPut c) (c_n c) r' i Hfit Hi). reflexivity.
    - pose proof (rowbit_lt g wf (t_row g XPut c) 63 H1 ltac:(lia)). lia.
    - apply (rowbit_lt g wf); assumption.
  Qed.
  Lemma own_block_rows fm c q h' r' i : cwf g fm c = true -> small g c = true -> is_get c = false -> (7 <= c_order c)%nat ->
    q <= pow2 (c_order c - 6) -> r' < ROWS -> i < 64 ->
    inb (c_frame c + 64 * q) (c_n c - 64 * q) (fidx g h' r' i)
    = (h' =? c_huge g c) && inb (t_row g XPut c + q) (pow2 (c_order c - 6) - q) r'.
  Proof.
    intros Hc Hs Hg H7 Hq Hr Hi. destruct (small_call_decomp fm c Hc Hs Hg) as (E & H1 & H2 & Hal & _).
    destruct (toggle_rows_fit fm c Hc Hs Hg H7) as (E0 & En & Hfit).
    rewrite E, E0, En. unfold fidx. 
    replace (c_huge g c * HF + t_row g XPut c * 64 + 0 + 64 * q) with (c_huge g c * HF + (t_row g XPut c + q) * 64) by lia.
    replace (64 * pow2 (c_order c - 6) - 64 * q) with (64 * (pow2 (c_order c - 6) - q)) by lia.
    rewrite <- !N.add_assoc.
    rewrite (inb_in_huge g (c_huge g c) ((t_row g XPut c + q) * 64) _ h' (r' * 64 + i)).
    - rewrite (inb_rows (t_row g XPut c + q) _ r' i Hi). reflexivity.
    - rewrite (HF_64 g wf). nia.
    - apply (rowbit_lt g wf); assumption.
  Qed.

  Lemma local_gwf fm x : local_b g fm x = true -> gwf (ghost_of g x).
  Proof.
    destruct x as [l|c p|s c]; cbn [local_b ghost_of].
    - intros _. apply gwf_gh0.
    - intros H. apply andb_true_iff in H. destruct H as [Hc Hl]. pose proof (c_n_pos c) as Hn.
      destruct p; cbn [gpc lpc] in *;
        try apply gwf_gh0; try (apply gwf_gpend; exact Hn); try apply gwf_gown;
        try (destruct (is_put c); apply gwf_ghuge).
      + apply gwf_gtr; [exact Hn|]. apply chunk_fits; lia.
      + apply gwf_gtr; [exact Hn|]. apply chunk_fits; lia.
      + apply (gwf_gtoggle fm); try lia. intros _. pose proof (t_row_lt x c). lia.
      + apply (gwf_gtoggle fm); try lia. intros _. pose proof (t_row_lt x c). lia.
      + apply (gwf_gtoggle fm); try lia. intros _. pose proof (t_row_lt x c). lia.
      + apply (gwf_gtoggle fm); try lia. intros _. apply N.lt_le_incl, (toggle_row_lt fm); lia.
      + apply (gwf_gtoggle fm); try lia. intros _. pose proof (toggle_row_lt fm x c q). lia.
      + apply (gwf_gtoggle fm (XSplit old) c ROWS); cbn [ctx_ok t_row]; lia.
    - intros H. destruct s; try apply gwf_gh0. apply gwf_gown.
  Qed.
End Geom.
