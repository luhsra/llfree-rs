(* Thread-local part of the M2 invariant (UpperMachine.v): definitions.
   `twf u c p k`: shape of the (primitive, continuation stack) of a thread inside call c:
     - the top frame determines the kind and the parameters of the primitive in progress (`top_wf`),
     - the frames below are "passive" frames of search loops / of the API functions (`pas_wf`), they carry no ghost,
     - frames are ordered by the nesting level of the function they belong to (`lvl`): at most one per level,
       which bounds the stack (and the return chains of `settle`: fuel SETTLE is never exhausted),
     - the kind of value a function returns matches the frame below (`stack_ty`).
   `post_gh p v f`: the thread's ghost right after primitive p completed with value v under top frame f (the
   frame's own ghost `frame_gh f` not included).
   Only static parts of the shared state are read: number of trees, slot counts, `frames`, default class. *)
From Coq Require Import PeanoNat Permutation.
From LLF Require Import Base Row Bitfield Lower Spec Sorted Upper UpperInvDef UpperPrims LowerMachine ConcBase ConcInvDef
  UpperMachine UpperConcInvDef.

Definition gh_eq (a b : ugh) : Prop :=
  (forall i, crsum (g_cr a) i = crsum (g_cr b) i) /\ Permutation (g_ih a) (g_ih b) /\ g_bl a = g_bl b.

Section Wf.
  Variable g : geom.
  Variable policy : N -> N -> N -> pol.
  Notation TF := (TF g).

  (* ----- calls (what `check` and the scope restriction "valid parameters" guarantee) ----- *)
  Definition req_ok (u : upper) (r : request) : Prop :=
    (r_order r <= tord g)%nat /\ pow2 (r_order r) <= frames (low u) /\
    exists len, class_locals u (r_class r) = Some len /\ (forall l, r_local r = Some l -> l < len).
  Definition frame_ok (u : upper) (f : N) (o : nat) : Prop := f mod pow2 o = 0 /\ f + pow2 o <= frames (low u).
  (* change_tree within scope: Offline or a pure class change (an Online re-counts the tree non-atomically, which
     cannot be reconciled with frames in transit), onto a configured class *)
  Definition change_ok (u : upper) (ch : tree_change) : Prop :=
    c_op ch <> Some OpOnline /\ (forall c, c_class ch = Some c -> class_locals u c <> None).
  Definition call_wf (u : upper) (c : ucall) : Prop :=
    match c with
    | UGet None r => req_ok u r
    | UGet (Some f) r => req_ok u r /\ frame_ok u f (r_order r)
    | UPut f r => req_ok u r /\ frame_ok u f (r_order r)
    | UDrain => True
    | UChange _ ch => change_ok u ch
    end.

  (* ----- primitives ----- *)
  Definition tprim (u : upper) (p : prim) (i : N) (f : tfun) : Prop :=
    p = PTL i f \/ exists cur new, p = PTC i f cur new /\ tf_apply g policy (dflt u) f cur 0 = Some (Ok new).
  Definition sprim (p : prim) (c idx : N) (f : sfun) : Prop :=
    p = PSL c idx f \/ exists cur new, p = PSC c idx f cur new /\ sf_apply g f cur = Some (Ok new).
  Definition lprim (p : prim) (cl : call) : Prop := exists pc, p = PLow (TRun cl pc).

  Definition fr_tree (fr : option N) (t : N) : Prop := forall f, fr = Some f -> f / TF = t.
  Definition otree (fr : option N) : option N := option_map (fun f => f / TF) fr.
  Definition row_ok (u : upper) (fr : option N) (row : N) : Prop :=
    row_tree g row < ntrees u /\ fr_tree fr (row_tree g row).

  Definition ros_ok (u : upper) (c : ucall) (o : nat) (cl : N) : Prop :=
    exists r, c = UGet None r /\ o = r_order r /\ cl = r_class r /\ exists len, class_locals u cl = Some len /\ 0 < len.
  Definition acc_wf (u : upper) (c : ucall) (a : acc) : Prop :=
    match a with
    | AcRos o cl _ => ros_ok u c o cl
    | AcSteal cl o => exists r, c = UGet None r /\ o = r_order r /\ cl = r_class r
    | AcChange mc mf ch => exists m, c = UChange m ch /\ mc = m_class m /\ mf = m_free m
    end.
  Definition acc_get (a : acc) : Prop := match a with AcChange _ _ _ => False | _ => True end.
  Definition cands_ok (u : upper) (l : list (N * N)) : Prop := Forall (fun p => snd p < ntrees u) l.
  Definition sb_wf (u : upper) (c : ucall) (sb : sbst) : Prop :=
    (acc_wf u c (sb_acc sb) /\ acc_get (sb_acc sb)) /\ cands_ok u (sb_best sb) /\ ntrees u <> 0.

  (* the frame families (UpperMachine.v) by the function of llfree.rs / trees.rs / local.rs whose body they continue:
     KGL* get_local, KSBL search_best, KRS* reserve_or_steal, KUnres / KRetR the unreserve and the return after it,
     KSG* steal_global, KSL* steal_local, KDL* demote_local, KPut* put, KDr* drain, KCh change_at *)
  Definition top_wf (u : upper) (c : ucall) (p : prim) (f : kframe) : Prop :=
    match f with
    | KGL1 o cl local fr _ =>
        exists r, c = UGet fr r /\ o = r_order r /\ cl = r_class r /\
          sprim p cl local (SGet (otree fr) (pow2 o)) /\ slot_ok u cl local = true
    | KGL2 o cl local row =>
        exists fr r, c = UGet fr r /\ o = r_order r /\ cl = r_class r /\ slot_ok u cl local = true /\
          lprim p (low_get_call row o fr) /\ row_ok u fr row
    | KGL3 _ cl =>
        exists fr r local row', c = UGet fr r /\ cl = r_class r /\ sprim p cl local (SSetStart row') /\
          slot_ok u cl local = true /\ row' * 64 < frames (low u)
    | KGL4 _ t => exists n, tprim u p t (FPut n) /\ t < ntrees u
    | KGL5 o cl local fr t =>
        exists r mn, c = UGet fr r /\ o = r_order r /\ cl = r_class r /\ tprim u p t (FSync mn) /\ t < ntrees u /\
          slot_ok u cl local = true
    | KGL6 o cl local fr t am =>
        exists r, c = UGet fr r /\ o = r_order r /\ cl = r_class r /\ sprim p cl local (SPut t am) /\ t < ntrees u /\
          slot_ok u cl local = true
    | KSBL sb => (exists i, p = PLd i /\ i < ntrees u) /\ sb_wf u c sb
    | KRS1 i o cl _ => ros_ok u c o cl /\ tprim u p i (FRos (pow2 o) cl) /\ i < ntrees u
    | KRS2 i o _ reserved free tc =>
        exists r, c = UGet None r /\ o = r_order r /\ lprim p (CGet (tree_row g i) o) /\ i < ntrees u /\
          (reserved = true -> tc = r_class r /\ pow2 o <= free /\ exists len, class_locals u tc = Some len /\ 0 < len)
    | KRS3 _ tc => exists r idx new, c = UGet None r /\ p = PSW tc idx new /\ slot_ok u tc idx = true /\ s_pres new = true /\
                               s_row new * 64 < frames (low u)
    | KUnres rr => (exists t a cl, tprim u p t (FUnres a cl) /\ t < ntrees u) /\ (forall z, rr <> Panic z) /\
                   (forall x, rr = Ok x -> exists fr r, c = UGet fr r)
    | KRetR rr =>
        (exists t n, tprim u p t (FPut n) /\ t < ntrees u) /\ (forall z, rr <> Panic z) /\
        (forall x, rr = Ok x -> exists f r, c = UPut f r)
    | KSG1 i o fr =>
        exists r, c = UGet fr r /\ o = r_order r /\ tprim u p i (FSteal (r_class r) (pow2 o)) /\ i < ntrees u /\ fr_tree fr i
    | KSG2 i o _ =>
        exists fr r, c = UGet fr r /\ o = r_order r /\ lprim p (low_get_call (tree_row g i) o fr) /\ i < ntrees u /\ fr_tree fr i
    | KSL1 r fr i _ =>
        c = UGet fr r /\
        exists idx, sprim p ((i + r_class r) mod 8) idx (SGet (otree fr) (pow2 (r_order r))) /\
                    slot_ok u ((i + r_class r) mod 8) idx = true
    | KSL2 r row _ => exists fr, c = UGet fr r /\ lprim p (low_get_call row (r_order r) fr) /\ row_ok u fr row
    | KDL1 r fr i _ =>
        c = UGet fr r /\
        exists idx, sprim p ((i + r_class r) mod 8) idx (SGetNone (otree fr) (pow2 (r_order r))) /\
                    slot_ok u ((i + r_class r) mod 8) idx = true /\
                    policy (r_class r) ((i + r_class r) mod 8) (pow2 (r_order r)) = PDemote
    | KDL2 r fr row =>
        c = UGet fr r /\
        exists lc new, p = PSW (r_class r) lc new /\ slot_ok u (r_class r) lc = true /\ s_pres new = true /\
                       s_row new = row /\ row_ok u fr row /\ row * 64 < frames (low u)
    | KDL3 r fr row =>
        c = UGet fr r /\ (exists t a, tprim u p t (FUnres a (r_class r)) /\ t < ntrees u) /\ row_ok u fr row
    | KDL4 r row => exists fr, c = UGet fr r /\ lprim p (low_get_call row (r_order r) fr) /\ row_ok u fr row
    | KPut1 f r => c = UPut f r /\ lprim p (CPut f (r_order r))
    | KPut2 f r =>
        c = UPut f r /\
        exists local, sprim p (r_class r) local (SPut (f / TF) (pow2 (r_order r))) /\ slot_ok u (r_class r) local = true
    | KDr1 cc j => c = UDrain /\ p = PSW cc j slot_none /\ slot_ok u cc j = true
    | KDr2 cc _ => c = UDrain /\ exists t a, tprim u p t (FUnres a cc) /\ t < ntrees u
    | KCh => exists i m ch, c = UChange m ch /\ tprim u p i (FChange (m_class m) (m_free m) ch) /\ i < ntrees u
    | _ => False
    end.

  Definition pas_wf (u : upper) (c : ucall) (f : kframe) : Prop :=
    match f with
    | KGet1 r _ =>
        c = UGet None r /\ exists local len, r_local r = Some local /\ class_locals u (r_class r) = Some len /\ 0 < len
    | KGet2 r fr | KOom1 r fr => c = UGet fr r
    | KAt1 f r => c = UGet (Some f) r
    | KSR1 o cl _ _ => ros_ok u c o cl
    | KSBA sb => sb_wf u c sb
    | KSBT sb cands => sb_wf u c sb /\ cands_ok u cands
    | KSe a _ _ => acc_wf u c a /\ (exists mc mf ch, a = AcChange mc mf ch) /\ ntrees u <> 0
    | _ => False
    end.

  (* nesting level of the function a frame belongs to *)
  Definition lvl (f : kframe) : nat :=
    match f with
    | KGet1 _ _ | KGet2 _ _ | KOom1 _ _ | KAt1 _ _ | KPut1 _ _ | KPut2 _ _ | KDr1 _ _ | KDr2 _ _ => 5
    | KSR1 _ _ _ _ => 4
    | KSBL _ | KSBA _ | KSBT _ _ | KSe _ _ _ => 3
    | _ => 2
    end.
  Fixpoint sorted_from (lo : nat) (k : list kframe) : Prop :=
    match k with
    | [] => True
    | f :: r => (lo < lvl f)%nat /\ sorted_from (lvl f) r
    end.
  (* frames that expect the result of get_local *)
  Definition wants_vg (f : kframe) : bool := match f with KGet1 _ _ | KAt1 _ _ => true | _ => false end.
  Definition gives_vg (f : kframe) : bool :=
    match f with
    | KGL1 _ _ _ _ _ | KGL2 _ _ _ _ | KGL3 _ _ | KGL4 _ _ | KGL5 _ _ _ _ _ | KGL6 _ _ _ _ _ _ => true
    | _ => false
    end.
  (* the value kind returned to stack k by a function returning VG (b = true) / VR *)
  Definition ret_ty (b : bool) (k : list kframe) : Prop :=
    match k with
    | [] => b = false
    | h :: r => wants_vg h = b /\ Forall (fun x => wants_vg x = false) r
    end.

  Definition pas_stack (u : upper) (c : ucall) (lo : nat) (k : list kframe) : Prop :=
    Forall (pas_wf u c) k /\ sorted_from lo k.

  Definition twf (u : upper) (c : ucall) (p : prim) (k : list kframe) : Prop :=
    match k with
    | [] => False
    | f :: r => top_wf u c p f /\ pas_stack u c (lvl f) r /\ ret_ty (gives_vg f) r
    end.

  (* ----- the ghost right after a primitive completed ----- *)
  Definition rt (s : slot) : N := row_tree g (s_row s).
  Definition post_gh (p : prim) (v : val) (f : kframe) : ugh :=
    match p, v with
    | (PTL i f0 | PTC i f0 _ _ | PTF i f0 _ _ _), VT true old new =>
        match f0 with
        | FSync _ => gh_cr i (t_free old)
        | FSteal _ n => gh_cr i n
        | FRos n _ => if t_res new then gh_add (gh_ih i (t_class new) (t_free old - n)) (gh_cr i n) else gh_cr i n
        | _ => gh_nil
        end
    | (PTL i f0 | PTC i f0 _ _ | PTF i f0 _ _ _), VT false _ _ => tf_gh i f0
    | (PSL _ _ f0 | PSC _ _ f0 _ _), VS true old _ =>
        match f0 with
        | SGet _ n => gh_cr (rt old) n
        | SGetNone _ n =>
            match f with
            | KDL1 r _ _ _ => gh_add (gh_ih (rt old) (r_class r) (s_free old - n)) (gh_cr (rt old) n)
            | _ => gh_nil
            end
        | _ => gh_nil
        end
    | (PSL _ _ f0 | PSC _ _ f0 _ _), VS false _ _ => sf_gh f0
    | PSW c _ _, VS _ old _ => slot_gh g c old
    | PLow (TRun cl _), VL (Ok fr) =>
        match f with
        | KRS2 i o _ true free tc => gh_add (gh_ih i tc (free - pow2 o)) (gh_bl fr)
        | KPut1 frame r => gh_cr (frame / TF) (pow2 (r_order r))
        | _ => gh_bl fr
        end
    | PLow (TRun cl _), VL (Err _) =>
        match f with
        | KPut1 _ _ => gh_nil
        | KRS2 i _ _ true free tc => gh_ih i tc free
        | _ => low_gh g (c_n cl) (Some f)
        end
    | _, _ => gh_nil
    end.

  (* the ghost of a finished call: the block of a successful get is still in flight *)
  Definition ret_gh (c : ucall) (r : res (N * N)) : ugh :=
    match c, r with
    | UGet _ _, Ok (fr, _) => gh_bl fr
    | _, _ => gh_nil
    end.

  (* static parts of the shared state *)
  Definition static_eq (u u' : upper) : Prop :=
    ntrees u' = ntrees u /\ (forall c, class_locals u' c = class_locals u c) /\
    frames (low u') = frames (low u) /\ dflt u' = dflt u.
End Wf.
