(* What the invariant of the lower machine (M1) is written with: N-valued sums over lists and index ranges,
   intervals in (huge frame, row, bit) coordinates, the bits of a 64-bit row.  Geometry comes from AbsLemmas.v. *)
From LLF Require Import Base BitLemmas Row RowProofs Bitfield Lower Spec LowerMachine.
From LLF Require Export AbsLemmas.
From Coq Require Import ZArith ZifyClasses ZifyN ZifyBool.

(* lia support for N.b2n *)
Lemma Nb2n_b2z x : Z.of_N (N.b2n x) = Z.b2z x. Proof. destruct x; reflexivity. Qed.
#[global] Instance Op_Nb2n : UnOp N.b2n := { TUOp := Z.b2z; TUOpInj := Nb2n_b2z }.
Add Zify UnOp Op_Nb2n.
Notation b2n := N.b2n.

Lemma b2n_le1 b : b2n b <= 1. Proof. lia. Qed.
Lemma b2n_true b : 1 <= b2n b -> b = true. Proof. lia. Qed.

Definition sumf {A} (f : A -> N) (l : list A) : N := fold_right (fun p a => f p + a) 0 l.

Lemma sumf_nil {A} (f : A -> N) : sumf f [] = 0. Proof. reflexivity. Qed.
Lemma sumf_cons {A} (f : A -> N) a l : sumf f (a :: l) = f a + sumf f l. Proof. reflexivity. Qed.

Lemma sumf_upd {A} (f : A -> N) l t p x : nth_error l t = Some x ->
  sumf f (upd l t p) + f x = sumf f l + f p.
Proof.
  revert t; induction l as [|a r IH]; destruct t; cbn [nth_error upd]; intros H; try discriminate.
  - inversion H; subst. rewrite !sumf_cons. lia.
  - rewrite !sumf_cons. specialize (IH t H). lia.
Qed.
Lemma sumf_ge {A} (f : A -> N) l t x : nth_error l t = Some x -> f x <= sumf f l.
Proof.
  revert t; induction l as [|a r IH]; destruct t; cbn [nth_error]; intros H; try discriminate.
  - inversion H; subst. rewrite sumf_cons. lia.
  - rewrite sumf_cons. specialize (IH t H). lia.
Qed.
Lemma sumf_ge_in {A} (f : A -> N) l x : In x l -> f x <= sumf f l.
Proof. induction l as [|a r IH]; cbn [In]; intros H; [tauto|]. rewrite sumf_cons. destruct H as [->|H]; [lia|specialize (IH H); lia]. Qed.
Lemma sumf_ext_in {A} (f g : A -> N) l : (forall x, In x l -> f x = g x) -> sumf f l = sumf g l.
Proof. induction l; intros H; [reflexivity|]. rewrite !sumf_cons, (H a), IHl; auto using in_eq, in_cons. Qed.
Lemma sumf_le_in {A} (f g : A -> N) l : (forall x, In x l -> f x <= g x) -> sumf f l <= sumf g l.
Proof. induction l; intros H; [reflexivity|]. rewrite !sumf_cons. pose proof (H a (in_eq _ _)).
  specialize (IHl (fun x Hx => H x (in_cons _ _ _ Hx))). lia. Qed.
Lemma sumf_add {A} (f g : A -> N) l : sumf (fun x => f x + g x) l = sumf f l + sumf g l.
Proof. induction l; [reflexivity|]. rewrite !sumf_cons, IHl. lia. Qed.
Lemma sumf_mulc {A} (f : A -> N) c l : sumf (fun x => c * f x) l = c * sumf f l.
Proof. induction l; [rewrite !sumf_nil; lia|]. rewrite !sumf_cons, IHl. lia. Qed.
Lemma sumf_swap {A C} (f : A -> C -> N) (la : list A) (lc : list C) :
  sumf (fun a => sumf (f a) lc) la = sumf (fun c => sumf (fun a => f a c) la) lc.
Proof. induction la.
  - rewrite sumf_nil. induction lc; [reflexivity|]. rewrite sumf_cons, <- IHlc. reflexivity.
  - rewrite sumf_cons, IHla, <- sumf_add. reflexivity. Qed.
Lemma sumf_zero {A} (f : A -> N) l : sumf f l = 0 -> forall x, In x l -> f x = 0.
Proof. induction l; intros H x Hx; [destruct Hx|]. rewrite sumf_cons in H.
  destruct Hx as [->|Hx]; [lia|apply IHl; [lia|exact Hx]]. Qed.
Lemma sumf_all_zero {A} (f : A -> N) l : (forall x, In x l -> f x = 0) -> sumf f l = 0.
Proof. induction l; intros H; [reflexivity|]. rewrite sumf_cons, (H a (in_eq _ _)), IHl; auto using in_cons. Qed.
Lemma sumf_map {A C} (f : C -> N) (g : A -> C) l : sumf f (map g l) = sumf (fun x => f (g x)) l.
Proof. induction l; [reflexivity|]. cbn [map]. rewrite !sumf_cons, IHl. reflexivity. Qed.
Lemma sumf_app {A} (f : A -> N) l1 l2 : sumf f (l1 ++ l2) = sumf f l1 + sumf f l2.
Proof. induction l1; [reflexivity|]. cbn [app]. rewrite !sumf_cons, IHl1. lia. Qed.
Lemma sumf_repeat_zero {A} (f : A -> N) x n : f x = 0 -> sumf f (repeat x n) = 0.
Proof. intros H; induction n; [reflexivity|]. cbn [repeat]. rewrite sumf_cons, H, IHn. reflexivity. Qed.

(* sums over index ranges 0 <= x < n *)
Definition nseq (n : N) : list N := map N.of_nat (seq 0 (N.to_nat n)).
Definition ssum (n : N) (g : N -> N) : N := sumf g (nseq n).

Lemma in_nseq n x : In x (nseq n) <-> x < n.
Proof. unfold nseq. rewrite in_map_iff. split.
  - intros (k & <- & Hk). apply in_seq in Hk. lia.
  - intros H. exists (N.to_nat x). split; [lia|]. apply in_seq. lia. Qed.
Lemma nseq_succ n : nseq (n + 1) = nseq n ++ [n].
Proof. unfold nseq. replace (N.to_nat (n + 1)) with (S (N.to_nat n)) by lia.
  rewrite seq_S, map_app. cbn [map plus]. rewrite N2Nat.id. reflexivity. Qed.
Lemma ssum_0 g : ssum 0 g = 0. Proof. reflexivity. Qed.
Lemma ssum_succ n g : ssum (n + 1) g = ssum n g + g n.
Proof. unfold ssum. rewrite nseq_succ, sumf_app, sumf_cons, sumf_nil. lia. Qed.
Lemma ssum_ext n g h : (forall i, i < n -> g i = h i) -> ssum n g = ssum n h.
Proof. intros H. apply sumf_ext_in. intros x Hx. apply in_nseq in Hx. auto. Qed.
Lemma ssum_le n g h : (forall i, i < n -> g i <= h i) -> ssum n g <= ssum n h.
Proof. intros H. apply sumf_le_in. intros x Hx. apply in_nseq in Hx. auto. Qed.
Lemma ssum_add n g h : ssum n (fun i => g i + h i) = ssum n g + ssum n h.
Proof. apply sumf_add. Qed.
Lemma ssum_mulc n c g : ssum n (fun i => c * g i) = c * ssum n g.
Proof. apply sumf_mulc. Qed.
Lemma ssum_zero n g : ssum n g = 0 -> forall i, i < n -> g i = 0.
Proof. intros H i Hi. apply (sumf_zero _ _ H). apply in_nseq. exact Hi. Qed.
Lemma ssum_ge n g i : i < n -> g i <= ssum n g.
Proof. intros Hi. apply sumf_ge_in. apply in_nseq. exact Hi. Qed.
Lemma ssum_sumf {A} n (f : N -> A -> N) (l : list A) :
  ssum n (fun i => sumf (f i) l) = sumf (fun p => ssum n (fun i => f i p)) l.
Proof. apply sumf_swap. Qed.

Lemma ssum_ind (P : N -> Prop) : P 0 -> (forall n, P n -> P (n + 1)) -> forall n, P n.
Proof. intros H0 HS n. induction n using N.peano_ind; [exact H0|]. rewrite <- N.add_1_r. auto. Qed.

Lemma ssum_const n c : ssum n (fun _ => c) = n * c.
Proof. induction n using ssum_ind; [reflexivity|]. rewrite ssum_succ, IHn. lia. Qed.
Definition inb (lo cnt x : N) : bool := (lo <=? x) && (x <? lo + cnt).
Lemma inb_empty lo x : inb lo 0 x = false.
Proof. unfold inb. lia. Qed.
(* number of indices below n inside [lo, lo+cnt) *)
Lemma ssum_inb n lo cnt : ssum n (fun x => b2n (inb lo cnt x)) = N.min (lo + cnt) n - N.min lo n.
Proof. unfold inb. induction n using ssum_ind; [rewrite ssum_0; lia|]. rewrite ssum_succ, IHn. lia. Qed.
Lemma ssum_inb_in n lo cnt : lo + cnt <= n -> ssum n (fun x => b2n (inb lo cnt x)) = cnt.
Proof. intros H. rewrite ssum_inb. lia. Qed.
Lemma ssum_eqb n k : ssum n (fun x => b2n (x =? k)) = b2n (k <? n).
Proof. induction n using ssum_ind; [rewrite ssum_0; lia|]. rewrite ssum_succ, IHn. lia. Qed.

Lemma ssum_shift n m g : ssum (n + m) g = ssum n g + ssum m (fun i => g (n + i)).
Proof. induction m using ssum_ind.
  - rewrite N.add_0_r, ssum_0. lia.
  - rewrite N.add_assoc, !ssum_succ, IHm. lia. Qed.
(* a double sum over (r, i), i < C, is a single sum over r * C + i *)
Lemma ssum_flatten R C g : ssum R (fun r => ssum C (fun i => g (r * C + i))) = ssum (R * C) g.
Proof. induction R using ssum_ind; [reflexivity|].
  rewrite ssum_succ, IHR. replace ((R + 1) * C) with (R * C + C) by lia. rewrite ssum_shift. reflexivity. Qed.

Lemma Forall_upd {A} (P : A -> Prop) l t x : Forall P l -> P x -> Forall P (upd l t x).
Proof. intros H; revert t; induction H; destruct t; cbn [upd]; intros; constructor; auto. Qed.
Lemma Forall_nth_error {A} (P : A -> Prop) l t x : Forall P l -> nth_error l t = Some x -> P x.
Proof. intros H; revert t; induction H; destruct t; cbn [nth_error]; intros E; try discriminate;
  [inversion E; subst; auto|eauto]. Qed.
Lemma nth_error_upd {A} (l : list A) i j x :
  nth_error (upd l i x) j = if Nat.eqb i j then (if Nat.ltb i (length l) then Some x else None) else nth_error l j.
Proof.
  destruct (Nat.eqb_spec i j) as [<-|Hne].
  - destruct (Nat.ltb_spec i (length l)).
    + apply nth_error_upd_same; assumption.
    + rewrite upd_oob by assumption. apply nth_error_None. assumption.
  - apply nth_error_upd_other; assumption.
Qed.
Lemma upd_same_inv {A} (l : list A) t x y : nth_error (upd l t x) t = Some y -> y = x.
Proof. rewrite nth_error_upd, Nat.eqb_refl. destruct (Nat.ltb t (length l)); congruence. Qed.
Lemma nth_error_seq a n i : (i < n)%nat -> nth_error (seq a n) i = Some (a + i)%nat.
Proof. revert a i; induction n; intros a i H; [lia|]. destruct i; cbn [seq nth_error]; [f_equal; lia|]. rewrite IHn by lia. f_equal. lia. Qed.
Lemma nth_error_map_seq {A} (F : nat -> A) n i : (i < n)%nat -> nth_error (map F (seq 0 n)) i = Some (F i).
Proof. intros H. erewrite map_nth_error; [reflexivity|]. rewrite nth_error_seq by exact H. reflexivity. Qed.
Lemma nth_error_repeat {A} (x : A) n i : (i < n)%nat -> nth_error (repeat x n) i = Some x.
Proof. revert i; induction n; destruct i; cbn [repeat nth_error]; intros; try lia; auto. apply IHn; lia. Qed.
Lemma nth_error_some_lt {A} (l : list A) i x : nth_error l i = Some x -> (i < length l)%nat.
Proof. intros H. apply nth_error_Some. congruence. Qed.

Lemma sumf_nth_error {A} (f : A -> N) (l : list A) :
  sumf f l = ssum (N.of_nat (length l)) (fun i => match nth_error l (nn i) with Some x => f x | None => 0 end).
Proof.
  induction l as [|a l IH] using rev_ind; [reflexivity|].
  rewrite app_length, sumf_app, sumf_cons, sumf_nil. cbn [length].
  replace (N.of_nat (length l + 1)) with (N.of_nat (length l) + 1) by lia. rewrite ssum_succ.
  unfold nn. rewrite Nat2N.id, nth_error_app2, Nat.sub_diag by lia. cbn [nth_error]. rewrite IH.
  f_equal; [|lia]. apply ssum_ext. intros i Hi. rewrite nth_error_app1 by (unfold nn; lia). reflexivity.
Qed.

Lemma lxor_1 a : N.lxor a 1 = if N.even a then a + 1 else a - 1.
Proof. destruct a as [|[p|p|]]; cbn; try reflexivity; lia. Qed.
Lemma div_mul_div f A B : A <> 0 -> B <> 0 -> (f / A * A) / (A * B) = f / (A * B).
Proof. intros HA HB. rewrite <- !N.div_div by assumption. rewrite N.div_mul by assumption. reflexivity. Qed.

Lemma pow2_0 : pow2 0 = 1. Proof. reflexivity. Qed.
Lemma pow2_6 : pow2 6 = 64. Proof. reflexivity. Qed.

Section Geom.
  Variable g : geom.
  Hypothesis wf : wf_geom g.
  Notation HF := (HF g).
  Notation TF := (TF g).
  Notation THUGE := (THUGE g).
  Notation ROWS := (ROWS g).

  Lemma pow2_le_HF k : (k <= hord g)%nat -> pow2 k <= HF. Proof. exact (AbsLemmas.pow2_le_HF g k). Qed.
  Lemma pow2_lt_HF k : (k < hord g)%nat -> pow2 k < HF. Proof. exact (AbsLemmas.pow2_lt_HF g k). Qed.

  (* intervals of frames in (huge frame, row, bit) coordinates *)
  Lemma rowbit_lt r i : r < ROWS -> i < 64 -> r * 64 + i < HF.
  Proof. intros. rewrite (HF_64 g wf). nia. Qed.

  Lemma inb_in_huge h0 b0 w h b : b0 + w <= HF -> b < HF ->
    inb (h0 * HF + b0) w (h * HF + b) = (h =? h0) && inb b0 w b.
  Proof.
    intros Hw Hb. unfold inb. pose proof (HF_pos g).
    destruct (N.eqb_spec h h0) as [->|Hne]; [cbn [andb]; lia|].
    cbn [andb]. destruct (N.lt_gt_cases h h0) as [Hn _]. specialize (Hn Hne). destruct Hn as [Hlt|Hgt].
    - assert (h * HF + HF <= h0 * HF) by nia. lia.
    - assert (h0 * HF + HF <= h * HF) by nia. lia.
  Qed.
  Lemma inb_in_row r0 off w r i : off + w <= 64 -> i < 64 ->
    inb (r0 * 64 + off) w (r * 64 + i) = (r =? r0) && inb off w i.
  Proof. intros Hw Hi. unfold inb. lia. Qed.
  Lemma inb_rows r0 cnt r i : i < 64 -> inb (r0 * 64) (64 * cnt) (r * 64 + i) = inb r0 cnt r.
  Proof. intros Hi. unfold inb. lia. Qed.
  Lemma inb_ents h0 cnt h b : b < HF -> inb (h0 * HF) (cnt * HF) (h * HF + b) = inb h0 cnt h.
  Proof.
    intros Hb. unfold inb. pose proof (HF_pos g).
    destruct (N.leb_spec h0 h) as [H1|H1]; destruct (N.ltb_spec h (h0 + cnt)) as [H2|H2]; cbn [andb].
    - assert (h0 * HF <= h * HF) by nia. assert (h * HF + HF <= (h0 + cnt) * HF) by nia. lia.
    - assert (h0 * HF <= h * HF) by nia. assert ((h0 + cnt) * HF <= h * HF) by nia. lia.
    - assert (h * HF + HF <= h0 * HF) by nia. lia.
    - assert (h * HF + HF <= h0 * HF) by nia. lia.
  Qed.
End Geom.

(* zero bits of a 64-bit row *)
Definition cz (v : N) : N := ssum 64 (fun i => 1 - b2n (N.testbit v i)).

Lemma cz_le v : cz v <= 64.
Proof. unfold cz. etransitivity; [apply (ssum_le _ _ (fun _ => 1)); intros; lia|]. rewrite ssum_const. lia. Qed.
Lemma cz_0 : cz 0 = 64. Proof. reflexivity. Qed.
Lemma cz_MAX64 : cz MAX64 = 0. Proof. reflexivity. Qed.

Lemma testbit_MAX64 i : N.testbit MAX64 i = (i <? 64).
Proof. rewrite MAX64_ones. destruct (N.ltb_spec i 64); [apply N.ones_spec_low|apply N.ones_spec_high]; lia. Qed.
Lemma row_high v i : v < W64 -> 64 <= i -> N.testbit v i = false.
Proof. intros Hv Hi. apply (testbit_high v 64); [rewrite <- W64_pow; exact Hv|exact Hi]. Qed.
Lemma row_all_set v : v < W64 -> (forall i, i < 64 -> N.testbit v i = true) -> v = MAX64.
Proof. intros Hv H. apply N.bits_inj. intros i. rewrite testbit_MAX64. destruct (N.ltb_spec i 64); [apply H; assumption|].
  apply row_high; assumption. Qed.
Lemma row_all_clear v : v < W64 -> (forall i, i < 64 -> N.testbit v i = false) -> v = 0.
Proof. intros Hv H. apply N.bits_inj. intros i. rewrite N.bits_0. destruct (N.lt_ge_cases i 64); [apply H; assumption|].
  apply row_high; assumption. Qed.

(* effect on the zero count of setting / clearing the bits [off, off+w) *)
Lemma cz_set v v' off w : off + w <= 64 ->
  (forall i, i < 64 -> N.testbit v' i = N.testbit v i || inb off w i) ->
  (forall i, inb off w i = true -> N.testbit v i = false) ->
  cz v' + w = cz v.
Proof.
  intros Hw Hs Hz. unfold cz. rewrite <- (ssum_inb_in 64 off w Hw), <- ssum_add.
  apply ssum_ext. intros i Hi. rewrite (Hs i Hi). specialize (Hz i).
  destruct (inb off w i); [rewrite Hz by reflexivity; cbn; lia|]. rewrite orb_false_r. lia.
Qed.
Lemma cz_clear v v' off w : off + w <= 64 ->
  (forall i, i < 64 -> N.testbit v' i = N.testbit v i && negb (inb off w i)) ->
  (forall i, inb off w i = true -> N.testbit v i = true) ->
  cz v' = cz v + w.
Proof.
  intros Hw Hs Hz. unfold cz. rewrite <- (ssum_inb_in 64 off w Hw), <- ssum_add.
  apply ssum_ext. intros i Hi. rewrite (Hs i Hi). specialize (Hz i).
  destruct (inb off w i); [rewrite Hz by reflexivity; cbn; lia|]. rewrite andb_true_r. lia.
Qed.

(* masks *)
Lemma testbit_mask64 w off i : N.testbit (mask64 w off) i = inb off w i.
Proof.
  unfold mask64, ones, inb.
  destruct (N.leb_spec off i) as [H|H].
  - rewrite N.shiftl_spec_high' by assumption.
    destruct (N.ltb_spec i (off + w)); [rewrite N.ones_spec_low by lia|rewrite N.ones_spec_high by lia]; reflexivity.
  - rewrite N.shiftl_spec_low by assumption. reflexivity.
Qed.
Lemma mask64_lt w off : off + w <= 64 -> mask64 w off < W64.
Proof. intros H. rewrite W64_pow. apply lt_pow2_bits. intros i Hi. rewrite testbit_mask64. unfold inb. lia. Qed.
Lemma land_mask_zero e m : N.land e m = 0 <-> (forall i, N.testbit m i = true -> N.testbit e i = false).
Proof. split.
  - intros H i Hm. assert (T : N.testbit (N.land e m) i = false) by (rewrite H; apply N.bits_0).
    rewrite N.land_spec, Hm, andb_true_r in T. exact T.
  - intros H. apply N.bits_inj. intros i. rewrite N.bits_0, N.land_spec. specialize (H i).
    destruct (N.testbit m i); [rewrite H by reflexivity; reflexivity|apply andb_false_r]. Qed.
Lemma land_mask_full e m : N.land e m = m <-> (forall i, N.testbit m i = true -> N.testbit e i = true).
Proof. split.
  - intros H i Hm. assert (T : N.testbit (N.land e m) i = true) by (rewrite H; exact Hm).
    rewrite N.land_spec, Hm, andb_true_r in T. exact T.
  - intros H. apply N.bits_inj. intros i. rewrite N.land_spec. specialize (H i).
    destruct (N.testbit m i); [rewrite H by reflexivity; reflexivity|apply andb_false_r]. Qed.
Lemma land_lt a b : a < W64 -> N.land a b < W64.
Proof. intros H. rewrite W64_pow in *. apply lt_pow2_bits. intros i Hi. rewrite N.land_spec, (testbit_high a 64 i) by assumption. reflexivity. Qed.
Lemma lxor_lt a b : a < W64 -> b < W64 -> N.lxor a b < W64.
Proof. intros Ha Hb. rewrite W64_pow in *. apply lt_pow2_bits. intros i Hi.
  rewrite N.lxor_spec, (testbit_high a 64 i), (testbit_high b 64 i) by assumption. reflexivity. Qed.
Lemma lor_lt a b : a < W64 -> b < W64 -> N.lor a b < W64.
Proof. rewrite W64_pow. apply lor_lt_pow2. Qed.

(* the lane of a narrow compare-exchange *)
Lemma lane_testbit_sh cur off w j : N.testbit (N.land (N.shiftr cur off) (ones w)) j = N.testbit cur (j + off) && (j <? w).
Proof. unfold ones. rewrite N.land_spec, N.shiftr_spec'.
  destruct (N.ltb_spec j w); [rewrite N.ones_spec_low by assumption|rewrite N.ones_spec_high by assumption]; reflexivity. Qed.
Lemma lane_zero cur off w : N.land (N.shiftr cur off) (ones w) = 0 <-> (forall i, inb off w i = true -> N.testbit cur i = false).
Proof. unfold inb. split.
  - intros H i Hi. assert (T : N.testbit (N.land (N.shiftr cur off) (ones w)) (i - off) = false) by (rewrite H; apply N.bits_0).
    rewrite lane_testbit_sh in T. replace (i - off + off) with i in T by lia.
    destruct (N.ltb_spec (i - off) w); [|lia]. rewrite andb_true_r in T. exact T.
  - intros H. apply N.bits_inj. intros j. rewrite N.bits_0, lane_testbit_sh.
    destruct (N.ltb_spec j w); [|apply andb_false_r]. rewrite H by lia. reflexivity. Qed.
Lemma lane_ones cur off w : N.land (N.shiftr cur off) (ones w) = ones w <-> (forall i, inb off w i = true -> N.testbit cur i = true).
Proof. unfold inb. split.
  - intros H i Hi. assert (T : N.testbit (N.land (N.shiftr cur off) (ones w)) (i - off) = true).
    { rewrite H. unfold ones. apply N.ones_spec_low. lia. }
    rewrite lane_testbit_sh in T. replace (i - off + off) with i in T by lia.
    apply andb_true_iff in T. tauto.
  - intros H. apply N.bits_inj. intros j. rewrite lane_testbit_sh. unfold ones.
    destruct (N.ltb_spec j w); [rewrite N.ones_spec_low by assumption|rewrite N.ones_spec_high by assumption; apply andb_false_r].
    rewrite H by lia. reflexivity. Qed.
Lemma testbit_lxor_mask cur off w i : N.testbit (N.lxor cur (N.shiftl (ones w) off)) i = xorb (N.testbit cur i) (inb off w i).
Proof. rewrite N.lxor_spec. change (N.shiftl (ones w) off) with (mask64 w off). rewrite testbit_mask64. reflexivity. Qed.

(* popcount is the number of set bits (needed once, to read LowerInv's counter at boot) *)
Lemma ssum_double_bits a n : ssum (n + 1) (fun i => b2n (N.testbit (2 * a) i)) = ssum n (fun i => b2n (N.testbit a i)).
Proof.
  rewrite N.add_comm, ssum_shift. change (ssum 1 (fun i => b2n (N.testbit (2 * a) i))) with (b2n (N.testbit (2 * a) 0) + 0).
  rewrite N.testbit_even_0. cbn [b2n]. rewrite N.add_0_l. apply ssum_ext. intros i _.
  rewrite N.add_1_l, N.double_bits_succ. reflexivity. Qed.
Lemma ssum_sdouble_bits a n : ssum (n + 1) (fun i => b2n (N.testbit (2 * a + 1) i)) = 1 + ssum n (fun i => b2n (N.testbit a i)).
Proof.
  rewrite N.add_comm, ssum_shift. change (ssum 1 (fun i => b2n (N.testbit (2 * a + 1) i))) with (b2n (N.testbit (2 * a + 1) 0) + 0).
  rewrite N.testbit_odd_0. cbn [b2n]. rewrite N.add_0_r. f_equal. apply ssum_ext. intros i _.
  rewrite N.add_1_l, N.testbit_odd_succ by lia. reflexivity. Qed.
Lemma popcount_bits n : forall v, v < 2 ^ n -> popcount v = ssum n (fun i => b2n (N.testbit v i)).
Proof.
  induction n using ssum_ind; intros v Hv.
  - change (2 ^ 0) with 1 in Hv. assert (v = 0) by lia. subst. reflexivity.
  - rewrite N.add_1_r, N.pow_succ_r' in Hv.
    destruct (N.even v) eqn:Ev.
    + apply N.even_spec in Ev. destruct Ev as [a ->]. rewrite popcount_double, ssum_double_bits. apply IHn. lia.
    + assert (Ho : N.odd v = true) by (rewrite <- N.negb_even, Ev; reflexivity).
      apply N.odd_spec in Ho. destruct Ho as [a ->]. rewrite popcount_succ_double, ssum_sdouble_bits, <- IHn by lia. lia.
Qed.
Lemma cz_popcount v : v < W64 -> cz v = count_zeros64 v.
Proof.
  intros Hv. unfold count_zeros64, cz. rewrite (popcount_bits 64 v) by (rewrite <- W64_pow; exact Hv).
  assert (H : ssum 64 (fun i => 1 - b2n (N.testbit v i)) + ssum 64 (fun i => b2n (N.testbit v i)) = 64).
  { rewrite <- ssum_add. rewrite (ssum_ext _ _ (fun _ => 1)) by (intros; lia). reflexivity. }
  lia.
Qed.
Lemma cz_bits v : ssum 64 (fun i => b2n (N.testbit v i)) + cz v = 64.
Proof. unfold cz. rewrite <- ssum_add. rewrite (ssum_ext _ _ (fun _ => 1)) by (intros; lia). reflexivity. Qed.
Lemma sumf_cz_count rows : Forall (fun r => r < W64) rows -> sumf cz rows = bf_count_zeros rows.
Proof. induction 1 as [|v rows Hv Hr IH]; [reflexivity|]. cbn [bf_count_zeros fold_right]. rewrite sumf_cons, IH, (cz_popcount v Hv). reflexivity. Qed.
