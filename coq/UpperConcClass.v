(* C13 for arbitrary interleavings of machine M2 (UpperMachine.v).

   "Every successful allocation reports either the requested class or a class that the policy rates as a
    match or as stealable for that request" -- for every schedule, any number of threads, ANY policy, ANY
    memory (no invariant on the shared state is needed: the property is thread-local).

   The invariant `TI` says of every thread that is inside a `UGet frame r` (rc = r_class r): every class value
   stored in a continuation frame / a pending compare-exchange is rc itself or `class_ok policy rc _`
   (produced by a policy evaluation in this very call), every request stored in a frame has class rc, and
   no frame of another API function (put / drain / change) is on the stack.
   Theorems: `ustep_TI` (one step preserves TI), `urun_TI`, `ustep_class` (the step that completes a UGet with
   Ok (f, cl) has class_ok), `conc_class` (the same along every schedule from `uboot`), examples by vm_compute. *)
From Coq Require Import PeanoNat.
From LLF Require Import Base Row Bitfield Lower Sorted Upper LowerMachine UpperMachine UpperScan UpperThread UpperGetProofs Policies.

Section Class.
  Variable g : geom.
  Variable policy : N -> N -> N -> pol.
  Variable rc : N.                       (* the requested class of the call under consideration *)
  Notation cok := (class_ok policy rc).

  Definition acc_cls (a : acc) : Prop :=
    match a with AcRos _ c _ => c = rc | AcSteal c _ => c = rc | AcChange _ _ _ => False end.
  Definition res_cls (r : res (N * N)) : Prop :=
    match r with Ok (_, c) => cok c | _ => True end.

  Definition fok (f : kframe) : Prop :=
    match f with
    | KGet1 r _ | KGet2 r _ | KOom1 r _ | KAt1 _ r => r_class r = rc
    | KGL1 _ c _ _ _ | KGL2 _ c _ _ | KGL3 _ c | KGL5 _ c _ _ _ | KGL6 _ c _ _ _ _ => c = rc
    | KGL4 _ _ => True
    | KSR1 _ c _ _ => c = rc
    | KSBL sb | KSBA sb | KSBT sb _ => acc_cls (sb_acc sb)
    | KSe a _ _ => acc_cls a
    | KRS1 _ _ c _ => c = rc
    | KRS2 _ _ _ _ _ tc | KRS3 _ tc => cok tc
    | KUnres r | KRetR r => res_cls r
    | KSG1 _ _ _ => True
    | KSG2 _ _ c => cok c
    | KSL1 r _ i _ => r_class r = rc /\ cok ((i + r_class r) mod 8)
    | KSL2 _ _ tc => cok tc
    | KDL1 r _ _ _ | KDL2 r _ _ | KDL3 r _ _ | KDL4 r _ => r_class r = rc
    | KPut1 _ _ | KPut2 _ _ | KDr1 _ _ | KDr2 _ _ | KCh => False
    end.
  Definition kok (k : list kframe) : Prop := Forall fok k.

  (* frames that consume the class of the entry written by a tree compare-exchange *)
  Definition top_needs (k : list kframe) : bool :=
    match k with (KSG1 _ _ _ | KRS1 _ _ _ _) :: _ => true | _ => false end.
  Definition cls_fun (f : tfun) : bool :=
    match f with FSteal c _ => c =? rc | FRos _ c => c =? rc | _ => false end.
  Definition prim_cls (p : prim) (k : list kframe) : Prop :=
    top_needs k = true ->
    match p with
    | PTL _ f | PTF _ f _ _ _ => cls_fun f = true
    | PTC _ f _ new => cls_fun f = true /\ cok (t_class new)
    | _ => False
    end.
  Definition pk_ok (p : prim) (k : list kframe) : Prop := kok k /\ prim_cls p k.

  Definition vcls (v : val) : Prop :=
    match v with
    | VR r => res_cls r
    | VG (GOk _ c) => cok c
    | _ => True
    end.
  Definition val_cls (v : val) (k : list kframe) : Prop :=
    vcls v /\ (top_needs k = true -> match v with VT true _ new => cok (t_class new) | _ => True end).

  Definition act_cls (a : act) : Prop :=
    match a with
    | ADo p k => pk_ok p k
    | ARet v k => kok k /\ val_cls v k
    | APanic _ => True
    end.
  Definition settled_cls (x : settled) : Prop :=
    match x with
    | SRun p k => pk_ok p k
    | SDone r => res_cls r
    | SCrash _ => True
    end.

  Lemma cok_refl : cok rc.
  Proof. left; reflexivity. Qed.

  Lemma cls_fun_apply d f cur fetch new :
    cls_fun f = true -> tf_apply g policy d f cur fetch = Some (Ok new) -> cok (t_class new).
  Proof.
    destruct f; cbn [cls_fun tf_apply]; try discriminate; intros E H; apply N.eqb_eq in E; subst.
    - unfold tree_steal in H. destruct (_ && _); [|discriminate].
      destruct (policy rc (t_class cur) free) eqn:Ep; cbn [option_map] in H; inversion H; subst; cbn [t_class].
      + apply cok_refl.
      + apply cok_refl.
      + right. exists (t_class cur), free. split; [reflexivity|right; exact Ep].
    - unfold tree_reserve_or_steal in H. destruct (_ && _); [|discriminate].
      destruct (policy rc (t_class cur) free) eqn:Ep; cbn [option_map] in H; inversion H; subst; cbn [t_class].
      + apply cok_refl.
      + apply cok_refl.
      + right. exists (t_class cur), free. split; [reflexivity|right; exact Ep].
  Qed.

  Lemma steal_scan_ok u free n i j i' j' :
    steal_scan policy u rc free i j n = Some (i', j') -> cok ((i' + rc) mod 8).
  Proof.
    rewrite steal_scan_gscan. intros H. destruct (gscan_some _ _ _ _ _ _ H) as (_ & Hw & _).
    (* a class index with slots to try is one the policy rated Match or Steal *)
    unfold sl_slots in Hw. destruct (class_slots u ((i' + rc) mod 8)); [|lia].
    right. exists ((i' + rc) mod 8), free. split; [reflexivity|].
    destruct (policy rc ((i' + rc) mod 8) free) eqn:Ep; try lia; [left; reflexivity | right; reflexivity].
  Qed.

  Lemma ado_ok p k : kok k -> top_needs k = false -> act_cls (ADo p k).
  Proof. intros K T. split; [exact K|]. unfold prim_cls. rewrite T. discriminate. Qed.

  Lemma aret_r r k : res_cls r -> kok k -> act_cls (ARet (VR r) k).
  Proof. intros R K. split; [exact K|]. split; [exact R|]. intros _. exact I. Qed.
  Lemma aret_g x k : vcls (VG x) -> kok k -> act_cls (ARet (VG x) k).
  Proof. intros R K. split; [exact K|]. split; [exact R|]. intros _. exact I. Qed.

  Lemma ret_r_ok r k : res_cls r -> kok k -> act_cls (ret_r r k).
  Proof. intros R K. destruct r; cbn [ret_r]; try exact I; apply aret_r; assumption. Qed.

  Lemma enter_low_ok c k : kok k -> top_needs k = false -> act_cls (enter_low g c k).
  Proof. apply ado_ok. Qed.

  Lemma enter_tu_ok u i f k : kok k -> (top_needs k = true -> cls_fun f = true) -> act_cls (enter_tu u i f k).
  Proof.
    intros K T. unfold enter_tu. destruct (UpperMachine.tree_ok u i); [|exact I].
    split; [exact K|]. exact T.
  Qed.
  Lemma enter_tu_ok' u i f k : kok k -> top_needs k = false -> act_cls (enter_tu u i f k).
  Proof. intros K T. apply enter_tu_ok; [exact K|]. rewrite T. discriminate. Qed.
  Lemma enter_tput_ok u i fr k : kok k -> top_needs k = false -> act_cls (enter_tput u i fr k).
  Proof. apply enter_tu_ok'. Qed.

  Lemma kcons f k : fok f -> kok k -> kok (f :: k).
  Proof. intros; constructor; assumption. Qed.

  Lemma enter_get_local_ok u order local frame sync k :
    kok k -> act_cls (enter_get_local g u order rc local frame sync k).
  Proof.
    intros K. unfold enter_get_local. destruct (class_locals u rc).
    - destruct (local <? n); [|exact I]. apply ado_ok; [|reflexivity]. apply kcons; [reflexivity|exact K].
    - apply aret_g; [exact I|exact K].
  Qed.

  Lemma enter_access_ok u a i k : acc_cls a -> kok k -> act_cls (enter_access u a i k).
  Proof.
    intros A K. destruct a; cbn [acc_cls] in A; subst; cbn [enter_access].
    - apply enter_tu_ok; [apply kcons; [reflexivity|exact K]|]. intros _. cbn [cls_fun]. apply N.eqb_refl.
    - apply enter_tu_ok; [apply kcons; [exact I|exact K]|]. intros _. cbn [cls_fun]. apply N.eqb_refl.
    - destruct A.
  Qed.

  Lemma enter_steal_global_ok u i order frame k :
    kok k -> act_cls (enter_steal_global u i rc order frame k).
  Proof.
    intros K. unfold enter_steal_global.
    apply enter_tu_ok; [apply kcons; [exact I|exact K]|]. intros _. cbn [cls_fun]. apply N.eqb_refl.
  Qed.

  Lemma sb_try_ok u sb cands k : acc_cls (sb_acc sb) -> kok k -> act_cls (UpperMachine.sb_try u sb cands k).
  Proof.
    intros A K. destruct cands as [|[x i] r]; cbn [UpperMachine.sb_try].
    - apply aret_r; [exact I|exact K].
    - apply enter_access_ok; [exact A|]. apply kcons; [exact A|exact K].
  Qed.

  Lemma sb_next_ok u sb k : acc_cls (sb_acc sb) -> kok k -> act_cls (sb_next u sb k).
  Proof.
    intros A K. unfold sb_next. destruct (sb_n sb).
    - apply sb_try_ok; assumption.
    - destruct (UpperMachine.tree_ok u _); [|exact I].
      apply ado_ok; [|reflexivity]. apply kcons; [exact A|exact K].
  Qed.

  Lemma enter_sb_ok u a rt cap start offset len k : acc_cls a -> kok k -> act_cls (enter_sb u a rt cap start offset len k).
  Proof.
    intros A K. unfold enter_sb. destruct (_ && _); [exact I|]. apply sb_next_ok; [exact A|exact K].
  Qed.

  Lemma se_next_ok u a i n k : acc_cls a -> kok k -> act_cls (se_next u a i n k).
  Proof.
    intros A K. destruct n; cbn [se_next].
    - apply aret_r; [exact I|exact K].
    - apply enter_access_ok; [exact A|]. apply kcons; [exact A|exact K].
  Qed.

  Lemma enter_sar_ok u order local start k :
    kok k -> act_cls (enter_search_and_reserve g u order rc local start k).
  Proof.
    intros K. unfold enter_search_and_reserve. destruct (Nat.ltb order (hord g)).
    - apply enter_sb_ok; [reflexivity|]. apply kcons; [reflexivity|exact K].
    - apply enter_sb_ok; [reflexivity|exact K].
  Qed.

  Lemma sl_next_ok u r frame i j k : r_class r = rc -> kok k -> act_cls (sl_next g policy u r frame i j k).
  Proof.
    intros R K. unfold sl_next. rewrite R.
    destruct (steal_scan policy u rc (pow2 (r_order r)) i j 9) as [[i' j']|] eqn:E.
    - apply ado_ok; [|reflexivity]. apply kcons; [|exact K]. cbn [fok]. split; [exact R|].
      rewrite R. eapply steal_scan_ok; eassumption.
    - apply aret_r; [exact I|exact K].
  Qed.

  Lemma dl_next_ok u r frame i j k : r_class r = rc -> kok k -> act_cls (dl_next g policy u r frame i j k).
  Proof.
    intros R K. unfold dl_next.
    destruct (demote_scan policy u (r_class r) (pow2 (r_order r)) i j 9) as [[i' j']|].
    - apply ado_ok; [|reflexivity]. apply kcons; [exact R|exact K].
    - apply aret_r; [exact I|exact K].
  Qed.

  Lemma enter_demote_local_ok u r frame k : r_class r = rc -> kok k -> act_cls (enter_demote_local g policy u r frame k).
  Proof.
    intros R K. unfold enter_demote_local. destruct (class_slots u (r_class r)).
    - apply dl_next_ok; assumption.
    - apply aret_r; [exact I|exact K].
  Qed.

  Lemma after_local_ok u f r k : r_class r = rc -> kok k -> act_cls (after_local g u f r k).
  Proof.
    intros R K. unfold after_local. rewrite R. apply enter_steal_global_ok. apply kcons; [exact R|exact K].
  Qed.

  Lemma enter_global_ok u r k : r_class r = rc -> kok k -> act_cls (enter_global u r k).
  Proof.
    intros R K. unfold enter_global. apply enter_sb_ok; [exact R|]. apply kcons; [exact R|exact K].
  Qed.

  Lemma enter_get_ok u frame r k : r_class r = rc -> kok k -> act_cls (enter_get g u frame r k).
  Proof.
    intros R K. unfold enter_get. destruct (check g u _ r).
    2:{ apply aret_r; [exact I|exact K]. }
    2:{ exact I. }
    destruct frame as [f|].
    - unfold enter_get_at. destruct (r_local r).
      + rewrite R. apply enter_get_local_ok. apply kcons; [exact R|exact K].
      + apply after_local_ok; assumption.
    - destruct (r_local r).
      + destruct (_ && _).
        * rewrite R. apply enter_get_local_ok. apply kcons; [exact R|exact K].
        * apply enter_global_ok; assumption.
      + apply enter_global_ok; assumption.
  Qed.

  Ltac fin :=
    first [ exact I
          | assumption
          | apply cok_refl
          | reflexivity ].

  (* a frame that retries on Err EMemory and passes every other result on *)
  Lemma retry_ok (r : res (N * N)) (next : act) k : res_cls r -> kok k -> act_cls next ->
    act_cls (match r with Err EMemory => next | o => ret_r o k end).
  Proof. intros R K A. destruct r as [[a b]|[| |]|s]; try exact A; apply ret_r_ok; assumption. Qed.

  (* `resume g policy u v f k` is a tree of tests whose leaves are entry actions of the functions of the code,
     returns and panics; `ok_leaf` destructs the tests and closes a leaf with the `*_ok` lemma of its head.  What the
     lemmas ask for is found by `fin`: the classes a leaf stores are rc (`fok f` of the frame just popped says so) or
     classes that `fok f` / the value records as produced by the policy; `kk`: the frames a leaf pushes are `fok` for
     the same reason, on a stack that is `kok`.  Two leaves need the class of the value itself: done by hand. *)
  Ltac kk := repeat (apply kcons; [cbn [fok]; fin|]); fin.
  Ltac ok_leaf :=
    lazymatch goal with
    | |- act_cls (APanic _) => exact I
    | |- act_cls bad => exact I
    | |- act_cls (ARet (VR _) _) => apply aret_r; [cbn [res_cls]; fin | kk]
    | |- act_cls (ARet (VG _) _) => apply aret_g; [cbn [vcls]; fin | kk]
    | |- act_cls (ret_r _ _) => apply ret_r_ok; [fin | kk]
    | |- act_cls (ADo _ _) => apply ado_ok; [kk | reflexivity]
    | |- act_cls (enter_low _ _ _) => apply enter_low_ok; [kk | reflexivity]
    | |- act_cls (enter_tput _ _ _ _) => apply enter_tput_ok; [kk | reflexivity]
    | |- act_cls (enter_tu _ _ _ _) => apply enter_tu_ok'; [kk | reflexivity]
    | |- act_cls (enter_get_local _ _ _ _ _ _ _ _) => apply enter_get_local_ok; kk
    | |- act_cls (enter_search_and_reserve _ _ _ _ _ _ _) => apply enter_sar_ok; kk
    | |- act_cls (enter_sb _ _ _ _ _ _ _ _) => apply enter_sb_ok; [fin | kk]
    | |- act_cls (sb_next _ _ _) => apply sb_next_ok; [fin | kk]
    | |- act_cls (UpperMachine.sb_try _ _ _ _) => apply sb_try_ok; [fin | kk]
    | |- act_cls (se_next _ _ _ _ _) => apply se_next_ok; [fin | kk]
    | |- act_cls (enter_access _ _ _ _) => apply enter_access_ok; [fin | kk]
    | |- act_cls (sl_next _ _ _ _ _ _ _ _) => apply sl_next_ok; [fin | kk]
    | |- act_cls (enter_steal_local _ _ _ _ _ _) => apply sl_next_ok; [fin | kk]
    | |- act_cls (dl_next _ _ _ _ _ _ _ _) => apply dl_next_ok; [fin | kk]
    | |- act_cls (enter_demote_local _ _ _ _ _ _) => apply enter_demote_local_ok; [fin | kk]
    | |- act_cls (after_local _ _ _ _ _) => apply after_local_ok; [fin | kk]
    | |- act_cls (match ?x with _ => _ end) => destruct x; ok_leaf
    | |- act_cls (if ?x then _ else _) => destruct x; ok_leaf
    end.

  Lemma resume_ok u v f k : fok f -> kok k -> val_cls v (f :: k) -> act_cls (resume g policy u v f k).
  Proof.
    intros F K [V T].
    destruct f; cbn [fok] in F; try (exfalso; exact F); destruct v; try exact I;
      cbn [resume top_needs vcls] in *;
      try lazymatch type of F with _ /\ _ => destruct F as [F C] end; try subst class; try subst c; try rewrite F in *.
    all: try (apply retry_ok; [fin | fin |]).
    all: try solve [ok_leaf].
    (* KRS1, KSG1: the class of the entry just written is the one the frame below reports *)
    all: destruct ok; [|ok_leaf]; apply enter_low_ok; [|reflexivity]; apply kcons; [exact (T eq_refl) | exact K].
  Qed.

  Lemma settle_ok u fuel : forall a, act_cls a -> settled_cls (settle g policy fuel u a).
  Proof.
    induction fuel as [|fuel IH]; intros a A; destruct a as [p k|v k|s]; cbn [settle settled_cls]; try exact I.
    - exact A.
    - destruct k as [|f k]; [|exact I]. destruct v; try exact I. destruct r; try exact I. destruct A as (_ & V & _). exact V.
    - exact A.
    - destruct k as [|f k].
      + destruct v; try exact I. destruct r; try exact I. destruct A as (_ & V & _). exact V.
      + apply IH. destruct A as (K & V). inversion K; subst. apply resume_ok; assumption.
  Qed.

  Lemma tu_eval_fetched_ok u i f cur fetch k :
    (top_needs k = true -> cls_fun f = true) ->
    match tu_eval_fetched g policy u i f cur fetch with
    | OStay p' => prim_cls p' k
    | OVal v => val_cls v k
    | OCrash _ => True
    end.
  Proof.
    intros T. unfold tu_eval_fetched.
    destruct (tf_apply g policy (dflt u) f cur fetch) as [[new|e|s]|] eqn:E; try exact I.
    - intros N. split; [exact (T N)|]. eapply cls_fun_apply; [exact (T N)|exact E].
    - split; [exact I|]. intros _. exact I.
  Qed.

  Lemma tu_eval_ok u i f cur k :
    (top_needs k = true -> cls_fun f = true) ->
    match tu_eval g policy u i f cur with
    | OStay p' => prim_cls p' k
    | OVal v => val_cls v k
    | OCrash _ => True
    end.
  Proof.
    intros T. unfold tu_eval. destruct (needs_fetch f cur); [exact T | exact (tu_eval_fetched_ok u i f cur 0 k T)].
  Qed.

  Lemma val_ok_free v k : vcls v -> (top_needs k = true -> False) -> val_cls v k.
  Proof. intros V T. split; [exact V|]. intros N. destruct (T N). Qed.

  Lemma prim_step_ok u p k :
    prim_cls p k ->
    match snd (prim_step g policy u p) with
    | OStay p' => prim_cls p' k
    | OVal v => val_cls v k
    | OCrash _ => True
    end.
  Proof.
    intros P. destruct p; cbn [prim_step].
    - destruct (tree_at u i); cbn [snd]; [|exact I]. apply val_ok_free; [exact I|exact P].
    - destruct (tree_at u i); cbn [snd]; [|exact I]. apply tu_eval_ok. exact P.
    - destruct (nth_error _ _); cbn [snd]; [|exact I]. destruct (j + 1 <? _); [exact P|].
      apply tu_eval_fetched_ok. exact P.
    - destruct (tree_at u i); cbn [snd]; [|exact I]. destruct (tree_eqb t cur); cbn [snd].
      + split; [exact I|]. intros N. exact (proj2 (P N)).
      + apply tu_eval_ok. intros N. exact (proj1 (P N)).
    - destruct (UpperMachine.slot_at u c idx); cbn [snd]; [|exact I]. unfold su_eval.
      destruct (sf_apply g f s) as [[x|x|x]|]; try exact I.
      + intros N. exact (P N).
      + apply val_ok_free; [exact I|exact P].
    - destruct (UpperMachine.slot_at u c idx); cbn [snd]; [|exact I]. destruct (slot_eqb s cur); cbn [snd].
      + apply val_ok_free; [exact I|exact P].
      + unfold su_eval. destruct (sf_apply g f s) as [[x|x|x]|]; try exact I.
        * intros N. exact (P N).
        * apply val_ok_free; [exact I|exact P].
    - destruct (UpperMachine.slot_at u c idx); cbn [snd]; [|exact I]. apply val_ok_free; [exact I|exact P].
    - destruct th as [l|c pc0|s c]; cbn [snd]; try exact I.
      destruct (mstep g (m1_view u (TRun c pc0)) 0 c) as [ms' ev].
      destruct (nth_error (ms_pool ms') 0) as [[[[x|x|x]|]|c' p'|s c']|]; cbn [snd]; try exact I.
      + apply val_ok_free; [exact I|exact P].
      + apply val_ok_free; [exact I|exact P].
      + intros N. exact (P N).
  Qed.
End Class.

Section Run.
  Variable g : geom.
  Variable policy : N -> N -> N -> pol.

  Definition TI (s : m2state) : Prop :=
    forall t frame r p k, nth_error (m2_pool s) t = Some (URun (UGet frame r) p k) -> pk_ok policy (r_class r) p k.

  (* the call that a step of thread t works on *)
  Definition step_call (s : m2state) (t : nat) (c0 : ucall) : option ucall :=
    match nth_error (m2_pool s) t with
    | Some (UIdle _) => Some c0
    | Some (URun c _ _) => Some c
    | _ => None
    end.

  Definition thr_ok (x : uthr) : Prop :=
    match x with URun (UGet _ r) p k => pk_ok policy (r_class r) p k | _ => True end.

  (* TI is a thread-local invariant (UpperThread.v) *)
  Lemma TI_all s : TI s <-> all_thr (fun _ => thr_ok) s.
  Proof.
    split.
    - intros H t x E. destruct x as [l|[frame r| | |] p k|z c]; try exact I. exact (H _ _ _ _ _ E).
    - intros H t frame r p k E. exact (H t _ E).
  Qed.

  Lemma thr_ok_of c x : (forall frame r, c = UGet frame r -> settled_cls policy (r_class r) x) -> thr_ok (thr_of c x).
  Proof. intros X. destruct x as [p k|r|z]; try exact I. destruct c; try exact I. exact (X _ _ eq_refl). Qed.

  (* TI at the start of a call and across an access of the thread itself *)
  Lemma thr_ok_start u c : thr_ok (thr_of c (settle g policy SETTLE u (enter_call g u c))).
  Proof.
    apply thr_ok_of. intros frame r ->. apply settle_ok.
    cbn [enter_call]. apply enter_get_ok; [reflexivity|constructor].
  Qed.
  Lemma thr_ok_step u c p k : thr_ok (URun c p k) ->
    let '(u', _, o) := prim_step g policy u p in
    (forall x, thr_ok x -> thr_ok x) /\
    thr_ok (match o with
            | OStay p' => URun c p' k
            | OVal v => thr_of c (settle g policy SETTLE u' (ARet v k))
            | OCrash z => UPanic z c
            end).
  Proof.
    intros P. pose proof (fun r : request => prim_step_ok g policy (r_class r) u p k) as Q.
    destruct (prim_step g policy u p) as [[u' ev] o]. cbn [snd] in Q. split; [exact (fun x Hx => Hx)|].
    destruct o as [p'|v|z]; [| |exact I].
    - destruct c as [frame r| | |]; try exact I. destruct P as [K P]. split; [exact K | exact (Q r P)].
    - apply thr_ok_of. intros frame r ->. destruct P as [K P]. apply settle_ok. split; [exact K | exact (Q r P)].
  Qed.

  Theorem ustep_TI s t c0 : TI s -> TI (fst (ustep g policy s t c0)).
  Proof. rewrite !TI_all. apply ustep_all; [apply thr_ok_start | apply thr_ok_step]. Qed.

  Theorem urun_TI sch : forall s, TI s -> TI (urun g policy sch s).
  Proof. intros s. rewrite !TI_all. exact (urun_all g policy (fun _ => thr_ok) thr_ok_start thr_ok_step sch s). Qed.

  Lemma uboot_TI u held0 n : TI (uboot u held0 n).
  Proof. apply TI_all, uboot_all. intros _. exact I. Qed.

  Lemma nth_upd_eq {A} (l : list A) t x y : nth_error (upd l t x) t = Some y -> y = x.
  Proof.
    intros E. destruct (Nat.lt_ge_cases t (length l)) as [L|L].
    - rewrite nth_error_upd_same in E by exact L. inversion E; reflexivity.
    - assert (Q : nth_error (upd l t x) t = None) by (apply nth_error_None; rewrite upd_length; exact L).
      rewrite Q in E. discriminate.
  Qed.

  Lemma settled_result s t c x r :
    nth_error (m2_pool (apply_settled s t c x)) t = Some (UIdle (Some r)) -> x = SDone r.
  Proof.
    rewrite apply_settled_pool. intros E. apply nth_upd_eq in E. destruct x; inversion E; reflexivity.
  Qed.

  (* the step of a thread inside (or starting) `UGet frame r` that completes the call with Ok (f, cl) *)
  Theorem ustep_class s t c0 frame r f cl :
    TI s -> step_call s t c0 = Some (UGet frame r) ->
    nth_error (m2_pool (fst (ustep g policy s t c0))) t = Some (UIdle (Some (Ok (f, cl)))) ->
    class_ok policy (r_class r) cl.
  Proof.
    intros H C E. unfold step_call in C. unfold ustep in E.
    destruct (nth_error (m2_pool s) t) as [[l|c p k|z c]|] eqn:Et; try discriminate.
    - inversion C; subst c0. cbn [fst] in E. apply settled_result in E.
      pose proof (settle_ok g policy (r_class r) (m2_up s) SETTLE (enter_call g (m2_up s) (UGet frame r))) as Q.
      rewrite E in Q. apply Q. cbn [enter_call]. apply enter_get_ok; [reflexivity|constructor].
    - inversion C; subst c. destruct (H _ _ _ _ _ Et) as [K P].
      pose proof (prim_step_ok g policy (r_class r) (m2_up s) p k P) as Q.
      destruct (prim_step g policy (m2_up s) p) as [[u' ev] o]. cbn [fst snd] in *.
      destruct o as [p'|v|z].
      + apply nth_upd_eq in E. discriminate.
      + apply settled_result in E.
        pose proof (settle_ok g policy (r_class r) u' SETTLE (ARet v k)) as Q'. rewrite E in Q'. apply Q'.
        split; assumption.
      + apply nth_upd_eq in E. discriminate.
  Qed.

  (* C13, concurrent: along every schedule from the initial state, whatever the memory and the policy *)
  Theorem conc_class : forall sch u held0 n,
    let s := urun g policy sch (uboot u held0 n) in
    forall t c0 frame r f cl,
      step_call s t c0 = Some (UGet frame r) ->
      nth_error (m2_pool (fst (ustep g policy s t c0))) t = Some (UIdle (Some (Ok (f, cl)))) ->
      class_ok policy (r_class r) cl.
  Proof.
    intros sch u held0 n s t c0 frame r f cl. apply ustep_class. apply urun_TI. apply uboot_TI.
  Qed.
End Run.

Print Assumptions ustep_TI.
Print Assumptions ustep_class.
Print Assumptions conc_class.

(* Two threads, step by step alternately, on a 4-tree allocator (TREE_FRAMES = 256) whose trees are all of
   class 0: thread 0 asks for class 1 (the simple policy rates class 0 for a class-1 request as Steal),
   thread 1 for class 0.  After 14 rounds thread 1 is in the middle of its second call (about to
   compare-exchange its local slot) and the next step of thread 0 completes its call with Ok (0, 0): the
   reported class 0 differs from the requested class 1 and is permitted because policy 1 0 _ = Steal. *)
Module ClassExample.
  Definition g7 := {| hord := 7; tlog := 1 |}.
  Definition pol7 := pol_simple 256.
  Definition rq (o : nat) (c : N) (l : option N) : request := {| r_order := o; r_class := c; r_local := l |}.
  Definition U0 : upper :=
    match llfree_new g7 1024 IFreeAll [(0, 1); (1, 1)] 0 (free_all g7 1024) [] (repeat slot_none 16) with
    | Ok u => u
    | _ => {| low := free_all g7 0; trees := []; locals := []; dflt := 0 |}
    end.
  Definition cA := UGet None (rq 0 1 (Some 0)).
  Definition cB := UGet None (rq 0 0 (Some 0)).
  Definition alt (n : nat) : list (nat * ucall) := flat_map (fun _ => [(0%nat, cA); (1%nat, cB)]) (seq 0 n).
  Definition s14 := urun g7 pol7 (alt 14) (uboot U0 [] 2).

  Example conc_class_nonvacuous :
    step_call s14 0 cA = Some cA /\
    (exists p k, nth_error (m2_pool s14) 0 = Some (URun cA p k)) /\
    (exists p k, nth_error (m2_pool s14) 1 = Some (URun cB p k)) /\
    nth_error (m2_pool (fst (ustep g7 pol7 s14 0 cA))) 0 = Some (UIdle (Some (Ok (0, 0)))) /\
    pol7 1 0 1 = PSteal.
  Proof.
    split; [vm_compute; reflexivity|]. split; [eexists; eexists; vm_compute; reflexivity|].
    split; [eexists; eexists; vm_compute; reflexivity|]. split; vm_compute; reflexivity.
  Qed.

  (* the theorem applied to that step; [urun] is kept folded so that [s14] is unfolded to meet the
     theorem's [urun ..] instead of both sides being evaluated *)
  Local Strategy 1000 [urun].
  Example conc_class_instance : class_ok pol7 1 0.
  Proof.
    destruct conc_class_nonvacuous as (C & _ & _ & E & _).
    exact (conc_class g7 pol7 (alt 14) U0 [] 2 0%nat cA None (rq 0 1 (Some 0)) 0 0 C E).
  Qed.
End ClassExample.
