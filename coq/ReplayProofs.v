(* Proofs about the trace replayer model (Replay.v): the abstract allocator is the frame-ownership
   specification, the first-fit oracle satisfies the hypothesis on `choose`, and the invariant of the
   repaired replay loop over traces of any length.  Property theorems are restated in Properties/C20.v.

   Invariant (Inv): table keys unique; every tracked entry a |-> (F, K) is aligned (F mod 2^K = 0) and in range
   in frame and in pfn space; the allocator's intervals are non-empty, pairwise disjoint (every frame lies in at
   most one) and below max_pfn; OWNERSHIP: for every frame x, the number of blocks among the tracked entries and
   the orphaned blocks (entries overwritten by a re-allocation or by a part of a split) that contain x equals
   the number of allocator intervals that contain x (0 or 1) - i.e. these blocks are pairwise disjoint and their
   union is exactly the allocated set; the allocated frame count equals the sum of their sizes; no free failed. *)
From LLF Require Import Base Replay.
Require Import ZifyBool PeanoNat.

(* sum of a measure m over a list; the invariant is stated through it for the table entries, the orphans and
   the allocator's intervals *)
Definition msum {A} (m : A -> N) (l : list A) : N := fold_right (fun a acc => m a + acc) 0 l.
Lemma msum_app {A} (m : A -> N) l1 l2 : msum m (l1 ++ l2) = msum m l1 + msum m l2.
Proof. unfold msum. induction l1; simpl; [reflexivity|]. rewrite IHl1. lia. Qed.
Lemma msum_cons {A} (m : A -> N) a l : msum m (a :: l) = m a + msum m l.
Proof. reflexivity. Qed.
Lemma msum_nil {A} (m : A -> N) : msum m [] = 0.
Proof. reflexivity. Qed.

Definition b2n (b : bool) : N := if b then 1 else 0.
Definition icnt (x : N) (st : astate) : N := msum (fun i => b2n (inI x i)) st.
Definition ne (i : ival) : Prop := fst i < snd i.

Lemma two_pow_pos k : 0 < 2 ^ N.of_nat k.
Proof. apply N.neq_0_lt_0, N.pow_nonzero. lia. Qed.
Lemma two_pow_split k K : (k <= K)%nat -> 2 ^ N.of_nat K = 2 ^ N.of_nat (K - k) * 2 ^ N.of_nat k.
Proof.
  intros H. rewrite <- N.pow_add_r. f_equal. lia.
Qed.
Lemma mod_pow2_le F k K : (k <= K)%nat -> F mod 2 ^ N.of_nat K = 0 -> F mod 2 ^ N.of_nat k = 0.
Proof.
  intros H HF. pose proof (two_pow_pos K). pose proof (two_pow_pos k).
  apply N.mod_divide in HF; [|lia]. destruct HF as [c Hc].
  rewrite Hc, (two_pow_split k K H), N.mul_assoc. apply N.mod_mul. lia.
Qed.
(* the named part of a free found at search order o: pfn - align_down pfn 2^o = j0 * 2^k *)
Lemma align_down_part pfn k o : (k <= o)%nat -> pfn mod 2 ^ N.of_nat k = 0 ->
  exists j0, align_down pfn (2 ^ N.of_nat o) + j0 * 2 ^ N.of_nat k = pfn /\ j0 < 2 ^ N.of_nat (o - k).
Proof.
  intros H Hp. pose proof (two_pow_pos o). pose proof (two_pow_pos k). pose proof (two_pow_pos (o - k)).
  apply N.mod_divide in Hp; [|lia]. destruct Hp as [c Hc].
  exists (c mod 2 ^ N.of_nat (o - k)). split; [|apply N.mod_lt; lia].
  unfold align_down. rewrite (two_pow_split k o H).
  assert (E : pfn mod (2 ^ N.of_nat (o - k) * 2 ^ N.of_nat k) = (c mod 2 ^ N.of_nat (o - k)) * 2 ^ N.of_nat k).
  { rewrite Hc. rewrite N.mul_mod_distr_r by lia. reflexivity. }
  rewrite <- E. pose proof (N.mod_le pfn (2 ^ N.of_nat (o - k) * 2 ^ N.of_nat k) ltac:(lia)). lia.
Qed.
Lemma part_le i n s : i < n -> i * s + s <= n * s.
Proof. intros H. replace (i * s + s) with ((i + 1) * s) by lia. apply N.mul_le_mono_r. lia. Qed.

Lemma inI_iminus x a b i :
  existsb (inI x) (iminus a b i) = inI x i && negb ((a <=? x) && (x <? b)).
Proof.
  unfold iminus, inI. destruct i as [lo hi]. cbn [fst snd].
  destruct (lo <? N.min hi a) eqn:E1; destruct (N.max lo b <? hi) eqn:E2; cbn [app existsb fst snd]; lia.
Qed.

Lemma existsb_flat_iminus x a b R :
  existsb (inI x) (flat_map (iminus a b) R) = existsb (inI x) R && negb ((a <=? x) && (x <? b)).
Proof.
  induction R as [|i R IH]; cbn [flat_map existsb]; [reflexivity|].
  rewrite existsb_app, inI_iminus, IH. lia.
Qed.

Lemma allocd_aremove st a b x :
  allocd (aremove st a b) x = allocd st x && negb ((a <=? x) && (x <? b)).
Proof. apply existsb_flat_iminus. Qed.

Lemma uncovered_sem x st : forall R,
  existsb (inI x) (uncovered R st) = existsb (inI x) R && negb (allocd st x).
Proof.
  induction st as [|i st IH]; intros R; cbn [uncovered allocd existsb].
  - lia.
  - rewrite IH, existsb_flat_iminus. unfold allocd.
    change (inI x i) with ((fst i <=? x) && (x <? snd i)).
    destruct (existsb (inI x) R), (existsb (inI x) st), ((fst i <=? x) && (x <? snd i)); reflexivity.
Qed.

Lemma ne_iminus a b i : Forall ne (iminus a b i).
Proof.
  unfold iminus, ne. destruct i as [lo hi]. cbn [fst snd].
  destruct (lo <? N.min hi a) eqn:E1; destruct (N.max lo b <? hi) eqn:E2; cbn [app];
    repeat constructor; cbn [fst snd]; lia.
Qed.
Lemma ne_flat a b R : Forall ne (flat_map (iminus a b) R).
Proof. induction R; cbn [flat_map]; [constructor|]. apply Forall_app. split; [apply ne_iminus|assumption]. Qed.
Lemma ne_uncovered st : forall R, Forall ne R -> Forall ne (uncovered R st).
Proof. induction st; intros R H; cbn [uncovered]; [assumption|]. apply IHst, ne_flat. Qed.

Lemma covered_iff st a b : a < b ->
  (covered st a b = true <-> forall x, a <= x < b -> allocd st x = true).
Proof.
  intros Hab. unfold covered. split.
  - intros H x Hx. destruct (uncovered [(a, b)] st) eqn:E; [|discriminate].
    pose proof (uncovered_sem x st [(a, b)]) as S. rewrite E in S. cbn [existsb inI fst snd] in S.
    unfold inI in S. cbn [fst snd] in S. lia.
  - intros H. destruct (uncovered [(a, b)] st) as [|i l] eqn:E; [reflexivity|exfalso].
    assert (Hne : Forall ne (i :: l)).
    { rewrite <- E. apply ne_uncovered. constructor; [unfold ne; cbn; lia|constructor]. }
    inversion Hne as [|? ? Hi _]; subst. unfold ne in Hi.
    pose proof (uncovered_sem (fst i) st [(a, b)]) as S. rewrite E in S.
    cbn [existsb] in S. unfold inI in S at 1 3. cbn [fst snd] in S.
    assert (allocd st (fst i) = true -> False).
    { intros A. rewrite A in S. lia. }
    destruct ((a <=? fst i) && (fst i <? b)) eqn:Q.
    + apply H0. apply H. lia.
    + lia.
Qed.

Lemma allocator_spec max_pfn st f k :
  let sz := 2 ^ N.of_nat k in
  (aput max_pfn st f k <> None <->
     f mod sz = 0 /\ f + sz <= max_pfn /\ forall x, f <= x < f + sz -> allocd st x = true) /\
  (forall st', aput max_pfn st f k = Some st' ->
     forall x, allocd st' x = allocd st x && negb ((f <=? x) && (x <? f + sz))) /\
  (forall choose f' st', aget choose st k = Some (f', st') ->
     choose st k = Some f' /\ forall x, allocd st' x = ((f' <=? x) && (x <? f' + sz)) || allocd st x).
Proof.
  intros sz. pose proof (two_pow_pos k) as Hs. fold sz in Hs. unfold aput. fold sz.
  pose proof (covered_iff st f (f + sz) ltac:(lia)) as C.
  split; [|split].
  - destruct (covered st f (f + sz)) eqn:E.
    + destruct ((f mod sz =? 0) && (f + sz <=? max_pfn)) eqn:Q; cbn [andb].
      * split; [intros _|discriminate]. repeat split; try lia. apply C. reflexivity.
      * split; [congruence|]. intros (? & ? & ?). lia.
    + rewrite andb_false_r. split; [congruence|]. intros (? & ? & H). apply C in H. discriminate.
  - intros st'. destruct ((f mod sz =? 0) && (f + sz <=? max_pfn) && covered st f (f + sz)); [|discriminate].
    intros H x. injection H as <-. apply allocd_aremove.
  - intros choose f' st'. unfold aget. destruct (choose st k); [|discriminate]. intros H. injection H as <- <-.
    split; [reflexivity|]. intros x. reflexivity.
Qed.

Lemma find_overlap_none st lo hi : find (overlap lo hi) st = None -> forall x, lo <= x < hi -> allocd st x = false.
Proof.
  intros Fd x Hx. destruct (allocd st x) eqn:A; [|reflexivity]. exfalso.
  unfold allocd in A. apply existsb_exists in A. destruct A as (i & Hi & Hx').
  pose proof (find_none _ _ Fd i Hi) as O. unfold overlap in O. unfold inI in Hx'. lia.
Qed.
Lemma ff_loop_ok max_pfn st sz : 0 < sz -> forall fuel f r, f mod sz = 0 ->
  ff_loop max_pfn st sz fuel f = Some r ->
  r mod sz = 0 /\ r + sz <= max_pfn /\ forall x, r <= x < r + sz -> allocd st x = false.
Proof.
  intros Hs. induction fuel as [|fuel IH]; intros f r Hf; cbn [ff_loop];
    (destruct (max_pfn <? f + sz) eqn:E; [discriminate|]);
    destruct (find (overlap f (f + sz)) st) as [i|] eqn:Fd; try discriminate.
  2: apply IH; unfold align_up; apply N.mod_mul; lia.
  all: intros H; injection H as <-; repeat split; [assumption|lia|apply find_overlap_none; assumption].
Qed.
Lemma first_fit_ok max_pfn : choose_ok max_pfn (first_fit max_pfn).
Proof.
  intros st k f H. unfold first_fit in H. pose proof (two_pow_pos k).
  apply (ff_loop_ok max_pfn st _ H0 (S (length st)) 0 f); [apply N.mod_0_l; lia|assumption].
Qed.

Lemma icnt_iminus x a b i : a <= b ->
  icnt x (iminus a b i) = b2n (inI x i && negb ((a <=? x) && (x <? b))).
Proof.
  intros Hab. unfold iminus, icnt, inI, b2n. destruct i as [lo hi]. cbn [fst snd].
  destruct (lo <? N.min hi a) eqn:E1; destruct (N.max lo b <? hi) eqn:E2; cbn [app msum fold_right fst snd];
  repeat match goal with |- context [if ?c then _ else _] => destruct c eqn:? end; lia.
Qed.
Lemma icnt_aremove x a b st : a <= b ->
  icnt x (aremove st a b) = if (a <=? x) && (x <? b) then 0 else icnt x st.
Proof.
  intros Hab. unfold aremove. induction st as [|i st IH]; cbn [flat_map].
  - destruct ((a <=? x) && (x <? b)); reflexivity.
  - unfold icnt in *. rewrite msum_app, msum_cons, IH. fold (icnt x (iminus a b i)).
    rewrite icnt_iminus by assumption. unfold b2n.
    destruct ((a <=? x) && (x <? b)); destruct (inI x i); cbn [andb negb]; lia.
Qed.
Lemma icnt_allocd x st : allocd st x = true <-> 1 <= icnt x st.
Proof.
  unfold allocd, icnt. induction st as [|i st IH]; cbn [existsb msum fold_right].
  - split; [discriminate|lia].
  - fold (msum (fun i => b2n (inI x i)) st). unfold b2n at 1. destruct (inI x i); cbn [orb]; [split; [lia|reflexivity]|].
    rewrite IH. lia.
Qed.
Lemma icnt_not_allocd x st : allocd st x = false -> icnt x st = 0.
Proof.
  intros H. destruct (N.eq_dec (icnt x st) 0) as [|n]; [assumption|].
  assert (allocd st x = true) by (apply icnt_allocd; lia). congruence.
Qed.

(* cardinality by counting: alen st is the sum over the frames x < mx of icnt x st *)
Fixpoint nsum (f : N -> N) (n : nat) : N :=
  match n with O => 0 | S n' => nsum f n' + f (N.of_nat n') end.

Lemma nsum_add f g n : nsum (fun x => f x + g x) n = nsum f n + nsum g n.
Proof. induction n as [|n IH]; cbn [nsum]; [reflexivity|]. rewrite IH. lia. Qed.
Lemma nsum_le f g n : (forall x, f x <= g x) -> nsum f n <= nsum g n.
Proof. intros H. induction n as [|n IH]; cbn [nsum]; [lia|]. specialize (H (N.of_nat n)). lia. Qed.
Lemma nsum_ext f g n : (forall x, f x = g x) -> nsum f n = nsum g n.
Proof. intros H. induction n as [|n IH]; cbn [nsum]; [reflexivity|]. rewrite IH, H. reflexivity. Qed.
Lemma nsum_const c n : nsum (fun _ => c) n = N.of_nat n * c.
Proof. induction n as [|n IH]; cbn [nsum]; [reflexivity|]. rewrite IH. lia. Qed.
Lemma nsum_ival i n : nsum (fun x => b2n (inI x i)) n = N.min (snd i) (N.of_nat n) - fst i.
Proof.
  induction n as [|n IH]; cbn [nsum]; [lia|]. rewrite IH. unfold inI, b2n.
  destruct ((fst i <=? N.of_nat n) && (N.of_nat n <? snd i)) eqn:E; lia.
Qed.

Lemma alen_count mx st : Forall (fun j => snd j <= mx) st -> alen st = nsum (fun x => icnt x st) (N.to_nat mx).
Proof.
  induction 1 as [|i st Hi _ IH].
  - unfold icnt. cbn [msum fold_right]. rewrite nsum_const. cbn [alen fold_right]. lia.
  - change (alen (i :: st)) with ((snd i - fst i) + alen st).
    change (fun x => icnt x (i :: st)) with (fun x => b2n (inI x i) + icnt x st).
    rewrite nsum_add, nsum_ival, <- IH. lia.
Qed.

Lemma alen_le_max mx st : (forall x, icnt x st <= 1) -> Forall (fun j => snd j <= mx) st -> alen st <= mx.
Proof.
  intros Hc Hr. rewrite (alen_count mx st Hr).
  pose proof (nsum_le _ (fun _ => 1) (N.to_nat mx) Hc) as L. rewrite nsum_const in L. lia.
Qed.

Lemma rng_iminus mx a b i : snd i <= mx -> Forall (fun j => snd j <= mx) (iminus a b i).
Proof.
  intros H. unfold iminus. destruct i as [lo hi]. cbn [fst snd] in *.
  destruct (lo <? N.min hi a); destruct (N.max lo b <? hi); cbn [app]; repeat constructor; cbn [snd]; lia.
Qed.
Lemma rng_aremove mx a b st : Forall (fun j => snd j <= mx) st -> Forall (fun j => snd j <= mx) (aremove st a b).
Proof.
  unfold aremove. induction 1; cbn [flat_map]; [constructor|]. apply Forall_app. split; [apply rng_iminus|]; assumption.
Qed.
(* the frames of a covered block are counted once in st and not at all after its removal *)
Lemma alen_aremove mx st a b : a <= b <= mx -> Forall (fun j => snd j <= mx) st -> (forall x, icnt x st <= 1) ->
  (forall x, a <= x < b -> allocd st x = true) -> alen (aremove st a b) + (b - a) = alen st.
Proof.
  intros Hab Hr Hc Hcov. rewrite (alen_count mx st Hr), (alen_count mx _ (rng_aremove mx a b st Hr)).
  replace (b - a) with (nsum (fun x => b2n (inI x (a, b))) (N.to_nat mx)) by (rewrite nsum_ival; cbn [fst snd]; lia).
  rewrite <- nsum_add. apply nsum_ext. intros x. rewrite icnt_aremove by lia. unfold inI, b2n. cbn [fst snd].
  destruct ((a <=? x) && (x <? b)) eqn:E; [|lia].
  specialize (Hc x). pose proof (proj1 (icnt_allocd x st) (Hcov x ltac:(lia))). lia.
Qed.

Fixpoint tuniq (T : table) : Prop :=
  match T with [] => True | e :: r => tget r (fst e) = None /\ tuniq r end.

Lemma tget_tdel T p q : tget (tdel T p) q = if q =? p then None else tget T q.
Proof.
  induction T as [|e T IH]; cbn [tdel filter tget].
  - destruct (q =? p); reflexivity.
  - fold (tdel T p). destruct (fst e =? p) eqn:E; cbn [negb tget].
    + rewrite IH. destruct (q =? p) eqn:Q; [reflexivity|].
      destruct (fst e =? q) eqn:E2; [lia|reflexivity].
    + rewrite IH. destruct (fst e =? q) eqn:E2; [|reflexivity].
      destruct (q =? p) eqn:Q; [lia|reflexivity].
Qed.
Lemma tget_tset T p b q : tget (tset T p b) q = if q =? p then Some b else tget T q.
Proof.
  unfold tset. cbn [tget fst snd]. rewrite tget_tdel. rewrite (N.eqb_sym p q). destruct (q =? p); reflexivity.
Qed.
Lemma tdel_none T p : tget T p = None -> tdel T p = T.
Proof.
  induction T as [|e T IH]; cbn [tdel filter tget]; [reflexivity|]. fold (tdel T p).
  destruct (fst e =? p); [discriminate|]. cbn [negb]. intros H. rewrite IH by assumption. reflexivity.
Qed.
Lemma tuniq_tdel T p : tuniq T -> tuniq (tdel T p).
Proof.
  induction T as [|e T IH]; cbn [tdel filter tuniq]; [trivial|]. fold (tdel T p).
  intros (H1 & H2). destruct (fst e =? p) eqn:E; cbn [negb tuniq]; [auto|].
  split; [|auto]. rewrite tget_tdel, H1. destruct (fst e =? p); reflexivity.
Qed.
Lemma tuniq_tset T p b : tuniq T -> tuniq (tset T p b).
Proof.
  intros H. unfold tset. cbn [tuniq fst]. split; [|apply tuniq_tdel; assumption].
  rewrite tget_tdel, N.eqb_refl. reflexivity.
Qed.

(* an additive measure of the table before and after deleting a key *)
Lemma msum_tdel (m : block -> N) T p : tuniq T ->
  msum m (map snd (tdel T p)) + match tget T p with Some b => m b | None => 0 end = msum m (map snd T).
Proof.
  induction T as [|e T IH]; cbn [tdel filter tget map tuniq]; [reflexivity|]. fold (tdel T p).
  intros (H1 & H2). destruct (fst e =? p) eqn:E; cbn [negb map].
  - assert (fst e = p) by lia. subst p. rewrite tdel_none by assumption. rewrite msum_cons. lia.
  - rewrite !msum_cons. specialize (IH H2). lia.
Qed.
Lemma msum_tget (m : block -> N) T p b : tget T p = Some b -> m b <= msum m (map snd T).
Proof.
  induction T as [|e T IH]; cbn [tget map]; [discriminate|]. rewrite msum_cons.
  destruct (fst e =? p); intros H; [injection H as <-; lia|]. specialize (IH H). lia.
Qed.

(* a table entry p |-> b: the block is aligned to its size and lies below max_pfn, in frame space and in pfn space *)
Definition ewf (max_pfn p : N) (b : block) : Prop :=
  fst b mod bsize b = 0 /\ fst b + bsize b <= max_pfn /\ p + bsize b <= max_pfn.
Definition twf (max_pfn : N) (T : table) : Prop := forall p b, tget T p = Some b -> ewf max_pfn p b.
(* the two measures of the invariant: `pt x` counts the blocks that contain frame x, `bsize` their frames;
   `M m` sums a measure over everything the replayer holds, the tracked blocks and the orphans *)
Definition pt (x : N) (b : block) : N := b2n (inb x b).
Definition M (m : block -> N) (st : table * list block) : N := msum m (map snd (fst st)) + msum m (snd st).

Lemma pt_exists x l : 1 <= msum (pt x) l <-> exists b, In b l /\ inb x b = true.
Proof.
  induction l as [|b l IH]; [rewrite msum_nil; split; [lia|intros (b & [] & _)]|].
  rewrite msum_cons. unfold pt at 1, b2n. destruct (inb x b) eqn:E.
  - split; [intros _; exists b; split; [left; reflexivity|assumption]|lia].
  - split.
    + intros H. destruct (proj1 IH ltac:(lia)) as (b' & Hin & Hb). exists b'. split; [right|]; assumption.
    + intros (b' & [<-|Hin] & Hb); [congruence|]. assert (1 <= msum (pt x) l) by (apply IH; eauto). lia.
Qed.
Lemma pt_filter x l : msum (pt x) l = N.of_nat (length (filter (inb x) l)).
Proof.
  induction l as [|b l IH]; [reflexivity|]. rewrite msum_cons, IH. cbn [filter]. unfold pt, b2n.
  destruct (inb x b); cbn [length]; lia.
Qed.

Lemma ev_okb_ok max_pfn e : ev_okb max_pfn e = true -> ev_ok max_pfn e.
Proof.
  unfold ev_okb, ev_ok. intros H. apply andb_prop in H. destruct H as (H & H3). apply andb_prop in H. destruct H as (H1 & H2).
  apply Nat.leb_le in H1. repeat split; [assumption|lia|lia].
Qed.

Lemma find_loop_some max_pfn T fuel : forall o pfn a,
  find_loop max_pfn (look T) fuel o pfn = Some (Some a) ->
  exists o' b, (o <= o')%nat /\ a = align_down pfn (2 ^ N.of_nat o') /\ tget T a = Some b /\ (o' <= snd b)%nat.
Proof.
  induction fuel as [|fuel IH]; intros o pfn a; cbn [find_loop]; [discriminate|].
  destruct (max_pfn <=? align_down pfn (2 ^ N.of_nat o)); [discriminate|].
  unfold look at 1. destruct (tget T (align_down pfn (2 ^ N.of_nat o))) as [b|] eqn:E.
  - destruct (Nat.leb o (snd b)) eqn:L.
    + intros H. injection H as <-. exists o, b. apply Nat.leb_le in L. repeat split; auto.
    + intros H. destruct (IH _ _ _ H) as (o' & b' & ? & ? & ? & ?). exists o', b'. repeat split; auto. lia.
  - intros H. destruct (IH _ _ _ H) as (o' & b' & ? & ? & ? & ?). exists o', b'. repeat split; auto. lia.
Qed.
Lemma find_loop_no_panic max_pfn lk fuel : forall o pfn, pfn < max_pfn -> find_loop max_pfn lk fuel o pfn <> None.
Proof.
  induction fuel as [|fuel IH]; intros o pfn Hp; cbn [find_loop]; [discriminate|].
  assert (align_down pfn (2 ^ N.of_nat o) <= pfn) by (unfold align_down; apply N.le_sub_l).
  destruct (max_pfn <=? align_down pfn (2 ^ N.of_nat o)) eqn:E; [lia|].
  destruct (lk _) as [K|]; [destruct (Nat.leb o K); [discriminate|]|]; apply IH; assumption.
Qed.

Section Split.
  Variables (max_pfn a F : N) (k : nat) (pfn : N).
  Let s := 2 ^ N.of_nat k.
  Let s_pos : 0 < s. Proof. apply two_pow_pos. Qed.   (* in the context for `lia` *)

  (* m summed over the parts j, ..., j + fuel - 1 *)
  Fixpoint wsum (m : block -> N) (fuel : nat) (j : N) : N :=
    match fuel with
    | O => 0
    | S f => m (F + j * s, k) + wsum m f (j + 1)
    end.

  Lemma split_part_M m FK j st st' :
    split_part max_pfn a F k pfn j st = Some st' -> tuniq (fst st) ->
    (j = 0 -> tget (fst st) a = Some FK) ->
    M m st' + (if j =? 0 then m FK else 0) = M m st + (if pfn =? a + j * s then 0 else m (F + j * s, k))
    /\ tuniq (fst st').
  Proof.
    unfold split_part. fold s. destruct (max_pfn <=? a + j * s); [discriminate|].
    intros H Hu H0. injection H as <-. unfold M. cbn [fst snd].
    pose proof (msum_tdel m (fst st) (a + j * s) Hu) as D.
    split.
    - destruct (j =? 0) eqn:J.
      + assert (j = 0) by lia. subst j. specialize (H0 eq_refl).
        replace (a + 0 * s) with a in * by lia. rewrite H0 in *.
        destruct (pfn =? a); [lia|]. unfold tset. cbn [map snd]. rewrite msum_cons. lia.
      + destruct (tget (fst st) (a + j * s)) as [b|];
          (destruct (pfn =? a + j * s); [|unfold tset; cbn [map snd]; rewrite msum_cons]);
          rewrite ?msum_cons; lia.
    - destruct (pfn =? a + j * s); [apply tuniq_tdel|apply tuniq_tset]; assumption.
  Qed.

  Lemma mul_s_inj i j : i * s = j * s -> i = j.
  Proof. intros H. apply N.mul_cancel_r in H; [assumption|lia]. Qed.
  Lemma part_eqb j0 j : (a + j0 * s =? a + j * s) = (j0 =? j).
  Proof.
    destruct (j0 =? j) eqn:E.
    - assert (j0 = j) by lia. subst. apply N.eqb_refl.
    - destruct (a + j0 * s =? a + j * s) eqn:E2; [|reflexivity].
      assert (j0 * s = j * s) by lia. apply mul_s_inj in H. lia.
  Qed.

  (* the loop over the parts j, ..., j + fuel - 1 when the event names part j0: the whole entry FK (met at
     j = 0) and the named part leave, every part comes in *)
  Lemma split_loop_M m FK j0 : pfn = a + j0 * s -> forall fuel j st st',
    split_loop max_pfn a F k pfn fuel j st = Some st' -> tuniq (fst st) ->
    (j = 0 -> tget (fst st) a = Some FK) ->
    M m st' + (if (j =? 0) && negb (Nat.eqb fuel 0) then m FK else 0)
            + (if (j <=? j0) && (j0 <? j + N.of_nat fuel) then m (F + j0 * s, k) else 0) = M m st + wsum m fuel j
    /\ tuniq (fst st').
  Proof.
    intros Hp. induction fuel as [|fuel IH]; intros j st st'; cbn [split_loop wsum Nat.eqb negb].
    - intros H Hu _. injection H as <-. rewrite andb_false_r.
      replace ((j <=? j0) && (j0 <? j + N.of_nat 0)) with false by lia. split; [lia|assumption].
    - destruct (split_part max_pfn a F k pfn j st) as [st1|] eqn:E; [|discriminate].
      intros H Hu H0. destruct (split_part_M m FK j st st1 E Hu H0) as (E1 & Hu1).
      destruct (IH (j + 1) st1 st' H Hu1 ltac:(lia)) as (E2 & Hu2).
      replace (j + 1 =? 0) with false in E2 by lia. cbn [andb] in E2. rewrite andb_true_r.
      rewrite Hp, part_eqb in E1. split; [|assumption].
      destruct (j0 =? j) eqn:Q.
      + replace ((j + 1 <=? j0) && (j0 <? j + 1 + N.of_nat fuel)) with false in E2 by lia.
        replace ((j <=? j0) && (j0 <? j + N.of_nat (S fuel))) with true by lia.
        assert (j0 = j) by lia. subst j0. lia.
      + replace ((j <=? j0) && (j0 <? j + N.of_nat (S fuel))) with ((j + 1 <=? j0) && (j0 <? j + 1 + N.of_nat fuel)) by lia.
        lia.
  Qed.

  Lemma wsum_bsize fuel : forall j, wsum bsize fuel j = N.of_nat fuel * s.
  Proof.
    induction fuel as [|fuel IH]; intros j; cbn [wsum]; [reflexivity|]. rewrite IH. unfold bsize. cbn [snd]. fold s. lia.
  Qed.
  Lemma wsum_pt x fuel : forall j,
    wsum (pt x) fuel j = b2n ((F + j * s <=? x) && (x <? F + (j + N.of_nat fuel) * s)).
  Proof.
    induction fuel as [|fuel IH]; intros j; cbn [wsum].
    - replace ((F + j * s <=? x) && (x <? F + (j + N.of_nat 0) * s)) with false by lia. reflexivity.
    - rewrite IH. unfold pt, inb, bsize, b2n. cbn [fst snd]. fold s.
      destruct ((F + j * s <=? x) && (x <? F + j * s + s)) eqn:A;
      destruct ((F + (j + 1) * s <=? x) && (x <? F + (j + 1 + N.of_nat fuel) * s)) eqn:B;
      destruct ((F + j * s <=? x) && (x <? F + (j + N.of_nat (S fuel)) * s)) eqn:C; lia.
  Qed.

  Lemma split_part_fst j st st' : split_part max_pfn a F k pfn j st = Some st' ->
    fst st' = if pfn =? a + j * s then tdel (fst st) (a + j * s) else tset (fst st) (a + j * s) (F + j * s, k).
  Proof.
    unfold split_part. fold s. destruct (max_pfn <=? a + j * s); [discriminate|]. intros H. injection H as <-. reflexivity.
  Qed.

  Lemma split_loop_other : forall fuel j st st',
    split_loop max_pfn a F k pfn fuel j st = Some st' ->
    forall q, (forall i, j <= i < j + N.of_nat fuel -> q <> a + i * s) -> tget (fst st') q = tget (fst st) q.
  Proof.
    induction fuel as [|fuel IH]; intros j st st'; cbn [split_loop].
    - intros H. injection H as <-. reflexivity.
    - destruct (split_part max_pfn a F k pfn j st) as [st1|] eqn:E; [|discriminate].
      intros H q Hq. rewrite (IH _ _ _ H q) by (intros i Hi; apply Hq; lia).
      rewrite (split_part_fst _ _ _ E). specialize (Hq j ltac:(lia)).
      destruct (pfn =? a + j * s); [rewrite tget_tdel|rewrite tget_tset];
        (destruct (q =? a + j * s) eqn:Q; [lia|reflexivity]).
  Qed.

  Lemma split_loop_parts : forall fuel j st st',
    split_loop max_pfn a F k pfn fuel j st = Some st' ->
    forall i, j <= i < j + N.of_nat fuel ->
      tget (fst st') (a + i * s) = if pfn =? a + i * s then None else Some (F + i * s, k).
  Proof.
    induction fuel as [|fuel IH]; intros j st st'; cbn [split_loop].
    - intros _ i Hi. lia.
    - destruct (split_part max_pfn a F k pfn j st) as [st1|] eqn:E; [|discriminate].
      intros H i Hi. destruct (N.eq_dec i j) as [->|Hij].
      + rewrite (split_loop_other _ _ _ _ H).
        * rewrite (split_part_fst _ _ _ E).
          destruct (pfn =? a + j * s); [rewrite tget_tdel|rewrite tget_tset]; rewrite N.eqb_refl; reflexivity.
        * intros i Hi' Heq. assert (j * s = i * s) by lia. apply mul_s_inj in H0. lia.
      + apply (IH _ _ _ H). lia.
  Qed.

  Lemma split_loop_twf : forall fuel j st st',
    split_loop max_pfn a F k pfn fuel j st = Some st' -> twf max_pfn (fst st) ->
    (forall i, j <= i < j + N.of_nat fuel -> ewf max_pfn (a + i * s) (F + i * s, k)) -> twf max_pfn (fst st').
  Proof.
    induction fuel as [|fuel IH]; intros j st st'; cbn [split_loop].
    - intros H. injection H as <-. auto.
    - destruct (split_part max_pfn a F k pfn j st) as [st1|] eqn:E; [|discriminate].
      intros H Hw Hp. apply (IH _ _ _ H); [|intros i Hi; apply Hp; lia].
      rewrite (split_part_fst _ _ _ E). intros q b.
      destruct (pfn =? a + j * s); [rewrite tget_tdel|rewrite tget_tset];
        (destruct (q =? a + j * s) eqn:Q; [|apply Hw]); [discriminate|].
      intros Hb. injection Hb as <-. assert (q = a + j * s) by lia. subst q. apply Hp. lia.
  Qed.

  Lemma split_loop_no_panic : forall fuel j st,
    (forall i, j <= i < j + N.of_nat fuel -> a + i * s < max_pfn) ->
    exists st', split_loop max_pfn a F k pfn fuel j st = Some st'.
  Proof.
    induction fuel as [|fuel IH]; intros j st Hp; cbn [split_loop]; [eexists; reflexivity|].
    unfold split_part. fold s. specialize (Hp j ltac:(lia)) as Hj.
    destruct (max_pfn <=? a + j * s) eqn:E; [lia|]. apply IH. intros i Hi. apply Hp. lia.
  Qed.
End Split.

Section Main.
  Variable max_pfn : N.
  Variable choose : astate -> nat -> option N.
  Hypothesis Hch : choose_ok max_pfn choose.

  Record Inv (s : rstate) : Prop := mkInv {
    I_uniq : tuniq (r_tab s);
    I_twf : twf max_pfn (r_tab s);
    I_cnt1 : forall x, icnt x (r_alloc s) <= 1;
    I_ne : Forall ne (r_alloc s);
    I_rng : Forall (fun j => snd j <= max_pfn) (r_alloc s);
    I_own : forall x, M (pt x) (r_tab s, r_orph s) = icnt x (r_alloc s);
    I_len : alen (r_alloc s) = held s;
    I_failed : r_failed s = 0 }.

  Lemma Inv_init : Inv init.
  Proof.
    constructor; cbn [init r_tab r_alloc r_orph r_failed].
    - exact I.
    - intros q b H. discriminate.
    - intros x. unfold icnt. rewrite msum_nil. lia.
    - constructor.
    - constructor.
    - intros x. reflexivity.
    - reflexivity.
    - reflexivity.
  Qed.

  Lemma held_M s : held s = M bsize (r_tab s, r_orph s).
  Proof. reflexivity. Qed.

  Lemma step_alloc rep s e s' o : Inv s -> ev_ok max_pfn e -> e_alloc e = true ->
    step max_pfn choose rep s e = Some (s', o) ->
    Inv s' /\ exists f, o = OAlloc f (e_order e) /\ choose (r_alloc s) (e_order e) = Some f /\
      r_alloc s' = (f, f + 2 ^ N.of_nat (e_order e)) :: r_alloc s /\
      tget (r_tab s') (e_pfn e) = Some (f, e_order e) /\
      (forall q, q <> e_pfn e -> tget (r_tab s') q = tget (r_tab s) q) /\
      r_unknown s' = r_unknown s.
  Proof.
    intros HI (Hord & Hal & Hrng) Ha. unfold step. rewrite Ha. unfold aget.
    destruct (choose (r_alloc s) (e_order e)) as [f|] eqn:C; [|discriminate].
    destruct (Hch _ _ _ C) as (Cf & Cr & Cfree).
    unfold tab_step. rewrite Ha. cbn [fst snd].
    pose proof (two_pow_pos (e_order e)) as Hs. set (sz := 2 ^ N.of_nat (e_order e)) in *.
    destruct (max_pfn <=? e_pfn e) eqn:E; [discriminate|].
    destruct HI as [Hu Hw Hc Hne Hr Hown Hlen Hf].
    assert (Hnew : forall x, inI x (f, f + sz) = true -> icnt x (r_alloc s) = 0).
    { intros x Hx. apply icnt_not_allocd, Cfree. unfold inI in Hx. cbn [fst snd] in Hx. lia. }
    (* the new table and orphan list, whether or not the entry was present *)
    set (T' := tset (r_tab s) (e_pfn e) (f, e_order e)).
    set (orph' := match tget (r_tab s) (e_pfn e) with Some b => b :: r_orph s | None => r_orph s end).
    assert (HM : forall m, M m (T', orph') = m (f, e_order e) + M m (r_tab s, r_orph s)).
    { intros m. unfold M, T', orph', tset. cbn [fst snd map]. rewrite msum_cons.
      pose proof (msum_tdel m (r_tab s) (e_pfn e) Hu) as D.
      destruct (tget (r_tab s) (e_pfn e)); rewrite ?msum_cons; lia. }
    assert (HI' : forall re, Inv (mkR ((f, f + sz) :: r_alloc s) T' orph' (r_failed s) (r_unknown s) (r_reallocs s + re))).
    { intros re. constructor; cbn [r_tab r_alloc r_orph r_failed].
      - apply tuniq_tset; assumption.
      - intros q b. unfold T'. rewrite tget_tset. destruct (q =? e_pfn e) eqn:Q; [|apply Hw].
        intros Hb. injection Hb as <-. assert (q = e_pfn e) by lia. subst q.
        unfold ewf, bsize. cbn [fst snd]. fold sz. auto.
      - intros x. unfold icnt. rewrite msum_cons. fold (icnt x (r_alloc s)).
        destruct (inI x (f, f + sz)) eqn:X; unfold b2n; [rewrite (Hnew x X); lia|specialize (Hc x); lia].
      - constructor; [unfold ne; cbn [fst snd]; lia|assumption].
      - constructor; [cbn [snd]; lia|assumption].
      - intros x. rewrite HM, Hown. unfold icnt. rewrite msum_cons. reflexivity.
      - rewrite held_M. cbn [r_tab r_orph]. rewrite HM. change (alen ((f, f + sz) :: r_alloc s)) with ((f + sz - f) + alen (r_alloc s)).
        rewrite Hlen, held_M. unfold bsize. cbn [snd]. fold sz. lia.
      - assumption. }
    assert (Htab : tget T' (e_pfn e) = Some (f, e_order e) /\ forall q, q <> e_pfn e -> tget T' q = tget (r_tab s) q).
    { unfold T'. split; [rewrite tget_tset, N.eqb_refl; reflexivity|].
      intros q Hq. rewrite tget_tset. destruct (q =? e_pfn e) eqn:Q; [lia|reflexivity]. }
    clearbody T'. subst orph'.
    destruct (tget (r_tab s) (e_pfn e)) as [b|]; intros H; injection H as <- <-.
    all: split; [apply HI'|]; exists f; cbn [r_alloc r_tab r_unknown]; repeat split; solve [auto|apply Htab].
  Qed.

  Lemma step_unknown rep s e : e_alloc e = false ->
    find_alloc max_pfn (look (r_tab s)) (e_pfn e) (e_order e) = Some None ->
    step max_pfn choose rep s e =
      Some (mkR (r_alloc s) (r_tab s) (r_orph s) (r_failed s) (r_unknown s + 1) (r_reallocs s), OUnknown).
  Proof. intros Ha Hf. unfold step, tab_step. rewrite Ha. cbn [fst snd]. rewrite Hf. reflexivity. Qed.

  Lemma find_alloc_found T e a F K : ev_ok max_pfn e ->
    find_alloc max_pfn (look T) (e_pfn e) (e_order e) = Some (Some a) -> tget T a = Some (F, K) ->
    (e_order e <= K)%nat /\ exists j0, a + j0 * 2 ^ N.of_nat (e_order e) = e_pfn e /\ j0 < 2 ^ N.of_nat (K - e_order e).
  Proof.
    intros (Hord & Hal & Hrng) Hf Hg. unfold find_alloc in Hf.
    destruct (find_loop_some _ _ _ _ _ _ Hf) as (o & b & Ho & Ea & Hb & HoK).
    rewrite Hg in Hb. injection Hb as <-. cbn [snd] in HoK. split; [lia|].
    destruct (align_down_part (e_pfn e) (e_order e) o Ho Hal) as (j0 & E1 & E2).
    exists j0. rewrite Ea. split; [assumption|].
    eapply N.lt_le_trans; [eassumption|]. apply N.pow_le_mono_r; lia.
  Qed.

  Lemma step_free s e a F K : Inv s -> ev_ok max_pfn e -> e_alloc e = false ->
    find_alloc max_pfn (look (r_tab s)) (e_pfn e) (e_order e) = Some (Some a) -> tget (r_tab s) a = Some (F, K) ->
    let k := e_order e in let sz := 2 ^ N.of_nat k in let f := F + (e_pfn e - a) in
    exists s', step max_pfn choose true s e = Some (s', OPut f k true) /\ Inv s' /\
      (k <= K)%nat /\ a <= e_pfn e /\ e_pfn e + sz <= a + 2 ^ N.of_nat K /\
      f mod sz = 0 /\ f + sz <= F + 2 ^ N.of_nat K /\
      (forall x, f <= x < f + sz -> allocd (r_alloc s) x = true) /\
      r_alloc s' = aremove (r_alloc s) f (f + sz) /\
      alen (r_alloc s') + sz = alen (r_alloc s) /\
      tget (r_tab s') (e_pfn e) = None /\
      (forall j, j < 2 ^ N.of_nat (K - k) -> a + j * sz <> e_pfn e -> tget (r_tab s') (a + j * sz) = Some (F + j * sz, k)) /\
      (forall q, (forall j, j < 2 ^ N.of_nat (K - k) -> q <> a + j * sz) -> tget (r_tab s') q = tget (r_tab s) q) /\
      r_unknown s' = r_unknown s /\ r_reallocs s' = r_reallocs s.
  Proof.
    intros HI Hev Ha Hf Hg k sz f.
    destruct (find_alloc_found _ _ _ _ _ Hev Hf Hg) as (HkK & j0 & Ej0 & Hj0). fold k sz in Ej0, Hj0.
    destruct HI as [Hu Hw Hc Hne Hr Hown Hlen Hfl].
    destruct (Hw _ _ Hg) as (WF1 & WF2 & WF3). unfold bsize in WF1, WF2, WF3. cbn [fst snd] in WF1, WF2, WF3.
    pose proof (two_pow_pos k) as Hs. fold sz in Hs.
    pose proof (two_pow_pos (K - k)) as Hn. set (n := 2 ^ N.of_nat (K - k)) in *.
    assert (HK : 2 ^ N.of_nat K = n * sz) by (apply two_pow_split; assumption).
    rewrite HK in *.
    assert (Hparts : forall i, i < n -> i * sz + sz <= n * sz) by (intros; apply part_le; assumption).
    assert (Ef : f = F + j0 * sz) by (unfold f; lia).
    assert (HFs : F mod sz = 0).
    { apply (mod_pow2_le F k K HkK). rewrite (two_pow_split k K HkK). exact WF1. }
    (* the split loop does not panic *)
    destruct (split_loop_no_panic max_pfn a F k (e_pfn e) (N.to_nat n) 0 (r_tab s, r_orph s)) as (st' & Hsl).
    { intros i Hi. fold sz. specialize (Hparts i ltac:(lia)). lia. }
    assert (Hfuel : N.to_nat n <> 0%nat) by lia.
    (* an additive measure: what the table and the orphans hold loses exactly the named part *)
    pose proof (fun m => split_loop_M max_pfn a F k (e_pfn e) m (F, K) j0 (eq_sym Ej0) _ _ _ _ Hsl Hu (fun _ => Hg)) as HM.
    fold sz in HM.
    assert (Hsplit : forall m, wsum F k m (N.to_nat n) 0 = m (F, K) ->
              M m st' + m (F + j0 * sz, k) = M m (r_tab s, r_orph s)).
    { intros m Em. destruct (HM m) as (E & _). rewrite Em in E.
      replace ((0 =? 0) && negb (Nat.eqb (N.to_nat n) 0)) with true in E by (destruct (N.to_nat n); [congruence|reflexivity]).
      replace ((0 <=? j0) && (j0 <? 0 + N.of_nat (N.to_nat n))) with true in E by lia. lia. }
    assert (Hsize : M bsize st' + sz = M bsize (r_tab s, r_orph s)).
    { apply (Hsplit bsize). rewrite wsum_bsize, N2Nat.id. unfold bsize. cbn [snd]. fold sz. symmetry. exact HK. }
    assert (Hpt : forall x, M (pt x) st' + pt x (F + j0 * sz, k) = M (pt x) (r_tab s, r_orph s)).
    { intros x. apply (Hsplit (pt x)). rewrite wsum_pt, N2Nat.id. fold sz. unfold pt, inb, bsize. cbn [fst snd].
      rewrite HK. f_equal. lia. }
    destruct (HM bsize) as (_ & Hu').
    (* the put *)
    assert (Hcovx : forall x, f <= x < f + sz -> allocd (r_alloc s) x = true).
    { intros x Hx. apply icnt_allocd. rewrite <- Hown.
      pose proof (msum_tget (pt x) _ _ _ Hg) as L. unfold M. cbn [fst snd].
      assert (pt x (F, K) = 1).
      { unfold pt, inb, bsize, b2n. cbn [fst snd]. rewrite HK. specialize (Hparts j0 Hj0).
        replace ((F <=? x) && (x <? F + n * sz)) with true by lia. reflexivity. }
      lia. }
    assert (Hcov : covered (r_alloc s) f (f + sz) = true) by (apply covered_iff; [lia|assumption]).
    assert (Hfa : f mod sz = 0).
    { rewrite Ef. rewrite N.mod_add by lia. assumption. }
    specialize (Hparts j0 Hj0) as Hp0.
    pose proof (alen_aremove max_pfn (r_alloc s) f (f + sz) ltac:(lia) Hr Hc Hcovx) as Hrem.
    exists (mkR (aremove (r_alloc s) f (f + sz)) (fst st') (snd st') (r_failed s) (r_unknown s) (r_reallocs s)).
    split.
    { unfold step, tab_step. rewrite Ha. cbn [fst snd]. rewrite Hf, Hg.
      replace (Nat.ltb K (e_order e)) with false by (symmetry; apply Nat.ltb_ge; assumption).
      fold k. fold n. rewrite Hsl. unfold aput. fold sz. fold f. rewrite Hcov.
      replace ((f mod sz =? 0) && (f + sz <=? max_pfn)) with true by lia. reflexivity. }
    split.
    { constructor; cbn [r_tab r_alloc r_orph r_failed].
      - assumption.
      - eapply split_loop_twf; [exact Hsl|exact Hw|]. intros i Hi. fold sz. rewrite N2Nat.id in Hi.
        specialize (Hparts i ltac:(lia)). unfold ewf, bsize. cbn [fst snd]. fold k sz.
        repeat split; [rewrite N.mod_add by lia; assumption|lia|lia].
      - intros x. rewrite icnt_aremove by lia. specialize (Hc x). destruct ((f <=? x) && (x <? f + sz)); lia.
      - apply ne_flat.
      - apply rng_aremove; assumption.
      - intros x. rewrite icnt_aremove by lia. specialize (Hpt x). specialize (Hc x). specialize (Hown x).
        replace (fst st', snd st') with st' by (destruct st'; reflexivity).
        unfold pt at 2 in Hpt. unfold inb, bsize in Hpt. cbn [fst snd] in Hpt. fold k sz in Hpt. rewrite <- Ef in Hpt.
        destruct ((f <=? x) && (x <? f + sz)) eqn:Q.
        + assert (1 <= icnt x (r_alloc s)) by (apply icnt_allocd, Hcovx; lia).
          unfold b2n in Hpt. lia.
        + unfold b2n in Hpt. lia.
      - rewrite held_M. cbn [r_tab r_orph]. replace (fst st', snd st') with st' by (destruct st'; reflexivity).
        rewrite held_M in Hlen. lia.
      - assumption. }
    cbn [r_alloc r_tab r_unknown r_reallocs].
    repeat split; try assumption.
    all: try (clear - Ej0 Hp0 Ef Hrem Hs; lia).
    - pose proof (split_loop_parts max_pfn a F k (e_pfn e) _ _ _ _ Hsl j0 ltac:(lia)) as P. fold sz in P.
      rewrite Ej0 in P. rewrite N.eqb_refl in P. assumption.
    - intros j Hj Hne'. pose proof (split_loop_parts max_pfn a F k (e_pfn e) _ _ _ _ Hsl j ltac:(lia)) as P. fold sz in P.
      destruct (e_pfn e =? a + j * sz) eqn:Q; [lia|assumption].
    - intros q Hq. apply (split_loop_other max_pfn a F k (e_pfn e) _ _ _ _ Hsl). intros i Hi. fold sz. apply Hq. lia.
  Qed.
End Main.

(* the table bookkeeping does not depend on the frames: simulation with the trace spec *)
Definition proj (T : table) : list (N * nat) := map (fun e => (fst e, snd (snd e))) T.
Definition osim (o1 o2 : list block) : Prop := map snd o1 = map snd o2.
Definition bsim (x y : option block) : Prop :=
  match x, y with Some b1, Some b2 => snd b1 = snd b2 | None, None => True | _, _ => False end.

Lemma tget_sim T1 : forall T2 p, proj T1 = proj T2 -> bsim (tget T1 p) (tget T2 p).
Proof.
  induction T1 as [|[p1 [f1 k1]] T1 IH]; intros [|[p2 [f2 k2]] T2] p H; try discriminate; cbn [tget bsim]; [exact I|].
  cbn [proj map fst snd] in H. injection H as H1 H2 H3. subst p2 k2. cbn [fst snd].
  destruct (p1 =? p); [cbn [bsim]; reflexivity|]. apply IH. assumption.
Qed.
Lemma look_sim T1 T2 a : proj T1 = proj T2 -> look T1 a = look T2 a.
Proof.
  intros H. pose proof (tget_sim T1 T2 a H) as S. unfold look.
  destruct (tget T1 a), (tget T2 a); cbn [bsim] in S; try contradiction; congruence.
Qed.
Lemma proj_tdel T1 : forall T2 p, proj T1 = proj T2 -> proj (tdel T1 p) = proj (tdel T2 p).
Proof.
  induction T1 as [|[p1 [f1 k1]] T1 IH]; intros [|[p2 [f2 k2]] T2] p H; try discriminate; [reflexivity|].
  cbn [proj map fst snd] in H. injection H as H1 H2 H3. subst p2 k2. cbn [tdel filter fst snd].
  fold (tdel T1 p) (tdel T2 p). destruct (p1 =? p); cbn [negb].
  - apply IH. assumption.
  - cbn [proj map fst snd]. f_equal. apply IH. assumption.
Qed.
Lemma proj_tset T1 T2 p f1 f2 k : proj T1 = proj T2 -> proj (tset T1 p (f1, k)) = proj (tset T2 p (f2, k)).
Proof. intros H. unfold tset. cbn [proj map fst snd]. f_equal. apply proj_tdel. assumption. Qed.

Lemma find_loop_ext max_pfn lk1 lk2 : (forall a, lk1 a = lk2 a) -> forall fuel o pfn,
  find_loop max_pfn lk1 fuel o pfn = find_loop max_pfn lk2 fuel o pfn.
Proof.
  intros H. induction fuel as [|fuel IH]; intros o pfn; cbn [find_loop]; [reflexivity|].
  rewrite H. destruct (max_pfn <=? _); [reflexivity|].
  destruct (lk2 _); [destruct (Nat.leb o n); [reflexivity|]|]; apply IH.
Qed.

Definition stsim (x y : option (table * list block)) : Prop :=
  match x, y with
  | Some s1, Some s2 => proj (fst s1) = proj (fst s2) /\ osim (snd s1) (snd s2)
  | None, None => True
  | _, _ => False
  end.

Lemma split_part_sim max_pfn a F1 F2 k pfn j st1 st2 :
  proj (fst st1) = proj (fst st2) -> osim (snd st1) (snd st2) ->
  stsim (split_part max_pfn a F1 k pfn j st1) (split_part max_pfn a F2 k pfn j st2).
Proof.
  intros HT Ho. unfold split_part. destruct (max_pfn <=? a + j * 2 ^ N.of_nat k); [exact I|].
  cbn [stsim fst snd]. split.
  - destruct (pfn =? a + j * 2 ^ N.of_nat k); [apply proj_tdel|apply proj_tset]; assumption.
  - pose proof (tget_sim _ _ (a + j * 2 ^ N.of_nat k) HT) as S.
    destruct (tget (fst st1) _), (tget (fst st2) _); cbn [bsim] in S; try contradiction; [|assumption].
    destruct (j =? 0); [assumption|]. unfold osim in *. cbn [map]. congruence.
Qed.
Lemma split_loop_sim max_pfn a F1 F2 k pfn : forall fuel j st1 st2,
  proj (fst st1) = proj (fst st2) -> osim (snd st1) (snd st2) ->
  stsim (split_loop max_pfn a F1 k pfn fuel j st1) (split_loop max_pfn a F2 k pfn fuel j st2).
Proof.
  induction fuel as [|fuel IH]; intros j st1 st2 HT Ho; cbn [split_loop]; [cbn [stsim]; auto|].
  pose proof (split_part_sim max_pfn a F1 F2 k pfn j st1 st2 HT Ho) as S.
  destruct (split_part max_pfn a F1 k pfn j st1) as [s1|], (split_part max_pfn a F2 k pfn j st2) as [s2|];
    cbn [stsim] in S; try contradiction; [|exact I].
  destruct S. apply IH; assumption.
Qed.

Definition obsim (x y : tobs) : Prop :=
  match x, y with
  | TAlloc r1, TAlloc r2 => r1 = r2
  | TUnknown, TUnknown => True
  | TFree a1 _ K1, TFree a2 _ K2 => a1 = a2 /\ K1 = K2
  | _, _ => False
  end.
Definition tssim (x y : option (table * list block * tobs)) : Prop :=
  match x, y with
  | Some (T1, o1, b1), Some (T2, o2, b2) => proj T1 = proj T2 /\ osim o1 o2 /\ obsim b1 b2
  | None, None => True
  | _, _ => False
  end.

Lemma tab_step_sim max_pfn st1 st2 e f1 f2 :
  proj (fst st1) = proj (fst st2) -> osim (snd st1) (snd st2) ->
  tssim (tab_step max_pfn st1 e f1) (tab_step max_pfn st2 e f2).
Proof.
  intros HT Ho. unfold tab_step. destruct (e_alloc e).
  - destruct (max_pfn <=? e_pfn e); [exact I|].
    pose proof (tget_sim _ _ (e_pfn e) HT) as S.
    destruct (tget (fst st1) _), (tget (fst st2) _); cbn [bsim] in S; try contradiction; cbn [tssim].
    + repeat split; [apply proj_tset; assumption|unfold osim in *; cbn [map]; congruence].
    + repeat split; [apply proj_tset; assumption|assumption].
  - unfold find_alloc. rewrite (find_loop_ext max_pfn _ _ (fun a => look_sim _ _ a HT)).
    destruct (find_loop max_pfn (look (fst st2)) _ _ _) as [[a|]|]; [| cbn [tssim obsim]; auto | exact I].
    pose proof (tget_sim _ _ a HT) as S.
    destruct (tget (fst st1) a) as [[G1 K1]|], (tget (fst st2) a) as [[G2 K2]|]; cbn [bsim snd] in S; try contradiction; [|exact I].
    subst K2. destruct (Nat.ltb K1 (e_order e)); [exact I|].
    pose proof (split_loop_sim max_pfn a G1 G2 (e_order e) (e_pfn e) (N.to_nat (2 ^ N.of_nat (K1 - e_order e))) 0 st1 st2 HT Ho) as L.
    destruct (split_loop max_pfn a G1 _ _ _ _ st1) as [s1|], (split_loop max_pfn a G2 _ _ _ _ st2) as [s2|];
      cbn [stsim] in L; try contradiction; [|exact I].
    destruct L. cbn [tssim obsim]. auto.
Qed.

Lemma tsum_proj T1 T2 : proj T1 = proj T2 -> tsum T1 = tsum T2.
Proof.
  revert T2. induction T1 as [|[p1 [f1 k1]] T1 IH]; intros [|[p2 [f2 k2]] T2] H; try discriminate; [reflexivity|].
  cbn [proj map fst snd] in H. injection H as H1 H2 H3. subst p2 k2. unfold tsum in *. cbn [map bsum fold_right snd].
  fold (bsum (map snd T1)) (bsum (map snd T2)). rewrite (IH T2 H3). reflexivity.
Qed.
Lemma bsum_osim o1 o2 : osim o1 o2 -> bsum o1 = bsum o2.
Proof.
  unfold osim. revert o2. induction o1 as [|[f1 k1] o1 IH]; intros [|[f2 k2] o2] H; try discriminate; [reflexivity|].
  cbn [map snd] in H. injection H as H1 H2. subst k2. cbn [bsum fold_right]. fold (bsum o1) (bsum o2).
  rewrite (IH o2 H2). reflexivity.
Qed.

Record Sim (s : rstate) (t : sstate) : Prop := mkSim {
  S_tab : proj (r_tab s) = proj (s_tab t);
  S_orph : osim (r_orph s) (s_orph t);
  S_unknown : r_unknown s = s_unknown t;
  S_reallocs : r_reallocs s = s_reallocs t }.

Lemma step_sim max_pfn choose rep s t e s' o : Sim s t -> step max_pfn choose rep s e = Some (s', o) ->
  exists t', spec_step max_pfn t e = Some t' /\ Sim s' t'.
Proof.
  intros [HT Ho Hu Hr]. unfold step, spec_step.
  (* both loops run tab_step, on related tables; only the frame f1 they pass differs *)
  assert (S : forall f1, tssim (tab_step max_pfn (r_tab s, r_orph s) e f1)
                               (tab_step max_pfn (s_tab t, s_orph t) e (e_pfn e)))
    by (intros f1; apply tab_step_sim; assumption).
  destruct (e_alloc e);
    [destruct (aget choose (r_alloc s) (e_order e)) as [[f st']|]; [specialize (S f)|discriminate]|specialize (S 0)].
  all: destruct (tab_step max_pfn (r_tab s, r_orph s) e _) as [[[T1 o1] b1]|]; [|discriminate].
  all: destruct (tab_step max_pfn (s_tab t, s_orph t) e (e_pfn e)) as [[[T2 o2] b2]|]; cbn [tssim] in S; [|contradiction].
  all: destruct S as (S1 & S2 & S3); destruct b1, b2; cbn [obsim] in S3; try contradiction; try discriminate; subst.
  all: try destruct (aput max_pfn (r_alloc s) _ (e_order e)).
  all: intros H; injection H as <- <-; eexists; (split; [reflexivity|]); constructor;
    cbn [r_tab r_orph r_unknown r_reallocs s_tab s_orph s_unknown s_reallocs]; solve [assumption|congruence].
Qed.

Lemma run_sim max_pfn choose rep : forall evs s t s', Sim s t -> run max_pfn choose rep s evs = Some s' ->
  exists t', spec_run max_pfn t evs = Some t' /\ Sim s' t'.
Proof.
  induction evs as [|e evs IH]; intros s t s' HS; cbn [run spec_run].
  - intros H. injection H as <-. eauto.
  - destruct (step max_pfn choose rep s e) as [[s1 o]|] eqn:E; [|discriminate].
    destruct (step_sim _ _ _ _ _ _ _ _ HS E) as (t1 & E1 & HS1). rewrite E1. apply IH. assumption.
Qed.

Section Final.
  Variable max_pfn : N.
  Variable choose : astate -> nat -> option N.
  Hypothesis Hch : choose_ok max_pfn choose.

  Lemma ev_ok_lt e : ev_ok max_pfn e -> e_pfn e < max_pfn.
  Proof. intros (_ & _ & H). pose proof (two_pow_pos (e_order e)). lia. Qed.

  Lemma free_cases s e : Inv max_pfn s -> ev_ok max_pfn e ->
    find_alloc max_pfn (look (r_tab s)) (e_pfn e) (e_order e) = Some None \/
    exists a F K, find_alloc max_pfn (look (r_tab s)) (e_pfn e) (e_order e) = Some (Some a) /\ tget (r_tab s) a = Some (F, K).
  Proof.
    intros HI Hev. destruct (find_alloc max_pfn (look (r_tab s)) (e_pfn e) (e_order e)) as [[a|]|] eqn:Hf.
    - right. unfold find_alloc in Hf. destruct (find_loop_some _ _ _ _ _ _ Hf) as (o & [F K] & _ & _ & Hb & _). eauto.
    - left. reflexivity.
    - exfalso. unfold find_alloc in Hf. revert Hf. apply find_loop_no_panic. apply ev_ok_lt; assumption.
  Qed.

  Lemma step_Inv s e s' o : Inv max_pfn s -> ev_ok max_pfn e ->
    step max_pfn choose true s e = Some (s', o) -> Inv max_pfn s'.
  Proof.
    intros HI Hev H. destruct (e_alloc e) eqn:Ha.
    - exact (proj1 (step_alloc max_pfn choose Hch true s e s' o HI Hev Ha H)).
    - destruct (free_cases s e HI Hev) as [Hf|(a & F & K & Hf & Hg)].
      + rewrite (step_unknown max_pfn choose true s e Ha Hf) in H. injection H as <- <-.
        destruct HI. constructor; cbn [r_tab r_alloc r_orph r_failed]; assumption.
      + destruct (step_free max_pfn choose s e a F K HI Hev Ha Hf Hg) as (s'' & Hs & HI' & _).
        rewrite Hs in H. injection H as <- <-. assumption.
  Qed.

  Lemma run_Inv : forall evs s s', Inv max_pfn s -> Forall (ev_ok max_pfn) evs ->
    run max_pfn choose true s evs = Some s' -> Inv max_pfn s'.
  Proof.
    induction evs as [|e evs IH]; intros s s' HI Hev; cbn [run].
    - intros H. injection H as <-. assumption.
    - inversion Hev; subst. destruct (step max_pfn choose true s e) as [[s1 o]|] eqn:E; [|discriminate].
      apply IH; [eapply step_Inv; eassumption|assumption].
  Qed.

  Lemma free_never_panics pre s e : Forall (ev_ok max_pfn) pre -> replay max_pfn choose pre = Some s ->
    ev_ok max_pfn e -> e_alloc e = false -> exists s' o, replay_step max_pfn choose s e = Some (s', o).
  Proof.
    intros Hpre Hrun Hev Ha. pose proof (run_Inv pre init s (Inv_init max_pfn) Hpre Hrun) as HI.
    destruct (free_cases s e HI Hev) as [Hf|(a & F & K & Hf & Hg)].
    - unfold replay_step. rewrite (step_unknown max_pfn choose true s e Ha Hf). eauto.
    - destruct (step_free max_pfn choose s e a F K HI Hev Ha Hf Hg) as (s'' & Hs & _). unfold replay_step. eauto.
  Qed.

  Lemma frees_traced_block pre s e : Forall (ev_ok max_pfn) pre -> replay max_pfn choose pre = Some s ->
    ev_ok max_pfn e -> e_alloc e = false ->
    forall a F K, find_alloc max_pfn (look (r_tab s)) (e_pfn e) (e_order e) = Some (Some a) ->
      tget (r_tab s) a = Some (F, K) ->
      let k := e_order e in let sz := 2 ^ N.of_nat k in let f := F + (e_pfn e - a) in
      exists s',
        replay_step max_pfn choose s e = Some (s', OPut f k true) /\
        (k <= K)%nat /\ a <= e_pfn e /\ e_pfn e + sz <= a + 2 ^ N.of_nat K /\
        (forall x, f <= x < f + sz -> allocd (r_alloc s) x = true) /\
        (forall x, allocd (r_alloc s') x = allocd (r_alloc s) x && negb ((f <=? x) && (x <? f + sz))) /\
        free_frames max_pfn (r_alloc s') = free_frames max_pfn (r_alloc s) + sz /\
        tget (r_tab s') (e_pfn e) = None /\
        (forall j, j < 2 ^ N.of_nat (K - k) -> a + j * sz <> e_pfn e ->
                   tget (r_tab s') (a + j * sz) = Some (F + j * sz, k)) /\
        (forall q, (forall j, j < 2 ^ N.of_nat (K - k) -> q <> a + j * sz) -> tget (r_tab s') q = tget (r_tab s) q) /\
        r_failed s' = 0 /\ r_unknown s' = r_unknown s /\ r_reallocs s' = r_reallocs s.
  Proof.
    intros Hpre Hrun Hev Ha a F K Hf Hg k sz f.
    pose proof (run_Inv pre init s (Inv_init max_pfn) Hpre Hrun) as HI.
    destruct (step_free max_pfn choose s e a F K HI Hev Ha Hf Hg)
      as (s' & Hs & HI' & H1 & H2 & H3 & H4 & H5 & H6 & H7 & H8 & H9 & H10 & H11 & H12 & H13).
    fold k sz f in Hs, H1, H2, H3, H4, H5, H6, H7, H8, H9, H10, H11.
    exists s'. repeat split; try assumption.
    - intros x. rewrite H7. apply allocd_aremove.
    - unfold free_frames. pose proof (alen_le_max max_pfn (r_alloc s) (I_cnt1 _ _ HI) (I_rng _ _ HI)). lia.
    - apply (I_failed _ _ HI').
  Qed.

  Lemma unknown_free_changes_nothing s e : e_alloc e = false ->
    find_alloc max_pfn (look (r_tab s)) (e_pfn e) (e_order e) = Some None ->
    exists s', replay_step max_pfn choose s e = Some (s', OUnknown) /\
      r_alloc s' = r_alloc s /\ r_tab s' = r_tab s /\ r_orph s' = r_orph s /\
      r_failed s' = r_failed s /\ r_unknown s' = r_unknown s + 1 /\ r_reallocs s' = r_reallocs s.
  Proof.
    intros Ha Hf. unfold replay_step. rewrite (step_unknown max_pfn choose true s e Ha Hf).
    eexists. split; [reflexivity|]. cbn. repeat split.
  Qed.

  Lemma final_count evs s : Forall (ev_ok max_pfn) evs -> replay max_pfn choose evs = Some s ->
    exists t, trace_spec max_pfn evs = Some t /\
      let tracked := tsum (s_tab t) in let orphaned := bsum (s_orph t) in
      trace_held max_pfn evs = Some (tracked + orphaned) /\
      tracked + orphaned <= max_pfn /\
      free_frames max_pfn (r_alloc s) = max_pfn - (tracked + orphaned) /\
      r_failed s = 0 /\ r_unknown s = s_unknown t /\ r_reallocs s = s_reallocs t /\
      tsum (r_tab s) = tracked /\ bsum (r_orph s) = orphaned /\
      (forall x, allocd (r_alloc s) x = true <->
                 exists b, In b (map snd (r_tab s) ++ r_orph s) /\ inb x b = true) /\
      (forall x, (length (filter (inb x) (map snd (r_tab s) ++ r_orph s)) <= 1)%nat).
  Proof.
    intros Hev Hrun. pose proof (run_Inv evs init s (Inv_init max_pfn) Hev Hrun) as HI.
    destruct (run_sim max_pfn choose true evs init (mkS [] [] 0 0) s) as (t & Ht & HS);
      [constructor; reflexivity|exact Hrun|].
    exists t. split; [exact Ht|]. intros tracked orphaned.
    destruct HS as [S1 S2 S3 S4]. destruct HI as [Hu Hw Hc Hne Hr Hown Hlen Hf].
    assert (E1 : tsum (r_tab s) = tracked) by (apply tsum_proj; assumption).
    assert (E2 : bsum (r_orph s) = orphaned) by (apply bsum_osim; assumption).
    pose proof (alen_le_max max_pfn (r_alloc s) Hc Hr) as Hle.
    unfold held in Hlen. rewrite E1, E2 in Hlen.
    repeat split; try assumption.
    - unfold trace_held. unfold trace_spec in Ht. unfold trace_spec. rewrite Ht. reflexivity.
    - lia.
    - unfold free_frames. lia.
    - intros H. apply icnt_allocd in H. rewrite <- Hown in H. unfold M in H. cbn [fst snd] in H.
      rewrite <- msum_app in H. apply pt_exists. assumption.
    - intros H. apply icnt_allocd. rewrite <- Hown. unfold M. cbn [fst snd]. rewrite <- msum_app. apply pt_exists. assumption.
    - intros x. specialize (Hown x). specialize (Hc x). unfold M in Hown. cbn [fst snd] in Hown.
      rewrite <- msum_app, pt_filter in Hown. lia.
  Qed.
  Lemma final_count_no_overwrite evs s t : Forall (ev_ok max_pfn) evs -> replay max_pfn choose evs = Some s ->
    trace_spec max_pfn evs = Some t -> s_orph t = [] ->
    free_frames max_pfn (r_alloc s) = max_pfn - tsum (s_tab t) /\ r_failed s = 0.
  Proof.
    intros Hev Hrun Ht Ho. destruct (final_count evs s Hev Hrun) as (t' & Ht' & H). cbv zeta in H.
    destruct H as (_ & _ & Hfree & Hf & _). rewrite Ht in Ht'. injection Ht' as <-.
    rewrite Ho in Hfree. change (bsum []) with 0 in Hfree. rewrite N.add_0_r in Hfree. auto.
  Qed.
End Final.

(* refutation of the unrepaired loop (D11) and non-vacuity *)
Definition d11_trace : list event := [mkEv true 2 1; mkEv false 3 0; mkEv false 2 0].

Lemma old_refuted :
  Forall (ev_ok 512) d11_trace /\
  trace_held 512 d11_trace = Some 0 /\
  (* unrepaired loop: frees frame 0 for the event that names pfn 3 (frame 1), then fails to free frame 0 again *)
  run_log 512 (first_fit 512) false init d11_trace = Some [OAlloc 0 1; OPut 0 0 true; OPut 0 0 false] /\
  option_map (result 512) (old_replay 512 (first_fit 512) d11_trace) = Some (511, 1, 0, 0) /\
  (* repaired loop *)
  run_log 512 (first_fit 512) true init d11_trace = Some [OAlloc 0 1; OPut 1 0 true; OPut 0 0 true] /\
  option_map (result 512) (replay 512 (first_fit 512) d11_trace) = Some (512, 0, 0, 0).
Proof.
  split; [repeat constructor; apply ev_okb_ok; vm_compute; reflexivity|].
  repeat split; vm_compute; reflexivity.
Qed.

(* partial frees of a first, a middle and a last part (order 8 of an order-10 block), a partial free at a smaller
   order, an unknown free, a re-allocation, a whole free *)
Definition demo_trace : list event :=
  [mkEv true 1024 10; mkEv false 1024 8; mkEv false 1536 8; mkEv false 1792 8; mkEv false 1280 0;
   mkEv false 9 0; mkEv true 4 2; mkEv true 4 2; mkEv false 6 1; mkEv true 16 3; mkEv false 16 3].
Example demo_hypotheses : choose_ok 4096 (first_fit 4096) /\ Forall (ev_ok 4096) demo_trace.
Proof. split; [apply first_fit_ok|]. repeat constructor; apply ev_okb_ok; vm_compute; reflexivity. Qed.
Example demo_runs :
  option_map (result 4096) (replay 4096 (first_fit 4096) demo_trace) = Some (4096 - (255 + 2 + 4), 0, 1, 1) /\
  option_map (fun t => (tsum (s_tab t), bsum (s_orph t), s_unknown t, s_reallocs t)) (trace_spec 4096 demo_trace)
    = Some (257, 4, 1, 1) /\
  run_log 4096 (first_fit 4096) true init demo_trace =
    Some [OAlloc 0 10; OPut 0 8 true; OPut 512 8 true; OPut 768 8 true; OPut 256 0 true; OUnknown;
          OAlloc 0 2; OAlloc 4 2; OPut 6 1 true; OAlloc 8 3; OPut 8 3 true].
Proof. repeat split; vm_compute; reflexivity. Qed.
