(* Preservation of the invariant: get_at at small orders (A1x, A3x) and Bitfield::toggle in its three
   contexts (get_at, put, split).  One lemma per pc. *)
From Coq Require Import PeanoNat.
From LLF Require Import Base BitLemmas Row RowProofs Bitfield Lower Spec LowerMachine
  ConcBase ConcInvDef ConcInvGeom ConcInvStep ConcInvTac.

Section At.
  Variable g : geom.
  Hypothesis wf : wf_geom g.
  Notation HF := (HF g).
  Notation THUGE := (THUGE g).
  Notation ROWS := (ROWS g).

  Lemma local_of' s t x : Inv g s -> nth_error (ms_pool s) t = Some x -> local_b g (ms_frames s) x = true.
  Proof. apply local_of. Qed.
  Lemma finish_err' s t c e : finish s t c (Err e) = set_thr s t (TIdle (Some (Err e))).
  Proof. apply finish_err. Qed.

  Lemma toggle_entry_ghost x c : gpc g c (toggle_entry g x c) = gtoggle g x c 0.
  Proof. unfold toggle_entry. destruct (t_order g x c <=? 2)%nat; [reflexivity|]. destruct (t_order g x c <=? 6)%nat; reflexivity. Qed.
  Lemma toggle_entry_local fm x c : ctx_ok x c = true -> small g c = true -> lpc g fm c (toggle_entry g x c) = true.
  Proof.
    intros Hx Hs. unfold toggle_entry.
    destruct (t_order g x c <=? 2)%nat eqn:E2; [cbn [lpc]; lia|].
    destruct (t_order g x c <=? 6)%nat eqn:E6; cbn [lpc]; [lia|].
    assert (0 <? t_nrows g x c = true) by (apply N.ltb_lt, pow2_pos). lia.
  Qed.

  Lemma step_A1L s t c c0 : Inv g s -> nth_error (ms_pool s) t = Some (TRun c (A1L)) ->
    Inv g (fst (mstep g s t c0)).
  Proof.
    run_pc I Ht Hc L.
    destruct (small_call g wf (ms_frames s) c Hc) as (Hh & He & _); [lia|apply is_getat_not_get; lia|].
    destruct (has_ent g s (c_huge g c) I He) as [v Ev]. rewrite Ev. cbn [fst].
    apply (inv_retry g s t c _ _ (A1C v) _ I Ht (geq_refl _)).
    - intros E. cbn [lpc]. rewrite E. lia.
    - intros _. apply (inv_err g s t c _ _ I Ht (geq_refl _)).
  Qed.

  Lemma step_A1C s t c v c0 : Inv g s -> nth_error (ms_pool s) t = Some (TRun c (A1C v)) ->
    Inv g (fst (mstep g s t c0)).
  Proof.
    run_pc I Ht Hc L.
    destruct (small_call g wf (ms_frames s) c Hc) as (Hh & He & _); [lia|apply is_getat_not_get; lia|].
    destruct (has_ent g s (c_huge g c) I He) as [cur Ev]. rewrite Ev.
    destruct (e_dec v (c_n c)) as [v'|] eqn:Ed; [|cbn [isSome] in L; lia].
    destruct (N.eqb_spec cur v) as [->|Hne]; cbn [fst].
    - destruct (e_dec_some _ _ _ Ed) as (Hm & Hle & ->).
      apply (inv_dec g wf s t _ (TRun c _) _ v (c_n c) I Ht Ev Hh Hm Hle (geq_refl _)).
      + cbn [ghost_of]. rewrite toggle_entry_ghost. apply geq_gtr0.
      + reflexivity.
      + cbn [local_b]. rewrite Hc, toggle_entry_local by (cbn [ctx_ok]; lia). reflexivity.
    - apply (inv_retry g s t c _ _ (A1C cur) _ I Ht (geq_refl _)).
      + intros E. cbn [lpc]. rewrite E. lia.
      + intros _. apply (inv_err g s t c _ _ I Ht (geq_refl _)).
  Qed.

  Lemma step_A3L s t c c0 : Inv g s -> nth_error (ms_pool s) t = Some (TRun c (A3L)) ->
    Inv g (fst (mstep g s t c0)).
  Proof.
    run_pc I Ht Hc L.
    destruct (small_call g wf (ms_frames s) c Hc) as (Hh & He & _); [lia|apply is_getat_not_get; lia|].
    destruct (has_ent g s (c_huge g c) I He) as [v Ev]. rewrite Ev. cbn [fst].
    destruct (inc_possible g wf s t _ _ (c_n c) v I Ht Hh (geq_refl _) Ev) as (Ei & _).
    rewrite Ei. apply (inv_goto g s t c _ (A3C v) I Ht (geq_refl _)). cbn [lpc]. rewrite Ei. cbn [isSome]. lia.
  Qed.

  Lemma step_A3C s t c v c0 : Inv g s -> nth_error (ms_pool s) t = Some (TRun c (A3C v)) ->
    Inv g (fst (mstep g s t c0)).
  Proof.
    run_pc I Ht Hc L.
    destruct (small_call g wf (ms_frames s) c Hc) as (Hh & He & _); [lia|apply is_getat_not_get; lia|].
    destruct (has_ent g s (c_huge g c) I He) as [cur Ev]. rewrite Ev.
    destruct (e_inc g v (c_n c)) as [v'|] eqn:Ed; [|cbn [isSome] in L; lia].
    destruct (inc_possible g wf s t _ _ (c_n c) cur I Ht Hh (geq_refl _) Ev) as (Ei & Hm & Hle).
    destruct (N.eqb_spec cur v) as [->|Hne]; cbn [fst].
    - rewrite Ei in Ed. inversion Ed; subst v'. rewrite finish_err.
      apply (inv_inc g wf s t _ (TIdle _) _ v (c_n c) I Ht Ev Hh Hm); try reflexivity; apply geq_refl.
    - rewrite Ei. apply (inv_goto g s t c _ (A3C cur) I Ht (geq_refl _)). cbn [lpc]. rewrite Ei. cbn [isSome]. lia.
  Qed.



  (* toggle: continuations *)
  Definition toggle_fail_thr (x : tctx) (c : call) : thr :=
    match x with XGetAt => TRun c A3L | XPut => TIdle (Some (Err EMemory)) | XSplit _ => TRun c (PP3 0) end.
  Lemma toggle_fail_eq s t c x : toggle_fail s t c x = set_thr s t (toggle_fail_thr x c).
  Proof. destruct x; cbn [toggle_fail toggle_fail_thr]; [reflexivity|apply finish_err|reflexivity]. Qed.
  (* in the contexts get_at and split a failed toggle leaves what the thread had before it started *)
  Lemma toggle_fail_ghost x c : not_xput x = true -> geq (gtoggle g x c 0) (ghost_of g (toggle_fail_thr x c)).
  Proof. destruct x; [|discriminate|]; intros _; [apply geq_gtr0|apply geq_gsplit0]. Qed.
  Lemma toggle_fail_local fm x c : not_xput x = true -> cwf g fm c = true -> ctx_ok x c = true -> small g c = true ->
    isBad (toggle_fail_thr x c) = 0 /\ local_b g fm (toggle_fail_thr x c) = true.
  Proof.
    intros Hx Hc Hctx Hs. destruct x; [|discriminate|]; cbn [toggle_fail_thr local_b lpc ctx_ok] in *; (split; [reflexivity|]).
    - rewrite Hc, Hctx, Hs. reflexivity.
    - apply andb_true_iff in Hctx. rewrite Hc, (proj1 Hctx), Hs. reflexivity.
  Qed.



  Lemma toggle_fail_plain s t c p x : Inv g s -> nth_error (ms_pool s) t = Some (TRun c p) ->
    geq (gpc g c p) (gtoggle g x c 0) -> not_xput x = true -> ctx_ok x c = true -> small g c = true ->
    Inv g (toggle_fail s t c x).
  Proof.
    intros I Ht E Hx Hctx Hs. destruct (running_local g s t c p I Ht) as [Hc _].
    destruct (toggle_fail_local (ms_frames s) x c Hx Hc Hctx Hs) as [Hb Hl]. rewrite toggle_fail_eq.
    apply (inv_same g s t _ _ I Ht (geq_trans _ _ _ E (toggle_fail_ghost x c Hx)) Hb Hl).
  Qed.

  (* the ghost of a put that has not cleared anything yet, order <= 6 *)
  Lemma fr_put_bits s c x0 h' r' i : geq (ghost_of g x0) (gput (c_huge g c) (c_frame c) (c_n c) 0) ->
    cwf g (ms_frames s) c = true -> small g c = true -> is_put c = true -> (c_order c <= 6)%nat -> r' < ROWS -> i < 64 ->
    fr g h' r' i x0 = b2n ((h' =? c_huge g c) && ((r' =? t_row g XPut c) && inb (t_off XPut c) (c_n c) i)).
  Proof.
    intros E Hc Hs Hp H6 Hr Hi. rewrite (fr_geq g x0 _ _ _ _ E). cbn [own_lo own_n gput].
    rewrite N.mul_0_r, N.add_0_r, N.sub_0_r.
    rewrite (own_block_bits g wf (ms_frames s) c h' r' i Hc Hs (is_put_not_get c Hp) H6 Hr Hi). reflexivity.
  Qed.

  (* the row of a put's block (order <= 6) has all bits of the block set *)
  Lemma put_block_set s t c x0 cur : Inv g s -> nth_error (ms_pool s) t = Some x0 ->
    geq (ghost_of g x0) (gput (c_huge g c) (c_frame c) (c_n c) 0) ->
    cwf g (ms_frames s) c = true -> small g c = true -> is_put c = true -> (c_order c <= 6)%nat ->
    rd_row s (c_huge g c) (t_row g XPut c) = Some cur ->
    t_off XPut c + c_n c <= 64 /\
    forall i, inb (t_off XPut c) (c_n c) i = true -> N.testbit cur i = true.
  Proof.
    intros I Ht E Hc Hs Hp H6 Hrd. pose proof (is_put_not_get c Hp) as Hg.
    destruct (small_call g wf (ms_frames s) c Hc Hs Hg) as (Hh & _ & Hk & Hr & Ho & Hn).
    destruct (small_call_decomp g wf _ c Hc Hs Hg) as (_ & _ & _ & Hal & _).
    pose proof (small_fit_bits g (c_frame c) (c_order c) Hal Hk H6) as Hfit. fold (t_off XPut c) in Hfit. fold (c_n c) in Hfit.
    split; [exact Hfit|].
    apply (owned_block g s t x0 _ _ cur _ _ I Ht Hrd Hh Hr Hfit).
    - rewrite (needsC_geq g x0 _ _ E). cbn [g_h nd gput]. rewrite N.eqb_refl. reflexivity.
    - intros i Hi. assert (i < 64) by (unfold inb in Hi; lia).
      rewrite (fr_put_bits s c x0 _ _ i E Hc Hs Hp H6 Hr H), !N.eqb_refl, Hi. reflexivity.
  Qed.

  Lemma toggle_f_put_some s t c x0 cur : Inv g s -> nth_error (ms_pool s) t = Some x0 ->
    geq (ghost_of g x0) (gput (c_huge g c) (c_frame c) (c_n c) 0) ->
    cwf g (ms_frames s) c = true -> small g c = true -> is_put c = true -> (c_order c <= 6)%nat ->
    rd_row s (c_huge g c) (t_row g XPut c) = Some cur ->
    toggle_f g XPut c cur = Some (N.land cur (not64 (t_mask g XPut c))).
  Proof.
    intros I Ht E Hc Hs Hp H6 Hrd. destruct (put_block_set s t c x0 cur I Ht E Hc Hs Hp H6 Hrd) as [_ Hset].
    unfold toggle_f. cbn [t_expected].
    assert (Em : N.land cur (t_mask g XPut c) = t_mask g XPut c).
    { apply land_mask_full. intros i Hi. apply Hset. unfold t_mask in Hi. rewrite testbit_mask64 in Hi. exact Hi. }
    rewrite Em, N.eqb_refl. reflexivity.
  Qed.

  Lemma toggle_not_get x c : ctx_ok x c = true -> is_get c = false.
  Proof. destruct x; cbn [ctx_ok]; intros H; [apply is_getat_not_get|apply is_put_not_get|apply is_put_not_get]; lia. Qed.

  Lemma step_TL s t c x c0 : Inv g s -> nth_error (ms_pool s) t = Some (TRun c (TL x)) ->
    Inv g (fst (mstep g s t c0)).
  Proof.
    run_pc I Ht Hc L.
    assert (Hg : is_get c = false) by (apply (toggle_not_get x); lia).
    assert (Hs : small g c = true) by lia.
    destruct (small_call g wf (ms_frames s) c Hc Hs Hg) as (Hh & He & Hk & Hr & Ho & Hn).
    pose proof (t_row_lt g wf x c) as Hrow.
    destruct (has_row g wf s (c_huge g c) (t_row g x c) I Hh Hrow) as (e & Ev & Hlt). rewrite Ev. cbn [fst].
    apply (inv_retry g s t c _ _ (TC x e) _ I Ht (geq_refl _)).
    - intros E. cbn [lpc]. rewrite E. lia.
    - intros Ef. destruct x; cbn [ctx_ok t_order] in L.
      + apply (toggle_fail_plain s t c _ XGetAt I Ht (geq_refl _)); [reflexivity|cbn [ctx_ok]|]; lia.
      + (* a put's toggle cannot fail: it owns the bits it clears, so they are set *)
        exfalso. rewrite (toggle_f_put_some s t c _ e I Ht (geq_refl _)) in Ef; try lia; [discriminate|exact Ev].
      + exfalso. pose proof (wf_hord6 g wf). lia.
  Qed.

  Lemma toggle_f_getat c e v' : toggle_f g XGetAt c e = Some v' ->
    N.land e (t_mask g XGetAt c) = 0 /\ v' = N.lor e (t_mask g XGetAt c).
  Proof. unfold toggle_f. cbn [t_expected]. destruct (N.eqb_spec (N.land e (t_mask g XGetAt c)) 0); [|discriminate].
    intros E; inversion E. auto. Qed.
  Lemma toggle_f_put c e v' : toggle_f g XPut c e = Some v' ->
    N.land e (t_mask g XPut c) = t_mask g XPut c /\ v' = N.land e (not64 (t_mask g XPut c)).
  Proof. unfold toggle_f. cbn [t_expected]. destruct (N.eqb_spec (N.land e (t_mask g XPut c)) (t_mask g XPut c)); [|discriminate].
    intros E; inversion E. auto. Qed.

  (* get_at: the bits of the block are set by one write and the block is handed out *)
  Lemma getat_alloc_bits s t c x0 cur v' : Inv g s -> nth_error (ms_pool s) t = Some x0 ->
    geq (ghost_of g x0) (gpend (c_huge g c) (c_n c)) ->
    cwf g (ms_frames s) c = true -> small g c = true -> is_getat c = true -> (c_order c <= 6)%nat ->
    rd_row s (c_huge g c) (t_row g XGetAt c) = Some cur ->
    (forall i, i < 64 -> N.testbit v' i = N.testbit cur i || inb (t_off XGetAt c) (c_n c) i) ->
    (forall i, inb (t_off XGetAt c) (c_n c) i = true -> N.testbit cur i = false) ->
    v' < W64 ->
    Inv g (finish (wr_row s (c_huge g c) (t_row g XGetAt c) v') t c (Ok (c_frame c))).
  Proof.
    intros I Ht E Hc Hs Hga H6 Hrd Hset Hfree Hv. pose proof (is_getat_not_get c Hga) as Hg.
    destruct (small_call g wf (ms_frames s) c Hc Hs Hg) as (Hh & _ & Hk & Hr & Ho & Hn).
    destruct (small_call_decomp g wf _ c Hc Hs Hg) as (Ed & _ & _ & Hal & _).
    pose proof (small_fit_bits g (c_frame c) (c_order c) Hal Hk H6) as Hfit. fold (t_off XPut c) in Hfit.
    rewrite finish_get_row by (apply is_getat_not_put, Hga).
    rewrite Ed at 2. unfold fidx.
    apply (inv_alloc_block g wf s t x0 _ _ cur v' _ (c_order c) _ I Ht Hrd Hv Hh Hr Hk H6 Hfit); try assumption.
    - unfold t_off. pose proof (pow2_nz (c_order c)).
      change 64 with (pow2 6). rewrite (pow2_split (c_order c) 6), (N.mul_comm (pow2 _)) by lia.
      apply mod_mod_aligned; [assumption|apply pow2_nz|exact Hal].
    - apply (pending_geq g x0 _ _ E).
  Qed.

  (* put: the bits of the block are cleared by one write *)
  Lemma put_release_bits s t c x0 cur v' : Inv g s -> nth_error (ms_pool s) t = Some x0 ->
    geq (ghost_of g x0) (gput (c_huge g c) (c_frame c) (c_n c) 0) ->
    cwf g (ms_frames s) c = true -> small g c = true -> is_put c = true -> (c_order c <= 6)%nat ->
    rd_row s (c_huge g c) (t_row g XPut c) = Some cur ->
    (forall i, i < 64 -> N.testbit v' i = N.testbit cur i && negb (inb (t_off XPut c) (c_n c) i)) ->
    v' < W64 ->
    Inv g (goto (wr_row s (c_huge g c) (t_row g XPut c) v') t c PS2L).
  Proof.
    intros I Ht E Hc Hs Hp H6 Hrd Hclr Hv. pose proof (is_put_not_get c Hp) as Hg.
    destruct (small_call g wf (ms_frames s) c Hc Hs Hg) as (Hh & _ & Hk & Hr & Ho & Hn).
    destruct (put_block_set s t c x0 cur I Ht E Hc Hs Hp H6 Hrd) as [Hfit _].
    destruct (pending_geq g (TRun c PS2L) _ _ (geq_refl _)) as [Pf Pt Pc Ph Pp Pp' Pn Pn'].
    rewrite goto_row.
    apply (inv_release g s t x0 _ _ _ cur v' (t_off XPut c) (c_n c) I Ht Hrd Hv Hh Hr Hfit); try assumption.
    - rewrite (needsC_geq g x0 _ _ E). cbn [g_h nd gput]. rewrite N.eqb_refl. reflexivity.
    - intros r' i Hr' Hi. rewrite (fr_put_bits s c x0 _ r' i E Hc Hs Hp H6 Hr' Hi), N.eqb_refl, Pf. reflexivity.
    - intros r'. rewrite Pt. gread E. cbn [tr_lo tr_n gput]. rewrite inb_empty, andb_false_r. reflexivity.
    - rewrite Pc. gread E. cbn [tr_n gput]. destruct (_ =? _); reflexivity.
    - rewrite Ph. gread E. reflexivity.
    - rewrite Pp. gread E. cbn [g_h p_n gput]. rewrite N.eqb_refl. lia.
    - intros h' Hne. constructor; intros; rewrite ?Pf, ?Pt, ?Pc, ?Ph, ?(Pp' _ Hne), ?(Pn' _ Hne).
      1: rewrite (fr_put_bits s c x0 _ r i E Hc Hs Hp H6) by assumption.
      all: gread E; cbn [g_h tr_lo tr_n p_n nd hu gput]; rewrite ?inb_empty, ?andb_false_r; try reflexivity; try lia.
      all: destruct (N.eqb_spec h' (c_huge g c)); [contradiction|reflexivity].
    - reflexivity.
    - cbn [local_b lpc]. rewrite Hc, Hp, Hs. reflexivity.
  Qed.

  Lemma step_TC s t c x e c0 : Inv g s -> nth_error (ms_pool s) t = Some (TRun c (TC x e)) ->
    Inv g (fst (mstep g s t c0)).
  Proof.
    run_pc I Ht Hc L.
    assert (Hg : is_get c = false) by (apply (toggle_not_get x); lia).
    assert (Hs : small g c = true) by lia.
    destruct (small_call g wf (ms_frames s) c Hc Hs Hg) as (Hh & He & Hk & Hr & Ho & Hn).
    destruct x as [| |old]; [| |exfalso; cbn [t_order] in L; pose proof (wf_hord6 g wf); lia]; cbn [ctx_ok t_order] in L.
    - assert (Hga : is_getat c = true) by lia. assert (H6 : (c_order c <= 6)%nat) by lia.
      destruct (has_row g wf s (c_huge g c) (t_row g XGetAt c) I Hh Hr) as (cur & Ev & Hlt). rewrite Ev.
      destruct (toggle_f g XGetAt c e) as [v'|] eqn:Ef; [|cbn [isSome] in L; lia].
      destruct (N.eqb_spec cur e) as [->|Hne]; cbn [fst toggle_ok].
      + destruct (toggle_f_getat c e v' Ef) as [Hz ->].
        assert (Hfit : t_off XGetAt c + c_n c <= 64).
        { destruct (small_call_decomp g wf (ms_frames s) c Hc Hs Hg) as (_ & _ & _ & Hal & _).
          apply (small_fit_bits g (c_frame c) (c_order c) Hal Hk H6). }
        apply (getat_alloc_bits s t c _ e (N.lor e (t_mask g XGetAt c)) I Ht (geq_gtr0 _ _ _) Hc Hs Hga H6 Ev).
        * intros i _. rewrite N.lor_spec. unfold t_mask. rewrite testbit_mask64. reflexivity.
        * intros i Hi. apply (proj1 (land_mask_zero e (t_mask g XGetAt c)) Hz). unfold t_mask. rewrite testbit_mask64. exact Hi.
        * apply lor_lt; [exact Hlt|]. apply mask64_lt. exact Hfit.
      + apply (inv_retry g s t c _ _ (TC XGetAt cur) _ I Ht (geq_refl _)).
        * intros E. cbn [lpc ctx_ok t_order]. rewrite E. lia.
        * intros _. apply (toggle_fail_plain s t c _ XGetAt I Ht (geq_refl _)); [reflexivity|exact Hga|exact Hs].
    - assert (Hp : is_put c = true) by lia. assert (H6 : (c_order c <= 6)%nat) by lia.
      destruct (has_row g wf s (c_huge g c) (t_row g XPut c) I Hh Hr) as (cur & Ev & Hlt). rewrite Ev.
      destruct (toggle_f g XPut c e) as [v'|] eqn:Ef; [|cbn [isSome] in L; lia].
      pose proof (toggle_f_put_some s t c _ cur I Ht (geq_refl _) Hc Hs Hp H6 Ev) as Ef2.
      destruct (N.eqb_spec cur e) as [->|Hne]; cbn [fst toggle_ok].
      + destruct (toggle_f_put c e v' Ef) as [Hz ->].
        apply (put_release_bits s t c _ e (N.land e (not64 (t_mask g XPut c))) I Ht (geq_refl _) Hc Hs Hp H6 Ev).
        * intros i Hi. rewrite N.land_spec, not64_spec. unfold t_mask. rewrite testbit_mask64.
          apply N.ltb_lt in Hi. rewrite Hi. reflexivity.
        * apply land_lt. exact Hlt.
      + rewrite Ef2. apply (inv_goto g s t c _ (TC XPut cur) I Ht (geq_refl _)).
        cbn [lpc ctx_ok t_order]. rewrite Ef2. cbn [isSome]. lia.
  Qed.

  Lemma step_TN s t c x c0 : Inv g s -> nth_error (ms_pool s) t = Some (TRun c (TN x)) ->
    Inv g (fst (mstep g s t c0)).
  Proof.
    run_pc I Ht Hc L.
    assert (Hg : is_get c = false) by (apply (toggle_not_get x); lia).
    assert (Hs : small g c = true) by lia.
    destruct (small_call g wf (ms_frames s) c Hc Hs Hg) as (Hh & He & Hk & Hr & Ho & Hn).
    destruct x as [| |old]; cbn [ctx_ok t_order t_expected] in *.
    - assert (Hga : is_getat c = true) by lia. assert (H6 : (c_order c <= 6)%nat) by lia.
      destruct (has_row g wf s (c_huge g c) (t_row g XGetAt c) I Hh Hr) as (cur & Ev & Hlt). rewrite Ev.
      assert (Hfit : t_off XGetAt c + c_n c <= 64).
      { destruct (small_call_decomp g wf (ms_frames s) c Hc Hs Hg) as (_ & _ & _ & Hal & _).
        apply (small_fit_bits g (c_frame c) (c_order c) Hal Hk H6). }
      fold (c_n c).
      destruct (N.eqb_spec (N.land (N.shiftr cur (t_off XGetAt c)) (ones (c_n c))) 0) as [Hz|Hnz]; cbn [fst toggle_ok].
      + pose proof (proj1 (lane_zero cur _ _) Hz) as Hfree.
        apply (getat_alloc_bits s t c _ cur _ I Ht (geq_gtr0 _ _ _) Hc Hs Hga H6 Ev); [|exact Hfree|].
        * intros i _. rewrite testbit_lxor_mask. specialize (Hfree i).
          destruct (inb (t_off XGetAt c) (c_n c) i); [rewrite Hfree by reflexivity; reflexivity|].
          rewrite xorb_false_r, orb_false_r. reflexivity.
        * apply lxor_lt; [exact Hlt|]. apply (mask64_lt (c_n c) (t_off XGetAt c) Hfit).
      + apply (toggle_fail_plain s t c _ XGetAt I Ht (geq_refl _)); [reflexivity|exact Hga|exact Hs].
    - assert (Hp : is_put c = true) by lia. assert (H6 : (c_order c <= 6)%nat) by lia.
      destruct (has_row g wf s (c_huge g c) (t_row g XPut c) I Hh Hr) as (cur & Ev & Hlt). rewrite Ev.
      fold (c_n c).
      destruct (put_block_set s t c _ cur I Ht (geq_refl _) Hc Hs Hp H6 Ev) as [Hfit Hset].
      rewrite (proj2 (lane_ones cur _ _) Hset), N.eqb_refl. cbn [fst toggle_ok].
      apply (put_release_bits s t c _ cur _ I Ht (geq_refl _) Hc Hs Hp H6 Ev).
      + intros i _. rewrite testbit_lxor_mask. specialize (Hset i).
        destruct (inb (t_off XPut c) (c_n c) i); [rewrite Hset by reflexivity; reflexivity|].
        rewrite xorb_false_r, andb_true_r. reflexivity.
      + apply lxor_lt; [exact Hlt|]. apply (mask64_lt (c_n c) (t_off XPut c) Hfit).
    - (* split, HUGE_ORDER = 6: the bitfield is one row, filling it completes the split *)
      assert (Hh6 : hord g = 6%nat) by (pose proof (wf_hord6 g wf); lia).
      pose proof (ROWS_pow2 g wf) as ER. rewrite Hh6 in ER. change (pow2 (6 - 6)) with 1 in ER.
      cbn [t_row t_off]. rewrite Hh6. change (pow2 6) with 64.
      destruct (has_row g wf s (c_huge g c) 0 I Hh ltac:(lia)) as (cur & Ev & Hlt). rewrite Ev.
      assert (El : N.land (N.shiftr cur 0) (ones 64) = cur).
      { rewrite N.shiftr_0_r. unfold ones. rewrite N.land_ones. apply N.mod_small. exact Hlt. }
      rewrite El.
      destruct (N.eqb_spec cur 0) as [->|Hne]; cbn [fst toggle_ok].
      + change (N.lxor 0 (N.shiftl (ones 64) 0)) with MAX64. rewrite goto_row.
        apply (inv_fill g s t _ (TRun c (PP2 old)) (gsplit (c_huge g c) (c_frame c) (c_n c) 0) I Ht (geq_refl _));
          [|exact Ev|exact Hh|cbn; lia|reflexivity|cbn [local_b lpc]; lia].
        cbn [ghost_of gpc]. rewrite ER. apply geq_refl.
      + apply (toggle_fail_plain s t c _ (XSplit old) I Ht (geq_refl _)); [reflexivity|cbn [ctx_ok]; lia|exact Hs].
  Qed.

  (* multi-row toggles *)
  Lemma fr_put_rows s c q x0 h' r' i : geq (ghost_of g x0) (gput (c_huge g c) (c_frame c) (c_n c) q) ->
    cwf g (ms_frames s) c = true -> small g c = true -> is_put c = true -> (7 <= c_order c)%nat ->
    q <= pow2 (c_order c - 6) -> r' < ROWS -> i < 64 ->
    fr g h' r' i x0 = b2n ((h' =? c_huge g c) && inb (t_row g XPut c + q) (pow2 (c_order c - 6) - q) r').
  Proof.
    intros E Hc Hs Hp H7 Hq Hr Hi. rewrite (fr_geq g x0 _ _ _ _ E). cbn [own_lo own_n gput].
    rewrite (own_block_rows g wf (ms_frames s) c q h' r' i Hc Hs (is_put_not_get c Hp) H7 Hq Hr Hi). reflexivity.
  Qed.

  (* a put that has cleared all its rows only has their frames pending *)
  Lemma geq_gput_full h f q : geq (gput h f (64 * q) q) (gpend h (64 * q)).
  Proof. constructor; intros; cbn; rewrite ?N.sub_diag, ?inb_empty; reflexivity. Qed.

  (* put, order >= 7: the next row of the block is owned, hence full, and is cleared *)
  Lemma put_release_rows s t c x0 x' q cur : Inv g s -> nth_error (ms_pool s) t = Some x0 ->
    geq (ghost_of g x0) (gput (c_huge g c) (c_frame c) (c_n c) q) ->
    geq (ghost_of g x') (gput (c_huge g c) (c_frame c) (c_n c) (q + 1)) ->
    cwf g (ms_frames s) c = true -> small g c = true -> is_put c = true -> (7 <= c_order c)%nat ->
    q < pow2 (c_order c - 6) ->
    rd_row s (c_huge g c) (t_row g XPut c + q) = Some cur -> cur < W64 ->
    isBad x' = 0 -> local_b g (ms_frames s) x' = true ->
    cur = MAX64 /\ Inv g (mk_row s (c_huge g c) (t_row g XPut c + q) 0 t x' (ms_held s)).
  Proof.
    intros I Ht E0 E1 Hc Hs Hp H7 Hq Hrd Hlt Hb Hl. pose proof (is_put_not_get c Hp) as Hg.
    destruct (small_call g wf (ms_frames s) c Hc Hs Hg) as (Hh & _ & Hk & Hr & Ho & Hn).
    destruct (toggle_rows_fit g wf (ms_frames s) c Hc Hs Hg H7) as (_ & _ & Hfit).
    assert (Hrq : t_row g XPut c + q < ROWS) by (clear - Hfit Hq; lia).
    pose proof (fun h' r' i => fr_put_rows s c q x0 h' r' i E0 Hc Hs Hp H7 ltac:(lia)) as Hfr0.
    pose proof (fun h' r' i => fr_put_rows s c (q + 1) x' h' r' i E1 Hc Hs Hp H7 ltac:(lia)) as Hfr1.
    assert (Hnd : needsC g (c_huge g c) x0 = 1) by (rewrite (needsC_geq g x0 _ _ E0); cbn; rewrite N.eqb_refl; reflexivity).
    assert (Hcur : cur = MAX64).
    { apply row_all_set; [exact Hlt|]. intros i Hi.
      apply (owned_block g s t _ _ _ cur 0 64 I Ht Hrd Hh Hrq (N.le_refl 64) Hnd); [|unfold inb; clear - Hi; lia].
      intros i' Hi'. rewrite Hfr0, N.eqb_refl by (assumption || (unfold inb in Hi'; clear - Hi'; lia)).
      unfold inb. clear - Hq. lia. }
    split; [exact Hcur|]. subst cur.
    apply (inv_release g s t x0 x' (c_huge g c) _ MAX64 0 0 64 I Ht Hrd ltac:(reflexivity) Hh Hrq (N.le_refl 64) Hnd);
      try assumption; intros; try constructor; intros; rewrite ?Hfr0, ?Hfr1 by assumption;
      gread E0; gread E1; cbn [g_h tr_lo tr_n p_n nd hu gput andb];
      rewrite ?N.eqb_refl; try reflexivity.
    - rewrite N.bits_0, testbit_MAX64. unfold inb. clear. lia.
    - unfold inb. lia.
    - clear. lia.
    - destruct (N.eqb_spec h' (c_huge g c)); [contradiction|reflexivity].
    - destruct (N.eqb_spec h' (c_huge g c)); [contradiction|reflexivity].
  Qed.

  Lemma step_TW s t c x q c0 : Inv g s -> nth_error (ms_pool s) t = Some (TRun c (TW x q)) ->
    Inv g (fst (mstep g s t c0)).
  Proof.
    run_pc I Ht Hc L.
    assert (Hg : is_get c = false) by (apply (toggle_not_get x); lia).
    assert (Hs : small g c = true) by lia.
    destruct (small_call g wf (ms_frames s) c Hc Hs Hg) as (Hh & He & Hk & Hr & Ho & Hn).
    destruct x as [| |old]; unfold t_nrows in *; cbn [ctx_ok t_order t_expected] in *.
    - destruct (toggle_rows_fit g wf (ms_frames s) c) as (E0 & En & Hfit); try lia.
      destruct (small_call_decomp g wf (ms_frames s) c) as (Ed & _ & _ & Hal & Hin & _); try lia.
      change (t_row g XGetAt c) with (t_row g XPut c).
      assert (Hrq : t_row g XPut c + q < ROWS) by lia.
      destruct (has_row g wf s (c_huge g c) (t_row g XPut c + q) I Hh Hrq) as (cur & Ev & Hlt). rewrite Ev.
      destruct (N.eqb_spec cur 0) as [->|Hne]; cbn [fst].
      + destruct (q + 1 <? pow2 (c_order c - 6)) eqn:Eq.
        * rewrite goto_row.
          apply (inv_fill g s t _ (TRun c (TW XGetAt (q + 1))) (gtr (c_huge g c) (c_n c) (t_row g XPut c) q)
                   I Ht (geq_refl _) (geq_refl _) Ev Hh Hrq); [reflexivity|].
          cbn [local_b lpc ctx_ok]. unfold t_nrows. cbn [t_order]. lia.
        * cbn [toggle_ok]. rewrite finish_get_row by (apply is_getat_not_put; lia).
          rewrite Ed at 2. unfold fidx. rewrite E0, N.add_0_r.
          apply (inv_alloc_rows g wf s t _ (c_huge g c) (t_row g XPut c) q (c_order c) _ I Ht Ev Hh Hrq Hk); [unfold c_n in En; lia|apply geq_refl|].
          unfold blk_ok. cbn [fst snd]. rewrite Ed, E0 in Hal, Hin. unfold fidx in Hal, Hin. rewrite N.add_0_r in Hal, Hin.
          unfold c_n in Hin. apply andb_true_iff. split; [apply N.eqb_eq; exact Hal|apply N.leb_le; exact Hin].
      + destruct (N.eqb_spec q 0) as [->|Hq].
        * apply (toggle_fail_plain s t c _ XGetAt I Ht (geq_refl _)); [reflexivity|cbn [ctx_ok]; lia|exact Hs].
        * apply (inv_goto g s t c _ (TU XGetAt (q - 1)) I Ht).
          -- cbn [gpc]. rewrite N.sub_add by lia. apply geq_refl.
          -- cbn [lpc ctx_ok not_xput]. unfold t_nrows. cbn [t_order]. lia.
    - assert (Hp : is_put c = true) by lia. assert (H7 : (7 <= c_order c)%nat) by lia.
      destruct (toggle_rows_fit g wf (ms_frames s) c Hc Hs Hg H7) as (_ & En & Hfit).
      assert (Hrq : t_row g XPut c + q < ROWS) by lia.
      destruct (has_row g wf s (c_huge g c) (t_row g XPut c + q) I Hh Hrq) as (cur & Ev & Hlt). rewrite Ev.
      set (x' := if q + 1 <? pow2 (c_order c - 6) then TRun c (TW XPut (q + 1)) else TRun c PS2L).
      destruct (put_release_rows s t c _ x' q cur I Ht (geq_refl _)) as [-> Hinv]; try assumption; try lia.
      + unfold x'. destruct (q + 1 <? pow2 (c_order c - 6)) eqn:Eq; [apply geq_refl|].
        cbn [ghost_of gpc]. replace (q + 1) with (pow2 (c_order c - 6)) by lia. rewrite En. apply geq_sym, geq_gput_full.
      + unfold x'. destruct (q + 1 <? pow2 (c_order c - 6)); reflexivity.
      + unfold x'. destruct (q + 1 <? pow2 (c_order c - 6)) eqn:Eq; cbn [local_b lpc ctx_ok]; unfold t_nrows; cbn [t_order]; lia.
      + rewrite N.eqb_refl. cbn [fst]. unfold x' in Hinv.
        destruct (q + 1 <? pow2 (c_order c - 6)); cbn [toggle_ok]; rewrite goto_row; exact Hinv.
    - pose proof (ROWS_pow2 g wf) as ER. cbn [t_row]. rewrite N.add_0_l.
      assert (Hrq : q < ROWS) by lia.
      destruct (has_row g wf s (c_huge g c) q I Hh Hrq) as (cur & Ev & Hlt). rewrite Ev.
      destruct (N.eqb_spec cur 0) as [->|Hne]; cbn [fst].
      + set (p' := if q + 1 <? pow2 (hord g - 6) then TW (XSplit old) (q + 1) else PP2 old).
        assert (Hx : (if q + 1 <? pow2 (hord g - 6) then goto (wr_row s (c_huge g c) q MAX64) t c (TW (XSplit old) (q + 1))
                      else toggle_ok (wr_row s (c_huge g c) q MAX64) t c (XSplit old))
                     = mk_row s (c_huge g c) q MAX64 t (TRun c p') (ms_held s)).
        { unfold p'. destruct (q + 1 <? pow2 (hord g - 6)); cbn [toggle_ok]; apply goto_row. }
        rewrite Hx.
        apply (inv_fill g s t _ (TRun c p') (gsplit (c_huge g c) (c_frame c) (c_n c) q) I Ht (geq_refl _));
          [|exact Ev|exact Hh|exact Hrq|reflexivity|].
        * unfold p'. destruct (q + 1 <? pow2 (hord g - 6)) eqn:Eq; [apply geq_refl|].
          cbn [ghost_of gpc]. replace ROWS with (q + 1) by lia. apply geq_refl.
        * unfold p'. destruct (q + 1 <? pow2 (hord g - 6)) eqn:Eq; cbn [local_b lpc ctx_ok]; unfold t_nrows; cbn [t_order]; lia.
      + destruct (N.eqb_spec q 0) as [->|Hq].
        * apply (toggle_fail_plain s t c _ (XSplit old) I Ht (geq_refl _)); [reflexivity|cbn [ctx_ok]; lia|exact Hs].
        * apply (inv_goto g s t c _ (TU (XSplit old) (q - 1)) I Ht).
          -- cbn [gpc]. rewrite N.sub_add by lia. apply geq_refl.
          -- cbn [lpc ctx_ok not_xput]. unfold t_nrows. cbn [t_order]. lia.
  Qed.

  Lemma step_TU s t c x q c0 : Inv g s -> nth_error (ms_pool s) t = Some (TRun c (TU x q)) ->
    Inv g (fst (mstep g s t c0)).
  Proof.
    run_pc I Ht Hc L.
    assert (Hg : is_get c = false) by (apply (toggle_not_get x); lia).
    assert (Hs : small g c = true) by lia.
    destruct (small_call g wf (ms_frames s) c Hc Hs Hg) as (Hh & He & Hk & Hr & Ho & Hn).
    assert (Hx : not_xput x = true) by lia. assert (Hctx : ctx_ok x c = true) by lia.
    assert (Hrq : t_row g x c + q < ROWS) by (apply (toggle_row_lt g wf (ms_frames s) x c q Hc Hctx Hs); clear - L; lia).
    destruct (has_row g wf s (c_huge g c) (t_row g x c + q) I Hh Hrq) as (cur & Ev & Hlt). rewrite Ev.
    set (x' := if q =? 0 then toggle_fail_thr x c else TRun c (TU x (q - 1))).
    assert (Hexp : (if t_expected x then 0 else MAX64) = MAX64 /\ (if t_expected x then MAX64 else 0) = 0)
      by (destruct x; [|discriminate|]; split; reflexivity).
    destruct Hexp as [-> ->].
    destruct (toggle_fail_local (ms_frames s) x c Hx Hc Hctx Hs) as [Hfb Hfl].
    assert (G0 : gtoggle g x c (q + 1) = grow (gtoggle g x c q) /\ g_h (gtoggle g x c q) = c_huge g c /\
                 tr_lo (gtoggle g x c q) + tr_n (gtoggle g x c q) = t_row g x c + q)
      by (destruct x; [|discriminate|]; repeat split; reflexivity).
    destruct G0 as (E1 & Eh & Er). rewrite <- Eh, <- Er in *.
    destruct (inv_unfill g wf s t _ x' (gtoggle g x c q) cur I Ht (geq_eq _ _ E1)) as [-> Hinv]; try assumption.
    - unfold x'. destruct (N.eqb_spec q 0) as [->|Hq].
      + apply geq_sym, toggle_fail_ghost, Hx.
      + cbn [ghost_of gpc]. rewrite N.sub_add by (clear - Hq; lia). apply geq_refl.
    - unfold x'. destruct (q =? 0); [exact Hfb|reflexivity].
    - unfold x'. destruct (N.eqb_spec q 0) as [->|Hq]; [exact Hfl|].
      cbn [local_b lpc]. lia.
    - rewrite N.eqb_refl. cbn [fst]. unfold x' in Hinv.
      destruct (q =? 0); [rewrite toggle_fail_eq, set_thr_row|rewrite goto_row]; exact Hinv.
  Qed.
End At.
