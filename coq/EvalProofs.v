(* Proofs about the class-configuration model (EvalClasses.v): property C19. *)
From LLF Require Import Base EvalClasses.
Require Import ZArith ZifyN ZifyBool.

Lemma div_ceil2_pos n : 1 <= n -> 1 <= div_ceil2 n.
Proof.
  unfold div_ceil2; intros H.
  destruct (n mod 2 =? 0) eqn:E; lia.
Qed.

Lemma rem_ok a b : 1 <= b -> exists r, rem a b = Ok r /\ r < b.
Proof.
  intros H; unfold rem.
  destruct (b =? 0) eqn:E; [lia|].
  exists (a mod b); split; [reflexivity|]. apply N.mod_lt; lia.
Qed.

(* the repaired `to_local` stays below `to_count` *)
Lemma to_local_lt k core cores pid :
  1 <= cores ->
  exists l, to_local k core cores pid = Ok l /\
            match l with None => True | Some i => i < to_count k cores end.
Proof.
  intros H; unfold to_local, to_local_with; destruct k; cbn [to_count].
  - exists None; auto.
  - exists (Some 0); split; [reflexivity|lia].
  - destruct (rem_ok core cores H) as (r & -> & Hr). exists (Some r); cbn [bind]; auto.
  - destruct (rem_ok (div_ceil2 core) (div_ceil2 cores) (div_ceil2_pos _ H)) as (r & -> & Hr).
    exists (Some r); cbn [bind]; auto.
  - destruct (rem_ok pid cores H) as (r & -> & Hr). exists (Some r); cbn [bind]; auto.
Qed.

(* how a request's class configuration was chosen *)
Definition chosen (cfg : config) (order gfp : N) (c : class_config) : Prop :=
  (cfg_matches c order gfp = true /\ In c cfg)
  \/ ((forall c', In c' cfg -> cfg_matches c' order gfp = false) /\ hd_error cfg = Some c).

Lemma select_ok cfg order gfp :
  cfg <> [] -> exists c, select cfg order gfp = Ok c /\ In c cfg /\ chosen cfg order gfp c.
Proof.
  intros Hne; unfold select.
  destruct (find (fun c => cfg_matches c order gfp) cfg) as [c|] eqn:F.
  - apply find_some in F as [Hin Hm]. exists c; repeat split; auto. left; auto.
  - destruct cfg as [|c r]; [congruence|].
    exists c; repeat split; [left; reflexivity|].
    right; split; [|reflexivity].
    intros c' Hin. exact (find_none _ _ F c' Hin).
Qed.

(* C19, part 1: the request itself *)
Lemma request_valid cfg order core cores pid gfp :
  cfg <> [] -> 1 <= cores ->
  exists c r,
    request cfg order core cores pid gfp = Ok r
    /\ In c cfg /\ chosen cfg order gfp c
    /\ r_order r = order
    /\ r_class r = cc_id c
    /\ match r_local r with None => True | Some i => i < to_count (cc_count c) cores end.
Proof.
  intros Hne Hc.
  destruct (select_ok cfg order gfp Hne) as (c & Hs & Hin & Hch).
  destruct (to_local_lt (cc_count c) core cores pid Hc) as (l & Hl & Hlt).
  exists c, {| r_order := order; r_class := cc_id c; r_local := l |}.
  unfold request, request_gen, mk_request. rewrite Hs; cbn [bind]. rewrite Hl; cbn [bind].
  repeat split; auto.
Qed.

(* the hypotheses are necessary: the code panics without them *)
Lemma request_empty_panics order core cores pid gfp :
  request [] order core cores pid gfp = Panic (SIndex 0).
Proof. reflexivity. Qed.

Lemma request_cores0_panics c r order core pid gfp :
  cc_count c = CCores \/ cc_count c = CCoresHalf \/ cc_count c = CPids ->
  cfg_matches c order gfp = true ->
  request (c :: r) order core 0 pid gfp = Panic (SArith 0).
Proof.
  intros Hk Hm. unfold request, request_gen, select. cbn [find]. rewrite Hm. cbn [bind].
  unfold mk_request, to_local, to_local_with.
  destruct Hk as [-> | [-> | ->]]; reflexivity.
Qed.

(* C19, part 2: that is the slot count the allocator configures *)
Lemma nodup_ids_consistent cfg : NoDup (map cc_id cfg) -> ids_consistent cfg.
Proof.
  induction cfg as [|a r IH]; intros Hnd c1 c2 H1 H2 Hid; [destruct H1|].
  cbn [map] in Hnd. inversion Hnd as [|x l Hnotin Hnd']; subst.
  destruct H1 as [<-|H1], H2 as [<-|H2]; auto.
  - exfalso; apply Hnotin. rewrite Hid. apply in_map; auto.
  - exfalso; apply Hnotin. rewrite <- Hid. apply in_map; auto.
  - exact (IH Hnd' c1 c2 H1 H2 Hid).
Qed.

Lemma class_locals_upd_same arr id n :
  (nn id < length arr)%nat -> class_locals (upd arr (nn id) (Some n)) id = Some n.
Proof. intros H; unfold class_locals. rewrite nth_error_upd_same; auto. Qed.

Lemma class_locals_upd_other arr id id' n :
  id <> id' -> class_locals (upd arr (nn id') (Some n)) id = class_locals arr id.
Proof.
  intros H; unfold class_locals. rewrite nth_error_upd_other; auto.
  unfold nn; intros E; apply H. apply N2Nat.inj; auto.
Qed.

Lemma locals_fill_spec counts : forall arr,
  Forall (fun e => fst e < CLASS_LEN) counts -> length arr = 8%nat ->
  exists arr', locals_fill counts arr = Ok arr' /\ length arr' = 8%nat /\
    forall id n, id < CLASS_LEN ->
      (forall n', In (id, n') counts -> n' = n) ->
      ((exists n', In (id, n') counts) \/ class_locals arr id = Some n) ->
      class_locals arr' id = Some n.
Proof.
  induction counts as [|[i0 n0] r IH]; intros arr Hs Hlen.
  - exists arr; repeat split; auto. intros id n _ _ [[n' []]|H]; auto.
  - inversion Hs as [|x l Hi0 Hr]; subst. cbn [fst] in Hi0.
    cbn [locals_fill]. assert (E : (i0 <? CLASS_LEN) = true) by (apply N.ltb_lt; auto). rewrite E.
    destruct (IH (upd arr (nn i0) (Some n0)) Hr) as (arr' & Hf & Hl & Hsp).
    { rewrite upd_length; auto. }
    exists arr'; repeat split; auto.
    intros id n Hid Hall Hex. apply Hsp; auto.
    { intros n' Hin; apply Hall; right; auto. }
    assert (Hb : (nn i0 < length arr)%nat).
    { rewrite Hlen. unfold nn, CLASS_LEN in *. lia. }
    destruct (N.eq_dec id i0) as [->|Hne].
    + right. rewrite class_locals_upd_same; auto. f_equal. apply Hall; left; auto.
    + destruct Hex as [[n' [Hin|Hin]]|Hcl].
      * congruence.
      * left; exists n'; auto.
      * right. rewrite class_locals_upd_other; auto.
Qed.

Lemma allocator_slots_spec cfg cores c :
  (length cfg <= 8)%nat -> ids_small cfg -> ids_consistent cfg -> In c cfg ->
  allocator_slots cfg cores (cc_id c) = Ok (Some (to_count (cc_count c) cores)).
Proof.
  intros Hlen Hsm Hcons Hin. unfold allocator_slots, classing_new.
  assert (E : (N.of_nat (length (classing_counts cfg cores)) <=? CLASS_LEN) = true).
  { unfold classing_counts; rewrite map_length. apply N.leb_le. unfold CLASS_LEN; lia. }
  rewrite E; cbn [bind]. unfold locals_new.
  destruct (locals_fill_spec (classing_counts cfg cores) (repeat None 8)) as (arr & Hf & _ & Hsp).
  { unfold classing_counts. apply Forall_map. cbn [fst]. exact Hsm. }
  { reflexivity. }
  rewrite Hf; cbn [bind]. f_equal.
  apply Hsp.
  - unfold ids_small in Hsm. rewrite Forall_forall in Hsm. apply Hsm; auto.
  - intros n' Hin'. unfold classing_counts in Hin'. apply in_map_iff in Hin' as (c' & Heq & Hin').
    inversion Heq as [[Hid Hn]]. rewrite (Hcons c' c Hin' Hin Hid). reflexivity.
  - left. exists (to_count (cc_count c) cores). unfold classing_counts.
    apply in_map_iff. exists c; auto.
Qed.

Lemma request_slot_configured cfg order core cores pid gfp :
  cfg <> [] -> 1 <= cores ->
  (length cfg <= 8)%nat -> ids_small cfg -> ids_consistent cfg ->
  exists r n,
    request cfg order core cores pid gfp = Ok r
    /\ In (r_class r) (map cc_id cfg)
    /\ allocator_slots cfg cores (r_class r) = Ok (Some n)
    /\ match r_local r with None => True | Some i => i < n end.
Proof.
  intros Hne Hc Hlen Hsm Hcons.
  destruct (request_valid cfg order core cores pid gfp Hne Hc) as (c & r & Hr & Hin & _ & _ & Hcl & Hlt).
  exists r, (to_count (cc_count c) cores). repeat split; auto.
  - rewrite Hcl. apply in_map; auto.
  - rewrite Hcl. apply allocator_slots_spec; auto.
Qed.

Lemma request_slot_configured_nodup cfg order core cores pid gfp :
  cfg <> [] -> 1 <= cores ->
  (length cfg <= 8)%nat -> ids_small cfg -> NoDup (map cc_id cfg) ->
  exists r n,
    request cfg order core cores pid gfp = Ok r
    /\ In (r_class r) (map cc_id cfg)
    /\ allocator_slots cfg cores (r_class r) = Ok (Some n)
    /\ match r_local r with None => True | Some i => i < n end.
Proof.
  intros; apply request_slot_configured; auto using nodup_ids_consistent.
Qed.

(* the executable oracle agrees with the statement *)
Lemma request_oracle cfg order core cores pid gfp :
  cfg <> [] -> 1 <= cores -> ids_consistent cfg ->
  exists r, request cfg order core cores pid gfp = Ok r
            /\ req_valid_b (map cc_id cfg) (classing_counts cfg cores) r = true.
Proof.
  intros Hne Hc Hcons.
  destruct (request_valid cfg order core cores pid gfp Hne Hc) as (c & r & Hr & Hin & _ & _ & Hcl & Hlt).
  exists r; split; auto. unfold req_valid_b.
  apply andb_true_iff; split; [apply andb_true_iff; split|].
  - apply existsb_exists. exists (cc_id c); split; [apply in_map; auto|]. apply N.eqb_eq; auto.
  - apply existsb_exists. exists (cc_id c, to_count (cc_count c) cores); split.
    + unfold classing_counts. apply in_map_iff; exists c; auto.
    + cbn [fst]. apply N.eqb_eq; auto.
  - destruct (r_local r) as [i|]; auto.
    apply forallb_forall. intros [id n] Hin'. cbn [fst snd].
    destruct (id =? r_class r) eqn:E; cbn [negb orb]; auto.
    apply N.eqb_eq in E. unfold classing_counts in Hin'.
    apply in_map_iff in Hin' as (c' & Heq & Hin'). inversion Heq; subst.
    apply N.ltb_lt. rewrite (Hcons c' c Hin' Hin); auto. congruence.
Qed.

(* D10: with the repository's `One => Some(1)` the statement fails: one class, kind `one`, 1 core *)
Lemma old_refuted :
  exists cfg order core cores pid gfp r i,
    cfg <> [] /\ 1 <= cores /\ (length cfg <= 8)%nat /\ ids_small cfg /\ NoDup (map cc_id cfg)
    /\ old_request cfg order core cores pid gfp = Ok r
    /\ r_local r = Some i
    /\ allocator_slots cfg cores (r_class r) = Ok (Some 1)
    /\ 1 <= i
    /\ req_valid_b (map cc_id cfg) (classing_counts cfg cores) r = false.
Proof.
  exists ex_one, 0, 0, 1, 0, 0, {| r_order := 0; r_class := 0; r_local := Some 1 |}, 1.
  split; [discriminate|]. split; [discriminate|]. split; [cbv; lia|].
  split; [repeat constructor|]. split; [repeat constructor; intros []|].
  split; [reflexivity|]. split; [reflexivity|]. split; [reflexivity|].
  split; [discriminate|]. vm_compute; reflexivity.
Qed.

(* Duplicate ids with different kinds: without `ids_consistent` even the repaired `request`
   produces a slot index >= the slot count the allocator configures for that class. *)
Lemma dup_ids_refuted :
  exists cfg order core cores pid gfp r i,
    cfg <> [] /\ 1 <= cores /\ (length cfg <= 8)%nat /\ ids_small cfg
    /\ request cfg order core cores pid gfp = Ok r
    /\ r_local r = Some i
    /\ allocator_slots cfg cores (r_class r) = Ok (Some 1)
    /\ 1 <= i.
Proof.
  exists ex_dup, 0, 3, 4, 0, 0, {| r_order := 0; r_class := 0; r_local := Some 3 |}, 3.
  split; [discriminate|]. split; [discriminate|]. split; [cbv; lia|].
  split; [repeat constructor|].
  split; [reflexivity|]. split; [reflexivity|]. split; [reflexivity|]. discriminate.
Qed.

(* non-vacuity: results/classes.json *)
Lemma ex_classes_json_hyps :
  ex_classes_json <> [] /\ (length ex_classes_json <= 8)%nat /\ ids_small ex_classes_json
  /\ NoDup (map cc_id ex_classes_json).
Proof.
  split; [unfold ex_classes_json; congruence|]. split; [cbv; lia|]. split.
  - repeat constructor; cbv; reflexivity.
  - cbn. repeat constructor; cbn; intuition congruence.
Qed.

(* concrete requests against results/classes.json (cores = 4) *)
Lemma ex_classes_json_requests :
  (* immovable: class 0, slot = pid mod cores *)
  request ex_classes_json 0 5 4 7 0 = Ok {| r_order := 0; r_class := 0; r_local := Some 3 |}
  (* movable, easy (HIGHMEM and FS on): class 1 *)
  /\ request ex_classes_json 3 5 4 6 0x8a = Ok {| r_order := 3; r_class := 1; r_local := Some 2 |}
  (* movable page cache, easy: class 2 *)
  /\ request ex_classes_json 3 5 4 6 0x1000008a = Ok {| r_order := 3; r_class := 2; r_local := Some 2 |}
  (* movable only (HIGHMEM off => "hard"): class 3 *)
  /\ request ex_classes_json 3 5 4 9 0x08 = Ok {| r_order := 3; r_class := 3; r_local := Some 1 |}
  (* huge: class 4, kind cores_half: ceil(5/2) mod ceil(4/2) = 1 < 2 slots *)
  /\ request ex_classes_json 9 5 4 9 0x08 = Ok {| r_order := 9; r_class := 4; r_local := Some 1 |}
  /\ allocator_slots ex_classes_json 4 4 = Ok (Some 2)
  (* order 11 matches no entry: falls through to classes[0] *)
  /\ fell_through ex_classes_json 11 0x08 = true
  /\ request ex_classes_json 11 5 4 9 0x08 = Ok {| r_order := 11; r_class := 0; r_local := Some 1 |}
  /\ classing_counts ex_classes_json 5 = [(0, 5); (1, 5); (2, 5); (3, 5); (4, 3)].
Proof. repeat split; vm_compute; reflexivity. Qed.

(* the repaired `one` kind: slot 0 of 1 *)
Lemma ex_one_repaired :
  request ex_one 0 0 1 0 0 = Ok {| r_order := 0; r_class := 0; r_local := Some 0 |}
  /\ allocator_slots ex_one 1 0 = Ok (Some 1)
  /\ old_request ex_one 0 0 1 0 0 = Ok {| r_order := 0; r_class := 0; r_local := Some 1 |}.
Proof. repeat split; vm_compute; reflexivity. Qed.
