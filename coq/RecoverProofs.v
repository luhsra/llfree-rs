(* `lower_recover` (lower.rs `Lower::recover`, with the repair that skips table entries without a
   bitfield): from any state that is structurally sound but whose counters are arbitrary (`LowerPre`)
   it re-establishes the full invariant without changing which frames are allocated, and it is the
   identity on consistent states. *)
From Coq Require Import PeanoNat ZArith ZifyN ZifyBool.
From LLF Require Import Base BitLemmas Row RowProofs Bitfield Lower Spec AbsLemmas BitfieldPutProofs LowerPutProofs.
Local Open Scope N_scope.

Section Recover.
  Variable g : geom.
  Hypothesis WF : wf_geom g.

  (* LowerInv without the counter clause: sizes, row shapes, bits beyond `frames` set, entries without a
     bitfield are 0, markers only on huge frames entirely inside the range *)
  Definition LowerPre (l : lower) : Prop :=
    length (bfs l) = nn (nbf g (frames l)) /\
    length (ents l) = nn (ntab g (frames l) * THUGE g) /\
    (forall h e rows, nth_error (ents l) h = Some e -> nth_error (bfs l) h = Some rows ->
       rows_ok g rows /\
       (e = MARK -> (N.of_nat h + 1) * HF g <= frames l) /\
       (forall i, i < HF g -> frames l <= N.of_nat h * HF g + i -> N.testbit (rows_bits rows) i = true)) /\
    (forall h e, nth_error (ents l) h = Some e -> nth_error (bfs l) h = None -> e = 0).

  Lemma LowerInv_pre l : LowerInv g l -> LowerPre l.
  Proof.
    intros (H1 & H2 & H3 & H4). split; [exact H1|]. split; [exact H2|]. split; [|exact H4].
    intros h e rows He Hb. destruct (H3 h e rows He Hb) as (Hok & Hm & _ & Ht).
    split; [exact Hok|]. split; [|exact Ht]. intros E. apply Hm. exact E.
  Qed.

  (* what recover leaves at one index *)
  Definition rec_ent (e : N) (rows : list N) : N := if e_huge e then e else bf_count_zeros rows.
  Definition rec_bf (e : N) (rows : list N) : list N :=
    if e_huge e then (if bf_count_zeros rows =? HF g then rows else bf_fill rows false) else rows.
  Definition recd_ent (l : lower) (j : nat) : option N :=
    match nth_error (ents l) j, nth_error (bfs l) j with
    | Some e, Some rows => Some (rec_ent e rows) | _, _ => nth_error (ents l) j end.
  Definition recd_bf (l : lower) (j : nat) : option (list N) :=
    match nth_error (ents l) j, nth_error (bfs l) j with
    | Some e, Some rows => Some (rec_bf e rows) | _, _ => nth_error (bfs l) j end.

  Lemma rc_one l h :
    frames (recover_one g l h) = frames l /\
    (forall j, nth_error (ents (recover_one g l h)) j = if Nat.eqb h j then recd_ent l h else nth_error (ents l) j) /\
    (forall j, nth_error (bfs (recover_one g l h)) j = if Nat.eqb h j then recd_bf l h else nth_error (bfs l) j).
  Proof.
    unfold recover_one, recd_ent, recd_bf, rec_ent, rec_bf.
    destruct (nth_error (ents l) h) as [e|] eqn:He.
    2:{ split; [reflexivity|]. split; intros j; destruct (Nat.eqb_spec h j) as [<-|]; congruence. }
    destruct (nth_error (bfs l) h) as [rows|] eqn:Hb.
    2:{ split; [reflexivity|]. split; intros j; destruct (Nat.eqb_spec h j) as [<-|]; congruence. }
    assert (Hhe : (h < length (ents l))%nat) by (apply nth_error_Some; congruence).
    assert (Hhb : (h < length (bfs l))%nat) by (apply nth_error_Some; congruence).
    destruct (e_huge e) eqn:Hh.
    - destruct (bf_count_zeros rows =? HF g).
      + split; [reflexivity|]. split; intros j; destruct (Nat.eqb_spec h j) as [<-|]; congruence.
      + split; [reflexivity|]. split; intros j.
        * cbn [set_bf ents]. destruct (Nat.eqb_spec h j) as [<-|]; congruence.
        * cbn [set_bf bfs]. unfold nn. rewrite Nat2N.id, bp_nth_error_upd.
          destruct (Nat.eqb_spec h j) as [<-|]; [|reflexivity].
          destruct (Nat.ltb_spec h (length (bfs l))); [reflexivity | lia].
    - assert (Ef : e_free e = e) by (unfold e_free; rewrite Hh; reflexivity). rewrite Ef.
      destruct (N.eqb_spec e (bf_count_zeros rows)) as [Ee|Ee].
      + split; [reflexivity|]. split; intros j; destruct (Nat.eqb_spec h j) as [<-|]; congruence.
      + split; [reflexivity|]. split; intros j.
        * cbn [set_ent ents]. unfold nn. rewrite Nat2N.id, bp_nth_error_upd.
          destruct (Nat.eqb_spec h j) as [<-|]; [|reflexivity].
          destruct (Nat.ltb_spec h (length (ents l))); [reflexivity | lia].
        * cbn [set_ent bfs]. destruct (Nat.eqb_spec h j) as [<-|]; congruence.
  Qed.

  Lemma rc_fold : forall n a l,
    let l' := fold_left (recover_one g) (seq a n) l in
    frames l' = frames l /\
    (forall j, nth_error (ents l') j = if (a <=? j)%nat && (j <? a + n)%nat then recd_ent l j else nth_error (ents l) j) /\
    (forall j, nth_error (bfs l') j = if (a <=? j)%nat && (j <? a + n)%nat then recd_bf l j else nth_error (bfs l) j).
  Proof.
    induction n as [|n IH]; intros a l; cbn [seq fold_left].
    - split; [reflexivity|]. split; intros j;
        destruct (Nat.leb_spec a j), (Nat.ltb_spec j (a + 0)); cbn [andb]; try reflexivity; lia.
    - destruct (IH (S a) (recover_one g l a)) as (Hf & He & Hb).
      destruct (rc_one l a) as (Of & Oe & Ob).
      split; [congruence|].
      assert (Hsame : forall j, a <> j -> recd_ent (recover_one g l a) j = recd_ent l j /\
                                         recd_bf (recover_one g l a) j = recd_bf l j).
      { intros j Hj. unfold recd_ent, recd_bf. rewrite Oe, Ob.
        destruct (Nat.eqb_spec a j); [contradiction|]. split; reflexivity. }
      split; intros j.
      + rewrite He, Oe.
        destruct (Nat.leb_spec (S a) j), (Nat.ltb_spec j (S a + n)), (Nat.leb_spec a j), (Nat.ltb_spec j (a + S n)),
          (Nat.eqb_spec a j); cbn [andb]; try reflexivity; try lia; try (subst j; reflexivity).
        apply (Hsame j). assumption.
      + rewrite Hb, Ob.
        destruct (Nat.leb_spec (S a) j), (Nat.ltb_spec j (S a + n)), (Nat.leb_spec a j), (Nat.ltb_spec j (a + S n)),
          (Nat.eqb_spec a j); cbn [andb]; try reflexivity; try lia; try (subst j; reflexivity).
        apply (Hsame j). assumption.
  Qed.

  (* pointwise description of the recovered state *)
  Lemma rc_recover l :
    frames (lower_recover g l) = frames l /\
    (forall j, nth_error (ents (lower_recover g l)) j = recd_ent l j) /\
    (forall j, nth_error (bfs (lower_recover g l)) j = recd_bf l j).
  Proof.
    unfold lower_recover. destruct (rc_fold (length (ents l)) 0 l) as (Hf & He & Hb).
    split; [exact Hf|]. split; intros j.
    - rewrite He. cbn [Nat.leb Nat.add andb]. destruct (Nat.ltb_spec j (length (ents l))) as [|Hj]; [reflexivity|].
      unfold recd_ent. apply nth_error_None in Hj. rewrite Hj. reflexivity.
    - rewrite Hb. cbn [Nat.leb Nat.add andb]. destruct (Nat.ltb_spec j (length (ents l))) as [|Hj]; [reflexivity|].
      unfold recd_bf. apply nth_error_None in Hj. rewrite Hj. reflexivity.
  Qed.

  Lemma rc_length_eq {A B} (l1 : list A) (l2 : list B) :
    (forall j, nth_error l1 j = None <-> nth_error l2 j = None) -> length l1 = length l2.
  Proof.
    intros H. destruct (Nat.lt_trichotomy (length l1) (length l2)) as [L|[L|L]]; [|exact L|].
    - exfalso. assert (N1 : nth_error l1 (length l1) = None) by (apply nth_error_None; lia).
      apply H in N1. apply nth_error_None in N1. lia.
    - exfalso. assert (N2 : nth_error l2 (length l2) = None) by (apply nth_error_None; lia).
      apply H in N2. apply nth_error_None in N2. lia.
  Qed.

  Lemma rc_lengths l :
    length (ents (lower_recover g l)) = length (ents l) /\ length (bfs (lower_recover g l)) = length (bfs l).
  Proof.
    destruct (rc_recover l) as (_ & He & Hb). split; apply rc_length_eq; intros j.
    - rewrite He. unfold recd_ent. destruct (nth_error (ents l) j), (nth_error (bfs l) j); split; congruence.
    - rewrite Hb. unfold recd_bf. destruct (nth_error (ents l) j), (nth_error (bfs l) j); split; congruence.
  Qed.

  Lemma rc_fill_ok rows : rows_ok g rows -> rows_ok g (bf_fill rows false) /\ Forall (fun r => r = 0) (bf_fill rows false).
  Proof.
    intros (Hl & _). rewrite bp_fill_eq, Hl. split.
    - apply bp_rows_ok_repeat. reflexivity.
    - apply bp_Forall_repeat. reflexivity.
  Qed.

  Theorem recover_inv l : LowerPre l -> LowerInv g (lower_recover g l).
  Proof.
    intros (P1 & P2 & P3 & P4). destruct (rc_recover l) as (Hf & He & Hb). destruct (rc_lengths l) as (Le & Lb).
    pose proof (HF_lt_MARK g WF) as HM.
    unfold LowerInv. rewrite Hf, Le, Lb. split; [exact P1|]. split; [exact P2|]. split.
    - intros h e' rows' He' Hb'. rewrite He in He'. rewrite Hb in Hb'. unfold recd_ent, recd_bf in *.
      destruct (nth_error (ents l) h) as [e|] eqn:Ee; [|discriminate].
      destruct (nth_error (bfs l) h) as [rows|] eqn:Eb; [|discriminate].
      injection He' as <-. injection Hb' as <-.
      destruct (P3 h e rows Ee Eb) as (Hok & Hm & Ht). unfold rec_ent, rec_bf.
      destruct (e_huge e) eqn:Hh.
      + assert (Em : e = MARK) by (apply N.eqb_eq; exact Hh). specialize (Hm Em).
        assert (Hz : rows_ok g (if bf_count_zeros rows =? HF g then rows else bf_fill rows false) /\
                     Forall (fun r => r = 0) (if bf_count_zeros rows =? HF g then rows else bf_fill rows false)).
        { destruct (N.eqb_spec (bf_count_zeros rows) (HF g)) as [Ez|Ez].
          - split; [assumption|]. apply (count_zeros_full_zero g WF); assumption.
          - apply rc_fill_ok. assumption. }
        destruct Hz as (Hok' & Hz). split; [exact Hok'|]. split; [|split].
        * intros _. split; assumption.
        * intros N. contradiction.
        * intros i Hi Hr. exfalso. lia.
      + pose proof (bf_count_zeros_le g WF rows Hok) as Hle.
        split; [exact Hok|]. split; [|split].
        * intros E. lia.
        * intros _. split; [reflexivity | exact Hle].
        * exact Ht.
    - intros h e' He' Hb'. rewrite He in He'. rewrite Hb in Hb'. unfold recd_ent, recd_bf in *.
      destruct (nth_error (ents l) h) as [e|] eqn:Ee; [|discriminate].
      destruct (nth_error (bfs l) h) as [rows|] eqn:Eb; [discriminate|].
      injection He' as <-. apply (P4 h e Ee Eb).
  Qed.

  Theorem recover_bf_counter l h : (forall e, nth_error (ents l) h = Some e -> e_huge e = false) ->
    nth_error (bfs (lower_recover g l)) h = nth_error (bfs l) h.
  Proof.
    intros H. destruct (rc_recover l) as (_ & _ & Hb). rewrite Hb. unfold recd_bf, rec_bf.
    destruct (nth_error (ents l) h) as [e|]; [|reflexivity]. rewrite (H e eq_refl).
    destruct (nth_error (bfs l) h); reflexivity.
  Qed.

  Theorem recover_marker l h rows : LowerPre l ->
    nth_error (ents l) h = Some MARK -> nth_error (bfs l) h = Some rows ->
    nth_error (ents (lower_recover g l)) h = Some MARK /\
    exists rows', nth_error (bfs (lower_recover g l)) h = Some rows' /\ rows_ok g rows' /\ Forall (fun r => r = 0) rows'.
  Proof.
    intros (_ & _ & P3 & _) He Hb. destruct (rc_recover l) as (_ & Re & Rb).
    destruct (P3 h MARK rows He Hb) as (Hok & _).
    rewrite Re, Rb. unfold recd_ent, recd_bf, rec_ent, rec_bf. rewrite He, Hb. change (e_huge MARK) with true.
    split; [reflexivity|]. eexists. split; [reflexivity|].
    destruct (N.eqb_spec (bf_count_zeros rows) (HF g)) as [Ez|Ez].
    - split; [assumption|]. apply (count_zeros_full_zero g WF); assumption.
    - apply rc_fill_ok. assumption.
  Qed.

  (* which frames are allocated (and which huge frames are whole) does not change *)
  Theorem recover_alloc_at l f : LowerPre l -> alloc_at g (lower_recover g l) f = alloc_at g l f.
  Proof.
    intros (_ & _ & P3 & _). destruct (rc_recover l) as (Hf & Re & Rb).
    unfold alloc_at, ent, bf. rewrite Hf, Re, Rb. unfold recd_ent, recd_bf, rec_ent, rec_bf.
    destruct (nth_error (ents l) (nn (f / HF g))) as [e|] eqn:He; [|reflexivity].
    destruct (nth_error (bfs l) (nn (f / HF g))) as [rows|] eqn:Hb; [|reflexivity].
    destruct (e_huge e) eqn:Hh.
    - rewrite Hh. reflexivity.
    - destruct (P3 _ e rows He Hb) as (Hok & _).
      rewrite (e_huge_le g WF) by (apply (bf_count_zeros_le g WF); assumption). reflexivity.
  Qed.

  Theorem recover_whole_at l h : LowerPre l -> whole_at (lower_recover g l) h = whole_at l h.
  Proof.
    intros (_ & _ & P3 & _). destruct (rc_recover l) as (Hf & Re & Rb).
    unfold whole_at, ent, bf. rewrite Re, Rb. unfold recd_ent, recd_bf, rec_ent.
    destruct (nth_error (ents l) (nn h)) as [e|] eqn:He; [|reflexivity].
    destruct (nth_error (bfs l) (nn h)) as [rows|] eqn:Hb; [|reflexivity].
    destruct (e_huge e) eqn:Hh; [exact Hh|].
    destruct (P3 _ e rows He Hb) as (Hok & _).
    rewrite (e_huge_le g WF) by (apply (bf_count_zeros_le g WF); assumption). reflexivity.
  Qed.

  Theorem recover_abs l : LowerPre l -> abs g (lower_recover g l) = abs g l.
  Proof.
    intros Pre. pose proof (recover_inv l Pre) as Inv. destruct (rc_recover l) as (Hf & _).
    apply ospec_ext.
    - exact Hf.
    - intros f. rewrite (abs_alloc_testbit g WF _ Inv). rewrite (abs_alloc_testbit_gen g WF l).
      + apply recover_alloc_at. exact Pre.
      + destruct Pre as (_ & _ & P3 & _). intros h e rows He Hb. destruct (P3 h e rows He Hb) as (Hok & _). exact Hok.
    - intros h. rewrite !abs_whole_testbit_gen. apply recover_whole_at. exact Pre.
  Qed.

  Lemma rc_one_id l h : LowerInv g l -> recover_one g l h = l.
  Proof.
    intros (_ & _ & Hok & _). unfold recover_one.
    destruct (nth_error (ents l) h) as [e|] eqn:He; [|reflexivity].
    destruct (nth_error (bfs l) h) as [rows|] eqn:Hb; [|reflexivity].
    destruct (Hok h e rows He Hb) as (Hr & Hm & Hc & _).
    destruct (e_huge e) eqn:Hh.
    - assert (Em : e = MARK) by (apply N.eqb_eq; exact Hh). destruct (Hm Em) as (Hz & _).
      rewrite (count_zeros_of_zero g WF rows Hr Hz), N.eqb_refl. reflexivity.
    - assert (En : e <> MARK) by (apply N.eqb_neq; exact Hh). destruct (Hc En) as (Ec & _).
      unfold e_free. rewrite Hh, <- Ec, N.eqb_refl. reflexivity.
  Qed.

  Theorem recover_id l : LowerInv g l -> lower_recover g l = l.
  Proof.
    intros Inv. unfold lower_recover. generalize (seq 0 (length (ents l))). intros idx.
    induction idx as [|h idx IH]; cbn [fold_left]; [reflexivity|]. rewrite rc_one_id by assumption. exact IH.
  Qed.
End Recover.

(* non-vacuity: corrupt counters and a dirty bitfield under a marker, then recover *)
Definition rc_bad : lower :=
  let l := snd (lower_put g9 (reserve_all g9 5000) 4608 3) in
  (* wrong counter for the partial huge frame 9, marker huge frame 1 with a dirty bitfield *)
  set_bf (set_ent l 9 77) 1 (upd (repeat 0 8) 3 255).

Example recover_ex :
  lower_invb g9 rc_bad = false /\ lower_invb g9 (lower_recover g9 rc_bad) = true /\
  abs g9 (lower_recover g9 rc_bad) = abs g9 rc_bad /\
  ent (lower_recover g9 rc_bad) 9 = Some 8 /\ ent (lower_recover g9 rc_bad) 1 = Some MARK /\
  bf (lower_recover g9 rc_bad) 1 = Some (repeat 0 8) /\
  lower_recover g9 (free_all g9 2049) = free_all g9 2049 /\
  lower_recover g9 (reserve_all g9 0) = reserve_all g9 0.
Proof. vm_compute. repeat split. Qed.

Print Assumptions recover_inv.
Print Assumptions recover_abs.
Print Assumptions recover_bf_counter.
Print Assumptions recover_marker.
Print Assumptions recover_id.
