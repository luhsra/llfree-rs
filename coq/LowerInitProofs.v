(* C06: `free_all` / `reserve_all` initialisation of the lower allocator is correct for every frame
   count (including 0 and counts whose last huge frame / tree is partial), the accounting of
   `lower_stats` agrees with the ownership state under the invariant, nothing at or beyond `frames`
   is ever reported free (`beyond_*`), and freeing everything after `reserve_all` by the canonical
   sequence of puts yields exactly `free_all` (section FreeSeq). *)
From Coq Require Import PeanoNat ZArith ZifyN ZifyBool.
From LLF Require Import Base BitLemmas Row RowProofs Bitfield Lower Spec AbsLemmas BitfieldProofs BitfieldPutProofs LowerPutProofs
  LowerGetProofs LowerFactsGet.
Local Open Scope N_scope.

Lemma li_nth_map_seq {A} (f : nat -> A) n : forall a j,
  nth_error (map f (seq a n)) j = if (j <? n)%nat then Some (f (a + j)%nat) else None.
Proof.
  induction n as [|n IH]; intros a [|j]; cbn [seq map nth_error]; try reflexivity.
  - rewrite Nat.add_0_r. reflexivity.
  - rewrite IH. replace (S a + j)%nat with (a + S j)%nat by lia.
    destruct (Nat.ltb_spec j n), (Nat.ltb_spec (S j) (S n)); try reflexivity; lia.
Qed.

Lemma li_nth_map_seq_N {A} (f : N -> A) n h :
  nth_error (map (fun j => f (N.of_nat j)) (seq 0 (nn n))) (nn h) = if h <? n then Some (f h) else None.
Proof.
  rewrite li_nth_map_seq. cbn [Nat.add]. unfold nn. rewrite N2Nat.id.
  destruct (Nat.ltb_spec (N.to_nat h) (N.to_nat n)), (N.ltb_spec h n); try reflexivity; lia.
Qed.

Section Init.
  Variable g : geom.
  Hypothesis WF : wf_geom g.

  Definition zeros_bf : list N := repeat 0 (rows_nat g).
  Definition ones_bf : list N := repeat MAX64 (rows_nat g).
  Definition part_bf (e : N) : list N := bf_set (bf_set zeros_bf 0 e false) e (HF g) true.

  Lemma li_zeros_ok : rows_ok g zeros_bf.
  Proof. apply bp_rows_ok_repeat. reflexivity. Qed.
  Lemma li_ones_ok : rows_ok g ones_bf.
  Proof. apply bp_rows_ok_repeat. reflexivity. Qed.
  Lemma li_zeros_zero : Forall (fun r => r = 0) zeros_bf.
  Proof. apply bp_Forall_repeat. reflexivity. Qed.
  Lemma li_zeros_bits : rows_bits zeros_bf = 0.
  Proof. apply bp_rows_bits_repeat0. Qed.
  Lemma li_ones_bits i : N.testbit (rows_bits ones_bf) i = (i <? HF g).
  Proof.
    unfold ones_bf. rewrite (bp_rows_bits_full g WF).
    destruct (N.ltb_spec i (HF g)); [apply N.ones_spec_low | apply N.ones_spec_high]; assumption.
  Qed.

  Lemma li_part_ok e : rows_ok g (part_bf e).
  Proof.
    destruct li_zeros_ok as (Hl & Hf). unfold part_bf. split.
    - rewrite !bp_set_length. exact Hl.
    - apply bp_set_lt, bp_set_lt. exact Hf.
  Qed.

  Lemma li_part_bits e i : N.testbit (rows_bits (part_bf e)) i = (e <=? i) && (i <? HF g).
  Proof.
    destruct li_zeros_ok as (Hl & Hf).
    destruct (N.ltb_spec i (HF g)) as [Hi|Hi].
    - unfold part_bf. rewrite bp_set_testbit.
      + rewrite bp_set_testbit by (try assumption; rewrite Hl, <- (HF_rows_nat g WF); assumption).
        rewrite li_zeros_bits, N.bits_0.
        destruct (N.leb_spec e i), (N.ltb_spec i (HF g)), (N.leb_spec 0 i), (N.ltb_spec i e); cbn [andb];
          try reflexivity; lia.
      + apply bp_set_lt. exact Hf.
      + rewrite bp_set_length, Hl, <- (HF_rows_nat g WF). assumption.
    - rewrite (rows_bits_high g WF _ i (li_part_ok e) Hi). rewrite andb_false_r. reflexivity.
  Qed.

  Lemma li_part_count e : e <= HF g -> bf_count_zeros (part_bf e) = e.
  Proof.
    intros He. pose proof (bf_count_zeros_sum g WF _ (li_part_ok e)) as S.
    assert (E : rows_bits (part_bf e) = blk e (HF g - e)).
    { apply N.bits_inj. intros i. rewrite li_part_bits, blk_testbit.
      destruct (N.leb_spec e i), (N.ltb_spec i (HF g)), (N.ltb_spec i (e + (HF g - e))); cbn [andb]; try reflexivity; lia. }
    rewrite E, popcount_blk in S. lia.
  Qed.

  Lemma li_nbf_ge fr : fr <= nbf g fr * HF g.
  Proof. apply div_ceil_ge. pose proof (HF_pos g). lia. Qed.

  Lemma li_full_le fr h : h < fr / HF g -> (h + 1) * HF g <= fr.
  Proof.
    intros H. pose proof (HF_pos g) as HP. pose proof (N.mul_div_le fr (HF g) ltac:(lia)) as M.
    revert H M. generalize (fr / HF g) (HF g). intros; nia.
  Qed.

  Lemma li_full_lt_nbf fr h : h < fr / HF g -> h < nbf g fr.
  Proof.
    intros H. pose proof (li_full_le fr h H). pose proof (li_nbf_ge fr). pose proof (HF_pos g) as HP.
    revert HP H H0 H1. generalize (nbf g fr) (HF g) (fr / HF g). intros; nia.
  Qed.

  Lemma li_partial fr h : h < nbf g fr -> ~ h < fr / HF g -> h = fr / HF g /\ fr - h * HF g = fr mod HF g /\ 0 < fr mod HF g.
  Proof.
    intros H1 H2. pose proof (HF_pos g) as HP. pose proof (nbf_lt_inv g fr h H1) as L.
    pose proof (N.div_mod fr (HF g) ltac:(lia)) as D. pose proof (N.mod_lt fr (HF g) ltac:(lia)) as M.
    revert HP H2 L D M. generalize (HF g) (fr / HF g) (fr mod HF g). intros a q r HP H2 L D M.
    assert (h = q) by nia. subst h. split; [reflexivity|]. split; nia.
  Qed.

  Lemma li_free_all_ent fr h :
    ent (free_all g fr) h = if h <? ntab g fr * THUGE g then Some (N.min (fr - h * HF g) (HF g)) else None.
  Proof. exact (li_nth_map_seq_N (fun b => N.min (fr - b * HF g) (HF g)) _ h). Qed.

  Lemma li_free_all_bf fr h :
    bf (free_all g fr) h =
    if h <? nbf g fr then Some (if h <? fr / HF g then zeros_bf else part_bf (fr - h * HF g)) else None.
  Proof. exact (li_nth_map_seq_N (fun b => if b <? fr / HF g then zeros_bf else part_bf (fr - b * HF g)) _ h). Qed.

  Theorem free_all_inv fr : LowerInv g (free_all g fr).
  Proof.
    pose proof (HF_pos g) as HP. pose proof (HF_lt_MARK g WF) as HM.
    apply (LowerInv_intro g).
    - unfold free_all, free_all_bfs; cbn [bfs frames]. rewrite map_length, seq_length. reflexivity.
    - unfold free_all, free_all_ents; cbn [ents frames]. rewrite map_length, seq_length. reflexivity.
    - intros h e rows He Hb. change (frames (free_all g fr)) with fr.
      rewrite li_free_all_ent in He. rewrite li_free_all_bf in Hb.
      destruct (h <? ntab g fr * THUGE g); [|discriminate]. injection He as <-.
      destruct (N.ltb_spec h (nbf g fr)) as [Hn|]; [|discriminate]. injection Hb as <-.
      destruct (N.ltb_spec h (fr / HF g)) as [Hfull|Hpart].
      + pose proof (li_full_le fr h Hfull) as L.
        assert (E : N.min (fr - h * HF g) (HF g) = HF g) by lia. rewrite E.
        split; [apply li_zeros_ok|]. split; [|split].
        * intros. lia.
        * intros _. split; [|lia]. symmetry. apply (count_zeros_of_zero g WF); [apply li_zeros_ok | apply li_zeros_zero].
        * intros i Hi Hfr. exfalso. lia.
      + destruct (li_partial fr h Hn ltac:(lia)) as (Eh & Er & Hpos).
        pose proof (N.mod_lt fr (HF g) ltac:(lia)) as M.
        assert (E : N.min (fr - h * HF g) (HF g) = fr - h * HF g) by lia. rewrite E.
        split; [apply li_part_ok|]. split; [|split].
        * intros. lia.
        * intros _. split; [|lia]. symmetry. apply li_part_count. lia.
        * intros i Hi Hfr. rewrite li_part_bits.
          destruct (N.leb_spec (fr - h * HF g) i), (N.ltb_spec i (HF g)); cbn [andb]; try reflexivity; lia.
    - intros h e He Hb.
      rewrite li_free_all_ent in He. rewrite li_free_all_bf in Hb.
      destruct (h <? ntab g fr * THUGE g); [|discriminate]. injection He as <-.
      destruct (N.ltb_spec h (nbf g fr)) as [|Hn]; [discriminate|].
      pose proof (li_nbf_ge fr). assert (fr <= h * HF g) by nia. lia.
  Qed.

  Theorem free_all_alloc fr : o_alloc (abs g (free_all g fr)) = 0.
  Proof.
    pose proof (HF_pos g) as HP.
    apply N.bits_inj. intros i. rewrite N.bits_0, (abs_alloc_testbit g WF _ (free_all_inv fr)).
    unfold alloc_at. change (frames (free_all g fr)) with fr.
    destruct (N.ltb_spec i fr) as [Hi|]; [|reflexivity]. cbn [andb].
    rewrite li_free_all_ent, li_free_all_bf.
    destruct (i / HF g <? ntab g fr * THUGE g); [|reflexivity].
    destruct (N.ltb_spec (i / HF g) (nbf g fr)) as [Hn|]; [|reflexivity].
    rewrite (e_huge_le g WF) by lia. cbn [orb].
    destruct (N.ltb_spec (i / HF g) (fr / HF g)) as [Hfull|Hpart].
    - rewrite li_zeros_bits. apply N.bits_0.
    - rewrite li_part_bits.
      pose proof (N.div_mod i (HF g) ltac:(lia)) as D.
      destruct (N.leb_spec (fr - i / HF g * HF g) (i mod HF g)); [|reflexivity]. exfalso. lia.
  Qed.

  Theorem free_all_whole fr : o_whole (abs g (free_all g fr)) = 0.
  Proof.
    apply N.bits_inj. intros h. rewrite N.bits_0, abs_whole_testbit_gen. unfold whole_at.
    rewrite li_free_all_ent. destruct (h <? ntab g fr * THUGE g); [|reflexivity].
    rewrite (e_huge_le g WF) by lia. destruct (bf (free_all g fr) h); reflexivity.
  Qed.

  Theorem free_all_exact_free fr : exact_free (abs g (free_all g fr)) = fr.
  Proof. unfold exact_free. rewrite free_all_alloc. cbn. lia. Qed.

  Lemma li_reserve_all_ent fr h :
    ent (reserve_all g fr) h = if h <? ntab g fr * THUGE g then Some (if h <? fr / HF g then MARK else 0) else None.
  Proof. exact (li_nth_map_seq_N (fun b => if b <? fr / HF g then MARK else 0) _ h). Qed.

  Lemma li_reserve_all_bf fr h :
    bf (reserve_all g fr) h = if h <? nbf g fr then Some (if h <? fr / HF g then zeros_bf else ones_bf) else None.
  Proof. exact (li_nth_map_seq_N (fun b => if b <? fr / HF g then zeros_bf else ones_bf) _ h). Qed.

  Theorem reserve_all_inv fr : LowerInv g (reserve_all g fr).
  Proof.
    pose proof (HF_pos g) as HP. pose proof (HF_lt_MARK g WF) as HM.
    apply (LowerInv_intro g).
    - unfold reserve_all, reserve_all_bfs; cbn [bfs frames]. rewrite map_length, seq_length. reflexivity.
    - unfold reserve_all, reserve_all_ents; cbn [ents frames]. rewrite map_length, seq_length. reflexivity.
    - intros h e rows He Hb. change (frames (reserve_all g fr)) with fr.
      rewrite li_reserve_all_ent in He. rewrite li_reserve_all_bf in Hb.
      destruct (h <? ntab g fr * THUGE g); [|discriminate]. injection He as <-.
      destruct (N.ltb_spec h (nbf g fr)) as [Hn|]; [|discriminate]. injection Hb as <-.
      destruct (N.ltb_spec h (fr / HF g)) as [Hfull|Hpart].
      + pose proof (li_full_le fr h Hfull) as L.
        split; [apply li_zeros_ok|]. split; [|split].
        * intros _. split; [apply li_zeros_zero | exact L].
        * intros E. exfalso. apply E. reflexivity.
        * intros i Hi Hfr. exfalso. lia.
      + split; [apply li_ones_ok|]. split; [|split].
        * intros E. discriminate E.
        * intros _. split; [|lia]. unfold ones_bf. rewrite bp_count_zeros_repeat1. reflexivity.
        * intros i Hi Hfr. rewrite li_ones_bits. apply N.ltb_lt. exact Hi.
    - intros h e He Hb.
      rewrite li_reserve_all_ent in He. rewrite li_reserve_all_bf in Hb.
      destruct (h <? ntab g fr * THUGE g); [|discriminate]. injection He as <-.
      destruct (N.ltb_spec h (nbf g fr)) as [|Hn]; [discriminate|].
      destruct (N.ltb_spec h (fr / HF g)) as [Hfull|]; [|reflexivity].
      pose proof (li_full_lt_nbf fr h Hfull). lia.
  Qed.

  Theorem reserve_all_alloc fr : o_alloc (abs g (reserve_all g fr)) = ones fr.
  Proof.
    pose proof (HF_pos g) as HP.
    apply N.bits_inj. intros i. rewrite (abs_alloc_testbit g WF _ (reserve_all_inv fr)).
    unfold alloc_at, ones. change (frames (reserve_all g fr)) with fr.
    destruct (N.ltb_spec i fr) as [Hi|Hi]; [|rewrite N.ones_spec_high by assumption; reflexivity].
    rewrite N.ones_spec_low by assumption. cbn [andb].
    pose proof (frame_lt_nbf g fr i Hi) as Hn. pose proof (nbf_le_ntab g fr) as Hnt.
    rewrite li_reserve_all_ent, li_reserve_all_bf.
    destruct (N.ltb_spec (i / HF g) (ntab g fr * THUGE g)); [|lia].
    destruct (N.ltb_spec (i / HF g) (nbf g fr)); [|lia].
    destruct (N.ltb_spec (i / HF g) (fr / HF g)).
    - reflexivity.
    - rewrite li_ones_bits. change (e_huge 0) with false. cbn [orb]. apply N.ltb_lt. apply N.mod_lt. lia.
  Qed.

  Theorem reserve_all_whole fr : o_whole (abs g (reserve_all g fr)) = ones (fr / HF g).
  Proof.
    apply N.bits_inj. intros h. rewrite abs_whole_testbit_gen. unfold whole_at, ones.
    rewrite li_reserve_all_ent, li_reserve_all_bf. pose proof (nbf_le_ntab g fr) as Hnt.
    destruct (N.ltb_spec h (fr / HF g)) as [Hfull|Hp].
    - rewrite N.ones_spec_low by assumption. pose proof (li_full_lt_nbf fr h Hfull).
      destruct (N.ltb_spec h (ntab g fr * THUGE g)); [|lia].
      destruct (N.ltb_spec h (nbf g fr)); [|lia]. reflexivity.
    - rewrite N.ones_spec_high by assumption.
      destruct (h <? ntab g fr * THUGE g); [|reflexivity]. change (e_huge 0) with false.
      destruct (h <? nbf g fr); reflexivity.
  Qed.

  Theorem reserve_all_exact_free fr : exact_free (abs g (reserve_all g fr)) = 0.
  Proof.
    unfold exact_free. rewrite reserve_all_alloc. cbn [o_frames abs frames reserve_all].
    unfold ones. rewrite popcount_ones. lia.
  Qed.
End Init.


(* accounting: lower_stats as sums over entry indices *)
Lemma li_skipn_skipn {A} (l : list A) : forall b a, skipn a (skipn b l) = skipn (b + a) l.
Proof.
  induction l as [|x l IH]; intros b a.
  - rewrite !skipn_nil. reflexivity.
  - destruct b; [reflexivity|]. cbn [skipn Nat.add]. apply IH.
Qed.

Lemma li_nsum_split f : forall a b, nsum (a + b) f = nsum a f + nsum b (fun j => f (a + j)%nat).
Proof.
  intros a; revert f; induction a as [|a IH]; intros f b; cbn [nsum Nat.add]; [reflexivity|].
  rewrite IH. lia.
Qed.

Lemma li_nsum_flat n : forall T f, nsum T (fun t => nsum n (fun j => f (t * n + j)%nat)) = nsum (T * n) f.
Proof.
  induction T as [|T IH]; intros f; [reflexivity|].
  cbn [nsum]. change (S T * n)%nat with (n + T * n)%nat. rewrite li_nsum_split. f_equal.
  rewrite <- (IH (fun j => f (n + j)%nat)). apply nsum_ext. intros t _. apply nsum_ext. intros j _.
  f_equal. lia.
Qed.

Definition at_ (phi : N -> N) (es : list N) (j : nat) : N :=
  match nth_error es j with Some e => phi e | None => 0 end.

Lemma li_sum_nsum phi es : forall n r,
  fold_right (fun e a => phi e + a) 0 (firstn n (skipn r es)) = nsum n (fun j => at_ phi es (r + j)).
Proof. exact (fold_nsum phi es). Qed.

Lemma li_filter_count (p : N -> bool) l :
  N.of_nat (length (filter p l)) = fold_right (fun e a => (if p e then 1 else 0) + a) 0 l.
Proof.
  induction l as [|x l IH]; cbn [filter fold_right]; [reflexivity|].
  destruct (p x); cbn [length]; lia.
Qed.

Lemma li_chunks {A} n : (0 < n)%nat -> forall T (es : list A) fuel,
  length es = (T * n)%nat -> (T <= fuel)%nat ->
  chunks n es fuel = map (fun t => firstn n (skipn (t * n) es)) (seq 0 T).
Proof.
  intros Hn. induction T as [|T IH]; intros es fuel Hl Hf.
  - destruct es; [|discriminate]. destruct fuel; reflexivity.
  - destruct fuel as [|fuel]; [lia|]. destruct es as [|a es]; [cbn in Hl; lia|].
    cbn [chunks]. cbn [seq map]. f_equal.
    rewrite <- seq_shift, map_map. rewrite (IH (skipn n (a :: es)) fuel).
    + apply map_ext. intros t. rewrite li_skipn_skipn. do 2 f_equal; try lia.
    + rewrite skipn_length, Hl. lia.
    + lia.
Qed.

Section Stats.
  Variable g : geom.
  Hypothesis WF : wf_geom g.

  Definition hf_ind (e : N) : N := if e_free e =? HF g then 1 else 0.
  Definition tsum (es : list N) (t : nat) : N := nsum (thuge_nat g) (fun j => at_ e_free es (t * thuge_nat g + j)).
  Definition tcnt (es : list N) (t : nat) : N := nsum (thuge_nat g) (fun j => at_ hf_ind es (t * thuge_nat g + j)).

  Definition stats_step (s : stats) (tab : list N) : stats :=
    let free := fold_right (fun e a => e_free e + a) 0 tab in
    {| free_frames := free_frames s + free;
       free_huge := free_huge s + N.of_nat (length (filter (fun e => e_free e =? HF g) tab));
       free_trees := free_trees s + (if free =? TF g then 1 else 0) |}.

  Lemma li_fold_stats es : forall T a s,
    fold_left stats_step (map (fun t => firstn (thuge_nat g) (skipn (t * thuge_nat g) es)) (seq a T)) s =
    {| free_frames := free_frames s + nsum T (fun t => tsum es (a + t));
       free_huge := free_huge s + nsum T (fun t => tcnt es (a + t));
       free_trees := free_trees s + nsum T (fun t => if tsum es (a + t) =? TF g then 1 else 0) |}.
  Proof.
    induction T as [|T IH]; intros a s; cbn [seq map fold_left nsum].
    - destruct s; cbn. f_equal; lia.
    - rewrite IH. unfold stats_step. cbn [free_frames free_huge free_trees].
      rewrite li_filter_count.
      rewrite (li_sum_nsum e_free es), (li_sum_nsum hf_ind es).
      fold (tsum es a) (tcnt es a). rewrite !Nat.add_0_r.
      f_equal.
      + rewrite <- N.add_assoc. f_equal. f_equal. apply nsum_ext. intros t _. rewrite Nat.add_succ_r. reflexivity.
      + rewrite <- N.add_assoc. f_equal. f_equal. apply nsum_ext. intros t _. rewrite Nat.add_succ_r. reflexivity.
      + rewrite <- N.add_assoc. f_equal. f_equal. apply nsum_ext. intros t _. rewrite Nat.add_succ_r. reflexivity.
  Qed.

  Lemma li_thuge_pos : (0 < thuge_nat g)%nat.
  Proof. pose proof (THUGE_pos g). rewrite (THUGE_nat g) in H. lia. Qed.

  Lemma li_stats_sums l T : length (ents l) = (T * thuge_nat g)%nat ->
    lower_stats g l =
    {| free_frames := nsum (length (ents l)) (at_ e_free (ents l));
       free_huge := nsum (length (ents l)) (at_ hf_ind (ents l));
       free_trees := nsum T (fun t => if tsum (ents l) t =? TF g then 1 else 0) |}.
  Proof.
    intros Hl. unfold lower_stats, tree_tables.
    rewrite (li_chunks (thuge_nat g) li_thuge_pos T (ents l) (length (ents l)) Hl).
    2:{ rewrite Hl. pose proof li_thuge_pos. nia. }
    change (fun (s : stats) (tab : list N) => _) with stats_step.
    rewrite li_fold_stats. cbn [stats0 free_frames free_huge free_trees Nat.add]. rewrite !N.add_0_l.
    unfold tsum, tcnt. rewrite !li_nsum_flat, <- Hl. reflexivity.
  Qed.
End Stats.


(* free frames = zero bits *)
Section FreeFrames.
  Variable g : geom.
  Hypothesis WF : wf_geom g.

  (* C04 (lower part): the counters add up to the number of free frames; `span_count` over all entries *)
  Theorem stats_free_frames_exact l : LowerInv g l ->
    nsum (length (ents l)) (at_ e_free (ents l)) + popcount (o_alloc (abs g l)) = frames l.
  Proof.
    intros Inv. pose proof Inv as (_ & Hle & _).
    pose proof (span_count g WF l Inv (length (ents l)) 0) as S.
    assert (Hs : span_len g (frames l) 0 (length (ents l)) = frames l).
    { unfold span_len. rewrite Hle. unfold nn. rewrite N2Nat.id.
      pose proof (div_ceil_ge (frames l) (HF g) (HF_nz g)) as G. fold (nbf g (frames l)) in G.
      pose proof (nbf_le_ntab g (frames l)) as Hnt.
      assert (nbf g (frames l) * HF g <= ntab g (frames l) * THUGE g * HF g) by (apply N.mul_le_mono_r, Hnt).
      lia. }
    assert (Hlt : o_alloc (abs g l) < 2 ^ frames l).
    { unfold abs, ones; cbn [o_alloc]. rewrite N.land_ones. apply N.mod_lt, N.pow_nonzero. discriminate. }
    rewrite Hs, N.mul_0_l, (cnt_all _ _ Hlt) in S. apply S.
    intros h Hh. apply nth_error_Some. unfold nn. lia.
  Qed.
End FreeFrames.


(* free huge frames / free trees *)
(* a sum of n terms, each at most b, that reaches n * b has all its terms equal to b *)
Lemma li_nsum_eq_max : forall n f b, (forall j, (j < n)%nat -> f j <= b) -> nsum n f = N.of_nat n * b ->
  forall j, (j < n)%nat -> f j = b.
Proof.
  induction n as [|n IH]; intros f b Hle Hs j Hj; [lia|]. cbn [nsum] in Hs.
  assert (H0 : f 0%nat <= b) by (apply Hle; lia).
  assert (H1 : nsum n (fun j => f (S j)) <= N.of_nat n * b) by (apply nsum_le; intros; apply Hle; lia).
  destruct j as [|j]; [nia|].
  apply (IH (fun j => f (S j)) b); [intros; apply Hle; lia | nia | lia].
Qed.

Lemma li_nsum_const n b : nsum n (fun _ => b) = N.of_nat n * b.
Proof. induction n as [|n IH]; cbn [nsum]; [reflexivity|]. rewrite IH. lia. Qed.

Lemma li_cfb_nsum s k : forall n i,
  count_free_blocks s k i n =
  nsum n (fun j => if in_range s ((i + N.of_nat j) * pow2 k) k && all_free s ((i + N.of_nat j) * pow2 k) k then 1 else 0).
Proof.
  induction n as [|n IH]; intros i; cbn [count_free_blocks nsum]; [reflexivity|].
  rewrite IH, N.add_0_r. f_equal. apply nsum_ext. intros j _.
  replace (i + 1 + N.of_nat j) with (i + N.of_nat (S j)) by lia. reflexivity.
Qed.

(* counting the free aligned blocks of order k from per-index values F: inside the range "block j is
   free" is read as F j = X, beyond it F never takes the value X *)
Lemma li_count_free s k n (F : nat -> N) X : (nn (o_frames s / pow2 k) <= n)%nat ->
  (forall j, (N.of_nat j + 1) * pow2 k <= o_frames s -> (all_free s (N.of_nat j * pow2 k) k = true <-> F j = X)) ->
  (forall j, (nn (o_frames s / pow2 k) <= j)%nat -> F j <> X) ->
  nsum n (fun j => if F j =? X then 1 else 0) = count_free_blocks s k 0 (nn (o_frames s / pow2 k)).
Proof.
  intros Hn Hin Hout. rewrite li_cfb_nsum. pose proof (pow2_pos k) as WP.
  replace n with (nn (o_frames s / pow2 k) + (n - nn (o_frames s / pow2 k)))%nat by lia.
  rewrite li_nsum_split, (nsum_zero (n - _)).
  - rewrite N.add_0_r. apply nsum_ext. intros j Hj. rewrite N.add_0_l.
    assert (Hfull : (N.of_nat j + 1) * pow2 k <= o_frames s).
    { pose proof (N.mul_div_le (o_frames s) (pow2 k) ltac:(lia)) as M.
      assert (N.of_nat j + 1 <= o_frames s / pow2 k) by (unfold nn in Hj; lia).
      apply N.le_trans with (o_frames s / pow2 k * pow2 k); [apply N.mul_le_mono_r; assumption | lia]. }
    unfold in_range. destruct (N.leb_spec (N.of_nat j * pow2 k + pow2 k) (o_frames s)); [|lia]. cbn [andb].
    specialize (Hin j Hfull).
    destruct (all_free s (N.of_nat j * pow2 k) k), (N.eqb_spec (F j) X); try reflexivity; exfalso; intuition congruence.
  - intros j _. specialize (Hout (nn (o_frames s / pow2 k) + j)%nat ltac:(lia)).
    destruct (N.eqb_spec (F (nn (o_frames s / pow2 k) + j)%nat) X); [contradiction | reflexivity].
Qed.

Section FreeHuge.
  Variable g : geom.
  Hypothesis WF : wf_geom g.

  Lemma li_at_hf es j : at_ (hf_ind g) es j = if at_ e_free es j =? HF g then 1 else 0.
  Proof.
    unfold at_, hf_ind. destruct (nth_error es j); [reflexivity|].
    pose proof (HF_pos g). destruct (N.eqb_spec 0 (HF g)); [lia | reflexivity].
  Qed.

  Lemma li_at_ent l h : at_ e_free (ents l) (nn h) = match ent l h with Some e => e_free e | None => 0 end.
  Proof. reflexivity. Qed.

  Lemma li_efree_le l j : LowerInv g l -> at_ e_free (ents l) j <= HF g.
  Proof. intros Inv. rewrite <- (Nat2N.id j). apply (efree_le g l (N.of_nat j) Inv). Qed.

  (* a huge frame entirely inside the range is free (all its frames) iff its counter is HF *)
  Lemma li_huge_free_iff l h : LowerInv g l -> (h + 1) * HF g <= frames l ->
    ((forall t, t < HF g -> alloc_at g l (h * HF g + t) = false) <-> at_ e_free (ents l) (nn h) = HF g).
  Proof.
    intros Inv Hr. pose proof (HF_pos g) as HP. rewrite li_at_ent. split.
    - intros H. rewrite (free_huge_entry g WF l h Inv Hr).
      + unfold e_free. rewrite (e_huge_le g WF (HF g) (N.le_refl _)). reflexivity.
      + intros i Hi. replace i with (h * HF g + (i - h * HF g)) by lia. apply H. lia.
    - intros H t Ht. destruct (ent l h) as [e|] eqn:He; [|lia].
      assert (Ee : e = HF g) by (unfold e_free in H; destruct (e_huge e); [lia | exact H]). subst e.
      destruct (whole_cell g WF l h _ Inv He (or_intror eq_refl)) as (rows & Hb & _ & Z & _).
      unfold alloc_at. rewrite (N.mul_comm h), (div_mul_add _ _ _ Ht), (mod_mul_add _ _ _ Ht).
      rewrite He, Hb, (rows_zero_bits rows Z), N.bits_0, (e_huge_le g WF (HF g) (N.le_refl _)). apply andb_false_r.
  Qed.

  Lemma li_huge_all_free l h : LowerInv g l -> (h + 1) * HF g <= frames l ->
    (all_free (abs g l) (h * HF g) (hord g) = true <-> at_ e_free (ents l) (nn h) = HF g).
  Proof.
    intros Inv Hr. rewrite <- (li_huge_free_iff l h Inv Hr), all_free_spec. rewrite <- (HF_pow2 g). split.
    - intros H t Ht. rewrite <- (abs_alloc_testbit g WF l Inv). apply H. lia.
    - intros H i Hi. rewrite (abs_alloc_testbit g WF l Inv).
      replace i with (h * HF g + (i - h * HF g)) by lia. apply H. lia.
  Qed.

  (* an entry at or beyond the last fully managed huge frame never reads "entirely free" *)
  Lemma li_not_free_beyond l h : LowerInv g l -> frames l / HF g <= h -> at_ e_free (ents l) (nn h) <> HF g.
  Proof.
    intros Inv Hh. pose proof (HF_pos g) as HP. rewrite li_at_ent.
    destruct (ent l h) as [e|] eqn:He; [|lia].
    destruct (bf l h) as [rows|] eqn:Hb.
    - pose proof (LowerInv_huge_ok g l _ _ _ Inv He Hb) as (Hok & Hmark & Hcnt & Htail).
      pose proof (nbf_lt_inv g _ _ (LowerInv_bf_lt g l _ _ Inv Hb)) as Hlt.
      unfold e_free. destruct (e_huge e) eqn:Hg; [lia|].
      assert (En : e <> MARK) by (apply N.eqb_neq; exact Hg).
      destruct (Hcnt En) as (Ec & _). intros E. rewrite Ec in E.
      pose proof (count_zeros_full_zero g WF rows Hok E) as Hz.
      pose proof (N.div_mod (frames l) (HF g) ltac:(lia)) as D. pose proof (N.mod_lt (frames l) (HF g) ltac:(lia)) as M.
      assert (Hb1 : frames l - h * HF g < HF g).
      { revert Hh D M Hlt. generalize (frames l / HF g) (frames l mod HF g) (HF g) (frames l). intros; nia. }
      specialize (Htail (frames l - h * HF g) Hb1 ltac:(lia)).
      rewrite (rows_zero_bits rows Hz), N.bits_0 in Htail. discriminate.
    - rewrite (LowerInv_no_bf g l _ _ Inv He Hb). change (e_free 0) with 0. lia.
  Qed.

  Theorem stats_free_huge_count l : LowerInv g l ->
    nsum (length (ents l)) (at_ (hf_ind g) (ents l)) = free_huge_count g (abs g l).
  Proof.
    intros Inv. pose proof Inv as (_ & Hle & _). pose proof (HF_pos g) as HP.
    unfold free_huge_count. rewrite (nsum_ext _ _ _ (fun j _ => li_at_hf (ents l) j)).
    apply li_count_free; change (o_frames (abs g l)) with (frames l); rewrite <- (HF_pow2 g).
    - pose proof (nbf_le_ntab g (frames l)) as B1. pose proof (li_nbf_ge g (frames l)) as B2.
      pose proof (N.mul_div_le (frames l) (HF g) ltac:(lia)) as B3.
      assert (frames l / HF g <= ntab g (frames l) * THUGE g).
      { revert B1 B2 B3. generalize (frames l / HF g) (nbf g (frames l)) (ntab g (frames l) * THUGE g) (HF g) HP.
        intros; nia. }
      rewrite Hle. unfold nn. lia.
    - intros j Hfull. pose proof (li_huge_all_free l (N.of_nat j) Inv Hfull) as Hiff.
      unfold nn in Hiff. rewrite Nat2N.id in Hiff. exact Hiff.
    - intros j Hj. pose proof (li_not_free_beyond l (N.of_nat j) Inv ltac:(unfold nn in Hj; lia)) as Hn.
      unfold nn in Hn. rewrite Nat2N.id in Hn. exact Hn.
  Qed.
End FreeHuge.


Section FreeTrees.
  Variable g : geom.
  Hypothesis WF : wf_geom g.

  (* frames of tree t <-> (huge frame j of the tree, offset u) *)
  Lemma li_tree_decomp t i : t * TF g <= i < t * TF g + TF g ->
    exists j u, j < THUGE g /\ u < HF g /\ i = (t * THUGE g + j) * HF g + u.
  Proof.
    intros Hi. pose proof (HF_pos g) as HP. rewrite TF_eq in Hi.
    exists ((i - t * (THUGE g * HF g)) / HF g), ((i - t * (THUGE g * HF g)) mod HF g).
    pose proof (N.div_mod (i - t * (THUGE g * HF g)) (HF g) ltac:(lia)) as D.
    pose proof (N.mod_lt (i - t * (THUGE g * HF g)) (HF g) ltac:(lia)) as M.
    split; [|split; [assumption|]].
    - apply N.div_lt_upper_bound; lia.
    - revert D M. generalize ((i - t * (THUGE g * HF g)) / HF g) ((i - t * (THUGE g * HF g)) mod HF g).
      intros q r D M. nia.
  Qed.

  Lemma li_tree_all_free l t : LowerInv g l -> (t + 1) * TF g <= frames l ->
    (all_free (abs g l) (t * TF g) (tord g) = true <-> tsum g (ents l) (nn t) = TF g).
  Proof.
    intros Inv Hr. pose proof (HF_pos g) as HP. pose proof (THUGE_pos g) as TP.
    assert (Hhuge : forall j, j < THUGE g -> (t * THUGE g + j + 1) * HF g <= frames l).
    { intros j Hj. rewrite TF_eq in Hr. nia. }
    assert (Hidx : forall j, (nn t * thuge_nat g + j)%nat = nn (t * THUGE g + N.of_nat j)).
    { intros j. rewrite <- nn_tree_base. unfold nn. lia. }
    rewrite all_free_spec, <- (TF_pow2 g). unfold tsum. split.
    - intros H. rewrite TF_eq, (THUGE_nat g), <- li_nsum_const. apply nsum_ext. intros j Hj.
      rewrite Hidx. assert (Hj' : N.of_nat j < THUGE g) by (rewrite (THUGE_nat g); lia).
      apply (li_huge_free_iff g WF l _ Inv (Hhuge _ Hj')). intros u Hu.
      rewrite <- (abs_alloc_testbit g WF l Inv). apply H. rewrite TF_eq. nia.
    - intros H i Hi. destruct (li_tree_decomp t i Hi) as (j & u & Hj & Hu & ->).
      rewrite (abs_alloc_testbit g WF l Inv).
      apply (proj2 (li_huge_free_iff g WF l _ Inv (Hhuge _ Hj))); [|assumption].
      rewrite TF_eq, (THUGE_nat g) in H.
      pose proof (li_nsum_eq_max _ _ _ (fun j _ => li_efree_le g l _ Inv) H (nn j)) as E.
      cbv beta in E. rewrite Hidx in E. unfold nn in E at 2. rewrite N2Nat.id in E. apply E.
      rewrite (THUGE_nat g) in Hj. unfold nn. lia.
  Qed.

  Lemma li_tree_not_free_beyond l t : LowerInv g l -> frames l / TF g <= t -> tsum g (ents l) (nn t) <> TF g.
  Proof.
    intros Inv Ht H. pose proof (HF_pos g) as HP. pose proof (THUGE_pos g) as TP.
    unfold tsum in H. rewrite TF_eq, (THUGE_nat g) in H.
    assert (Hlast : (thuge_nat g - 1 < thuge_nat g)%nat) by (pose proof (li_thuge_pos g); lia).
    pose proof (li_nsum_eq_max _ _ _ (fun j _ => li_efree_le g l _ Inv) H _ Hlast) as E.
    cbv beta in E. replace (nn t * thuge_nat g + (thuge_nat g - 1))%nat with (nn (t * THUGE g + (THUGE g - 1))) in E.
    2:{ rewrite <- nn_tree_base. rewrite (THUGE_nat g) at 2. unfold nn. lia. }
    revert E. apply (li_not_free_beyond g WF l _ Inv).
    (* frames / HF <= (t+1) * THUGE - 1 *)
    pose proof (N.div_mod (frames l) (TF g) ltac:(pose proof (TF_pos g); lia)) as D.
    pose proof (N.mod_lt (frames l) (TF g) ltac:(pose proof (TF_pos g); lia)) as M.
    assert (frames l < (t + 1) * THUGE g * HF g).
    { rewrite TF_eq in *. revert Ht D M. generalize (frames l / (THUGE g * HF g)) (frames l mod (THUGE g * HF g)).
      intros q r Ht D M. nia. }
    assert (frames l / HF g < (t + 1) * THUGE g) by (apply N.div_lt_upper_bound; lia).
    nia.
  Qed.

  Theorem stats_free_tree_count l : LowerInv g l ->
    nsum (nn (ntab g (frames l))) (fun t => if tsum g (ents l) t =? TF g then 1 else 0) = free_tree_count g (abs g l).
  Proof.
    intros Inv. pose proof (TF_pos g) as TP.
    unfold free_tree_count. rewrite (TF_pow2 g).
    apply li_count_free; change (o_frames (abs g l)) with (frames l); rewrite <- (TF_pow2 g).
    - pose proof (div_ceil_ge (frames l) (TF g) ltac:(lia)) as G. fold (ntab g (frames l)) in G.
      pose proof (N.mul_div_le (frames l) (TF g) ltac:(lia)) as M.
      assert (frames l / TF g <= ntab g (frames l)).
      { revert G M. generalize (frames l / TF g) (ntab g (frames l)) (TF g) TP. intros; nia. }
      unfold nn. lia.
    - intros j Hfull. pose proof (li_tree_all_free l (N.of_nat j) Inv Hfull) as Hiff.
      unfold nn in Hiff. rewrite Nat2N.id in Hiff. exact Hiff.
    - intros j Hj. pose proof (li_tree_not_free_beyond l (N.of_nat j) Inv ltac:(unfold nn in Hj; lia)) as Hn.
      unfold nn in Hn. rewrite Nat2N.id in Hn. exact Hn.
  Qed.

  (* C04 (lower part): the statistics of the lower allocator are the accounting of its ownership state *)
  Theorem lower_stats_abs l : LowerInv g l ->
    free_frames (lower_stats g l) = exact_free (abs g l) /\
    free_huge (lower_stats g l) = free_huge_count g (abs g l) /\
    free_trees (lower_stats g l) = free_tree_count g (abs g l).
  Proof.
    intros Inv. pose proof Inv as (_ & Hle & _).
    assert (Hl : length (ents l) = (nn (ntab g (frames l)) * thuge_nat g)%nat) by (rewrite Hle; apply nn_tree_base).
    rewrite (li_stats_sums g l _ Hl). cbn [free_frames free_huge free_trees].
    split; [|split].
    - pose proof (stats_free_frames_exact g WF l Inv) as E. unfold exact_free.
      change (o_frames (abs g l)) with (frames l). lia.
    - apply stats_free_huge_count; assumption.
    - apply stats_free_tree_count; assumption.
  Qed.
End FreeTrees.

(* statistics of the two initial states; pointwise "nothing beyond the range is free" *)
Lemma li_cfb_all_free s k : o_alloc s = 0 ->
  count_free_blocks s k 0 (nn (o_frames s / pow2 k)) = o_frames s / pow2 k.
Proof.
  intros Hz. rewrite li_cfb_nsum. pose proof (pow2_pos k) as WP.
  rewrite (nsum_ext _ _ (fun _ => 1)).
  - rewrite li_nsum_const. unfold nn. lia.
  - intros j Hj. rewrite N.add_0_l. unfold in_range, all_free. rewrite Hz, N.land_0_l. cbn [N.eqb].
    pose proof (N.mul_div_le (o_frames s) (pow2 k) ltac:(lia)) as M.
    assert (N.of_nat j + 1 <= o_frames s / pow2 k) by (unfold nn in Hj; lia).
    destruct (N.leb_spec (N.of_nat j * pow2 k + pow2 k) (o_frames s)); [reflexivity | nia].
Qed.

Lemma li_cfb_none_free s k n : o_alloc s = ones (o_frames s) -> count_free_blocks s k 0 n = 0.
Proof.
  intros Ho. rewrite li_cfb_nsum. apply nsum_zero. intros j _. pose proof (pow2_pos k) as WP.
  unfold in_range. destruct (N.leb_spec ((0 + N.of_nat j) * pow2 k + pow2 k) (o_frames s)) as [Hin|]; [|reflexivity].
  cbn [andb]. destruct (all_free s ((0 + N.of_nat j) * pow2 k) k) eqn:A; [|reflexivity].
  exfalso. rewrite all_free_spec in A. specialize (A ((0 + N.of_nat j) * pow2 k) ltac:(lia)).
  rewrite Ho in A. unfold ones in A. rewrite N.ones_spec_low in A by lia. discriminate.
Qed.

Section InitStats.
  Variable g : geom.
  Hypothesis WF : wf_geom g.

  Theorem free_all_stats fr :
    lower_stats g (free_all g fr) = {| free_frames := fr; free_huge := fr / HF g; free_trees := fr / TF g |}.
  Proof.
    destruct (lower_stats_abs g WF _ (free_all_inv g WF fr)) as (E1 & E2 & E3).
    rewrite (free_all_exact_free g WF) in E1.
    unfold free_huge_count in E2. rewrite (HF_pow2 g), li_cfb_all_free in E2 by apply (free_all_alloc g WF).
    unfold free_tree_count in E3. rewrite (TF_pow2 g), li_cfb_all_free in E3 by apply (free_all_alloc g WF).
    change (o_frames (abs g (free_all g fr))) with fr in E2, E3.
    rewrite <- (HF_pow2 g) in E2. rewrite <- (TF_pow2 g) in E3.
    destruct (lower_stats g (free_all g fr)); cbn in *. congruence.
  Qed.

  Theorem reserve_all_stats fr : lower_stats g (reserve_all g fr) = stats0.
  Proof.
    destruct (lower_stats_abs g WF _ (reserve_all_inv g WF fr)) as (E1 & E2 & E3).
    rewrite (reserve_all_exact_free g WF) in E1.
    unfold free_huge_count in E2. rewrite li_cfb_none_free in E2 by apply (reserve_all_alloc g WF).
    unfold free_tree_count in E3. rewrite li_cfb_none_free in E3 by apply (reserve_all_alloc g WF).
    unfold stats0. destruct (lower_stats g (reserve_all g fr)); cbn in *. congruence.
  Qed.

  (* nothing at or beyond `frames` is ever reported free *)
  Theorem beyond_bit_set l f e rows : LowerInv g l -> frames l <= f ->
    ent l (f / HF g) = Some e -> bf l (f / HF g) = Some rows -> N.testbit (rows_bits rows) (f mod HF g) = true.
  Proof.
    intros Inv Hf He Hb. pose proof (HF_pos g) as HP.
    pose proof (LowerInv_huge_ok g l _ _ _ Inv He Hb) as (_ & _ & _ & Htail).
    apply Htail; [apply N.mod_lt; lia|]. pose proof (N.div_mod f (HF g) ltac:(lia)). lia.
  Qed.

  Theorem beyond_not_alloc_not_free l f : LowerInv g l -> frames l <= f ->
    alloc_at g l f = false /\ N.testbit (o_alloc (abs g l)) f = false /\
    (forall k, lower_is_free g l f k = Panic SIsFreeAssert) /\
    (forall s, lower_stats_at g l f 0 = Ok s -> s = stats0).
  Proof.
    intros Inv Hf. pose proof (HF_pos g) as HP.
    assert (A : alloc_at g l f = false).
    { unfold alloc_at. destruct (N.ltb_spec f (frames l)); [lia | reflexivity]. }
    split; [exact A|]. split; [rewrite (abs_alloc_testbit g WF l Inv); exact A|]. split.
    - intros k. unfold lower_is_free. pose proof (pow2_pos k).
      destruct (N.leb_spec (f + pow2 k) (frames l)); [lia|]. rewrite andb_false_r. reflexivity.
    - intros s. unfold lower_stats_at. destruct (has_tree g l (f / TF g)); cbn [negb]; [|discriminate].
      cbn [Nat.eqb]. destruct (ent l (f / HF g)) as [e|] eqn:He; [|discriminate].
      destruct (0 <? e_free e); [|intros [= <-]; reflexivity].
      destruct (bf l (f / HF g)) as [rows|] eqn:Hb; [|discriminate].
      pose proof (LowerInv_huge_ok g l _ _ _ Inv He Hb) as (Hok & _).
      destruct (bf_is_zero g rows f 0) eqn:Z; [|intros [= <-]; reflexivity].
      exfalso. apply (bf_is_zero_spec g WF rows f 0 Hok ltac:(lia) (N.mod_1_r f)) in Z.
      rewrite land_blk_zero in Z. specialize (Z (f mod HF g) ltac:(change (pow2 0) with 1; lia)).
      rewrite (beyond_bit_set l f e rows Inv Hf He Hb) in Z. discriminate.
  Qed.
End InitStats.

(* non-vacuity *)
Example init_ex_5000 :
  lower_invb g9 (free_all g9 5000) = true /\ lower_invb g9 (reserve_all g9 5000) = true /\
  lower_stats g9 (free_all g9 5000) = {| free_frames := 5000; free_huge := 9; free_trees := 2 |} /\
  o_alloc (abs g9 (reserve_all g9 5000)) = ones 5000 /\ o_whole (abs g9 (reserve_all g9 5000)) = ones 9 /\
  ent (free_all g9 5000) 9 = Some 392 /\ ent (free_all g9 5000) 10 = Some 0 /\ bf (free_all g9 5000) 10 = None.
Proof. vm_compute. repeat split. Qed.

Example init_ex_edge :
  lower_stats g9 (free_all g9 0) = stats0 /\ ents (free_all g9 0) = [] /\ bfs (reserve_all g9 0) = [] /\
  lower_stats g9 (free_all g9 2048) = {| free_frames := 2048; free_huge := 4; free_trees := 1 |} /\
  lower_stats g9 (free_all g9 2049) = {| free_frames := 2049; free_huge := 4; free_trees := 1 |} /\
  length (ents (free_all g9 2049)) = 8%nat /\ length (bfs (free_all g9 2049)) = 5%nat /\
  lower_stats g9 (free_all g9 511) = {| free_frames := 511; free_huge := 0; free_trees := 0 |} /\
  lower_invb g9 (free_all g9 511) = true /\ lower_invb g9 (reserve_all g9 511) = true /\
  lower_stats g9 (reserve_all g9 2049) = stats0.
Proof. vm_compute. repeat split. Qed.

Print Assumptions free_all_inv.
Print Assumptions free_all_alloc.
Print Assumptions free_all_stats.
Print Assumptions reserve_all_inv.
Print Assumptions reserve_all_alloc.
Print Assumptions reserve_all_whole.
Print Assumptions reserve_all_stats.
Print Assumptions lower_stats_abs.
Print Assumptions beyond_not_alloc_not_free.

(* freeing everything after reserve_all yields exactly free_all *)
Lemma li_upd_id {A} (l : list A) i x : nth_error l i = Some x \/ nth_error l i = None -> upd l i x = l.
Proof.
  intros H. apply bp_nth_error_ext. intros j. rewrite bp_nth_error_upd.
  destruct (Nat.eqb_spec i j) as [<-|]; [|reflexivity].
  destruct (Nat.ltb_spec i (length l)) as [Hl|Hl].
  - destruct H as [H|H]; [congruence|]. apply nth_error_None in H. lia.
  - symmetry. apply nth_error_None. assumption.
Qed.

Section FreeSeq.
  Variable g : geom.
  Hypothesis WF : wf_geom g.

  Lemma li_rows_bits_inj a b : rows_ok g a -> rows_ok g b ->
    (forall t, N.testbit (rows_bits a) t = N.testbit (rows_bits b) t) -> a = b.
  Proof.
    intros (La & Fa) (Lb & Fb) H. apply bp_nth_error_ext. intros j.
    destruct (nth_error a j) as [x|] eqn:Ex; destruct (nth_error b j) as [y|] eqn:Ey.
    - f_equal. apply N.bits_inj. intros t. destruct (N.lt_ge_cases t 64) as [Ht|Ht].
      + specialize (H (64 * N.of_nat j + t)). rewrite !rows_bits_testbit_gen in H by assumption.
        rewrite (div_mul_add 64 _ t Ht), (mod_mul_add 64 _ t Ht) in H.
        unfold nn in H. rewrite Nat2N.id, Ex, Ey in H. exact H.
      + rewrite !(testbit_high _ 64 t); try assumption; try reflexivity.
        * exact (bp_Forall_nth_inv _ _ _ _ Fb Ey).
        * exact (bp_Forall_nth_inv _ _ _ _ Fa Ex).
    - exfalso. apply nth_error_None in Ey. assert (j < length a)%nat by (apply nth_error_Some; congruence). lia.
    - exfalso. apply nth_error_None in Ex. assert (j < length b)%nat by (apply nth_error_Some; congruence). lia.
    - reflexivity.
  Qed.

  Definition put_step (acc : res unit * lower) (p : N * nat) : res unit * lower :=
    match acc with (Ok _, l) => lower_put g l (fst p) (snd p) | other => other end.
  Definition put_all (l : lower) (ps : list (N * nat)) : res unit * lower := fold_left put_step ps (Ok tt, l).

  (* the canonical free sequence: every whole huge frame at HUGE_ORDER, then every remaining managed frame
     (those of the partial last huge frame) at order 0 *)
  Definition free_seq_huge (fr : N) : list (N * nat) :=
    map (fun h => (N.of_nat h * HF g, hord g)) (seq 0 (nn (fr / HF g))).
  Definition free_seq_small (fr : N) : list (N * nat) :=
    map (fun i => (fr / HF g * HF g + N.of_nat i, 0%nat)) (seq 0 (nn (fr mod HF g))).
  Definition free_seq (fr : N) : list (N * nat) := free_seq_huge fr ++ free_seq_small fr.

  (* stage 1: the first m huge frames have been freed *)
  Definition st1_ent (fr m : N) (h : nat) : N :=
    if N.of_nat h <? m then HF g else if N.of_nat h <? fr / HF g then MARK else 0.
  Definition st1 (fr m : N) : lower :=
    {| frames := fr; bfs := reserve_all_bfs g fr;
       ents := map (st1_ent fr m) (seq 0 (nn (ntab g fr * THUGE g))) |}.

  Lemma li_st1_0 fr : st1 fr 0 = reserve_all g fr.
  Proof.
    unfold st1, reserve_all, reserve_all_ents. f_equal. apply map_ext. intros h. unfold st1_ent.
    destruct (N.ltb_spec (N.of_nat h) 0); [lia | reflexivity].
  Qed.

  Lemma li_has_tree l fr f : length (ents l) = nn (ntab g fr * THUGE g) -> f < fr ->
    has_tree g l (f / TF g) = true.
  Proof.
    intros Hl Hf. unfold has_tree. rewrite Hl. unfold nn. rewrite N2Nat.id.
    pose proof (frame_lt_ntab g fr f Hf). apply N.leb_le. pose proof (THUGE_pos g). nia.
  Qed.

  Lemma li_st1_step fr m : m < fr / HF g ->
    lower_put g (st1 fr m) (m * HF g) (hord g) = (Ok tt, st1 fr (m + 1)).
  Proof.
    intros Hm. pose proof (HF_pos g) as HP. pose proof (THUGE_pos g) as TP.
    pose proof (li_full_le g fr m Hm) as Hfull.
    assert (Hlen : length (ents (st1 fr m)) = nn (ntab g fr * THUGE g)).
    { unfold st1; cbn [ents]. rewrite map_length, seq_length. reflexivity. }
    unfold lower_put. rewrite (li_has_tree (st1 fr m) fr (m * HF g) Hlen ltac:(lia)). cbn [negb].
    rewrite Nat.leb_refl, Nat.sub_diag. change (pow2 0) with 1.
    rewrite N.div_mul by lia.
    pose proof (N.mod_lt m (THUGE g) ltac:(lia)) as Hmod.
    destruct (N.ltb_spec (THUGE g) (m mod THUGE g + 1)); [lia|].
    change (nn 1) with 1%nat. cbn [cas_all].
    assert (Hidx : (nn m < nn (ntab g fr * THUGE g))%nat).
    { pose proof (li_full_lt_nbf g fr m Hm). pose proof (nbf_le_ntab g fr). unfold nn. lia. }
    assert (Hnth : nth_error (ents (st1 fr m)) (nn m) = Some MARK).
    { unfold st1; cbn [ents]. rewrite li_nth_map_seq. destruct (Nat.ltb_spec (nn m) (nn (ntab g fr * THUGE g))); [|lia].
      cbn [Nat.add]. unfold st1_ent, nn. rewrite N2Nat.id.
      destruct (N.ltb_spec m m); [lia|]. destruct (N.ltb_spec m (fr / HF g)); [reflexivity | lia]. }
    rewrite Hnth, N.eqb_refl. f_equal. unfold st1. cbn [frames bfs ents]. f_equal.
    apply bp_nth_error_ext. intros j. rewrite bp_nth_error_upd, map_length, seq_length, !li_nth_map_seq. cbn [Nat.add].
    unfold st1_ent.
    destruct (Nat.eqb_spec (nn m) j) as [<-|Hne].
    - destruct (Nat.ltb_spec (nn m) (nn (ntab g fr * THUGE g))); [|lia]. unfold nn. rewrite N2Nat.id.
      destruct (N.ltb_spec m (m + 1)); [reflexivity | lia].
    - destruct (Nat.ltb_spec j (nn (ntab g fr * THUGE g))); [|reflexivity]. f_equal.
      destruct (N.ltb_spec (N.of_nat j) m), (N.ltb_spec (N.of_nat j) (m + 1)); try reflexivity; unfold nn in Hne; lia.
  Qed.

  Lemma li_stage1 fr : forall n a, (a + n <= nn (fr / HF g))%nat ->
    fold_left put_step (map (fun h => (N.of_nat h * HF g, hord g)) (seq a n)) (Ok tt, st1 fr (N.of_nat a)) =
    (Ok tt, st1 fr (N.of_nat (a + n))).
  Proof.
    induction n as [|n IH]; intros a Ha; cbn [seq map fold_left].
    - rewrite Nat.add_0_r. reflexivity.
    - unfold put_step at 2. cbn [fst snd]. rewrite li_st1_step by (unfold nn in Ha; lia).
      replace (N.of_nat a + 1) with (N.of_nat (S a)) by lia. rewrite IH by lia.
      replace (S a + n)%nat with (a + S n)%nat by lia. reflexivity.
  Qed.

  (* stage 2: the first i frames of the partial huge frame hp = fr / HF have been freed *)
  Definition st2 (fr i : N) (rows : list N) : lower :=
    {| frames := fr; bfs := upd (reserve_all_bfs g fr) (nn (fr / HF g)) rows;
       ents := upd (ents (st1 fr (fr / HF g))) (nn (fr / HF g)) i |}.
  Definition st2_rows (i : N) (rows : list N) : Prop :=
    rows_ok g rows /\ forall t, N.testbit (rows_bits rows) t = (i <=? t) && (t <? HF g).

  Lemma li_st1_ents_nth fr m j : nth_error (ents (st1 fr m)) j =
    if (j <? nn (ntab g fr * THUGE g))%nat then Some (st1_ent fr m j) else None.
  Proof. unfold st1; cbn [ents]. rewrite li_nth_map_seq. reflexivity. Qed.

  Lemma li_rbfs_nth fr j : nth_error (reserve_all_bfs g fr) j =
    if (j <? nn (nbf g fr))%nat then Some (if N.of_nat j <? fr / HF g then zeros_bf g else ones_bf g) else None.
  Proof. unfold reserve_all_bfs. rewrite li_nth_map_seq. reflexivity. Qed.

  Lemma li_st2_0 fr : st2 fr 0 (ones_bf g) = st1 fr (fr / HF g).
  Proof.
    unfold st2, st1. cbn [ents]. f_equal.
    - apply li_upd_id. rewrite li_rbfs_nth. destruct (Nat.ltb_spec (nn (fr / HF g)) (nn (nbf g fr))); [|right; reflexivity].
      left. unfold nn. rewrite N2Nat.id. destruct (N.ltb_spec (fr / HF g) (fr / HF g)); [lia | reflexivity].
    - apply li_upd_id. rewrite li_nth_map_seq.
      destruct (Nat.ltb_spec (nn (fr / HF g)) (nn (ntab g fr * THUGE g))); [|right; reflexivity].
      left. cbn [Nat.add]. unfold st1_ent, nn. rewrite N2Nat.id.
      destruct (N.ltb_spec (fr / HF g) (fr / HF g)); [lia | reflexivity].
  Qed.

  Lemma li_ones_rows : st2_rows 0 (ones_bf g).
  Proof. split; [apply li_ones_ok; exact WF|]. intros t. rewrite (li_ones_bits g WF). destruct (N.leb_spec 0 t); [reflexivity | lia]. Qed.

  Lemma li_st2_step fr i rows : i < fr mod HF g -> st2_rows i rows ->
    exists rows', st2_rows (i + 1) rows' /\
      lower_put g (st2 fr i rows) (fr / HF g * HF g + i) 0 = (Ok tt, st2 fr (i + 1) rows').
  Proof.
    intros Hi (Hok & Hbits). pose proof (HF_pos g) as HP. pose proof (HF_lt_MARK g WF) as HM.
    pose proof (N.div_mod fr (HF g) ltac:(lia)) as D. pose proof (N.mod_lt fr (HF g) ltac:(lia)) as Mr.
    set (hp := fr / HF g) in *.
    assert (Hhp : hp < nbf g fr).
    { replace hp with ((hp * HF g) / HF g) by (apply N.div_mul; lia). apply frame_lt_nbf. clear - D Hi. nia. }
    pose proof (nbf_le_ntab g fr) as Hnt.
    assert (Hlen : length (ents (st2 fr i rows)) = nn (ntab g fr * THUGE g)).
    { unfold st2, st1; cbn [ents]. rewrite upd_length, map_length, seq_length. reflexivity. }
    assert (Hi' : i < HF g) by lia.
    assert (Ediv : (hp * HF g + i) / HF g = hp) by (rewrite (N.mul_comm hp); apply div_mul_add, Hi').
    assert (Emod : (hp * HF g + i) mod HF g = i) by (rewrite (N.mul_comm hp); apply mod_mul_add, Hi').
    unfold lower_put. assert (Hlt : hp * HF g + i < fr) by (clear - D Hi; nia).
    rewrite (li_has_tree (st2 fr i rows) fr (hp * HF g + i) Hlen Hlt). cbn [negb].
    destruct WF as (H6 & _). destruct (Nat.leb_spec (hord g) 0); [lia|].
    rewrite Ediv.
    assert (He : ent (st2 fr i rows) hp = Some i).
    { unfold ent, st2; cbn [ents]. apply nth_error_upd_same. unfold st1; cbn [ents].
      rewrite map_length, seq_length. unfold nn. lia. }
    assert (Hb : bf (st2 fr i rows) hp = Some rows).
    { unfold bf, st2; cbn [bfs]. apply nth_error_upd_same. unfold reserve_all_bfs.
      rewrite map_length, seq_length. unfold nn. lia. }
    rewrite He. rewrite (e_huge_le g WF i) by lia.
    assert (Ef : e_free i = i) by (unfold e_free; rewrite (e_huge_le g WF i) by lia; reflexivity).
    rewrite Ef. change (pow2 0) with 1. destruct (N.leb_spec (i + 1) (HF g)); [|lia].
    unfold put_small. rewrite Ediv, Hb.
    pose proof (bf_toggle_spec g WF rows (hp * HF g + i) 0 true Hok ltac:(lia) (N.mod_1_r _)) as P.
    rewrite Emod in P. change (pow2 0) with 1 in P.
    destruct (bf_toggle g rows (hp * HF g + i) 0 true) as [rows'|]; cbn [toggle_post negb] in P.
    2:{ exfalso. apply P. intros t Ht. rewrite Hbits. clear - Ht Hi Mr.
        destruct (N.leb_spec i t), (N.ltb_spec t (HF g)); try reflexivity; lia. }
    destruct P as (Hok' & _ & Pnew).
    exists rows'. split.
    - split; [exact Hok'|]. intros t. rewrite Pnew, Hbits. clear.
      destruct (N.leb_spec i t), (N.ltb_spec t (HF g)), (N.ltb_spec t (i + 1)), (N.leb_spec (i + 1) t);
        cbn [andb]; try reflexivity; lia.
    - rewrite ent_set_bf, He. unfold e_inc. change (pow2 0) with 1. rewrite Ef, (e_huge_le g WF i) by lia. cbn [negb andb].
      destruct (N.leb_spec (i + 1) (HF g)); [|lia].
      subst hp. f_equal. unfold set_ent, set_bf, st2. cbn [frames bfs ents]. rewrite !lp_upd_upd. reflexivity.
  Qed.

  Lemma li_stage2 fr : forall n a rows, (a + n <= nn (fr mod HF g))%nat -> st2_rows (N.of_nat a) rows ->
    exists rows', st2_rows (N.of_nat (a + n)) rows' /\
      fold_left put_step (map (fun i => (fr / HF g * HF g + N.of_nat i, 0%nat)) (seq a n)) (Ok tt, st2 fr (N.of_nat a) rows) =
      (Ok tt, st2 fr (N.of_nat (a + n)) rows').
  Proof.
    induction n as [|n IH]; intros a rows Ha Hr; cbn [seq map fold_left].
    - rewrite Nat.add_0_r. exists rows. split; [assumption | reflexivity].
    - replace (a + S n)%nat with (S a + n)%nat by lia. unfold put_step at 2. cbn [fst snd].
      destruct (li_st2_step fr (N.of_nat a) rows ltac:(unfold nn in Ha; lia) Hr) as (rows1 & Hr1 & ->).
      replace (N.of_nat a + 1) with (N.of_nat (S a)) in * by lia.
      destruct (IH (S a) rows1 ltac:(lia) Hr1) as (rows' & Hr' & ->).
      exists rows'. split; [assumption | reflexivity].
  Qed.

  Lemma li_st2_final fr rows : st2_rows (fr mod HF g) rows -> st2 fr (fr mod HF g) rows = free_all g fr.
  Proof.
    intros (Hok & Hbits). pose proof (HF_pos g) as HP.
    pose proof (N.div_mod fr (HF g) ltac:(lia)) as D. pose proof (N.mod_lt fr (HF g) ltac:(lia)) as Mr.
    unfold st2, free_all. f_equal.
    - (* bitfields *)
      apply bp_nth_error_ext. intros j. rewrite bp_nth_error_upd. unfold free_all_bfs, reserve_all_bfs.
      rewrite map_length, seq_length, !li_nth_map_seq. cbn [Nat.add].
      destruct (Nat.ltb_spec j (nn (nbf g fr))) as [Hj|Hj].
      + destruct (Nat.eqb_spec (nn (fr / HF g)) j) as [<-|Hne].
        * f_equal. unfold nn. rewrite N2Nat.id. destruct (N.ltb_spec (fr / HF g) (fr / HF g)); [lia|].
          apply (li_rows_bits_inj rows (part_bf g (fr - fr / HF g * HF g))); [exact Hok | apply (li_part_ok g) |].
          intros t. rewrite Hbits, (li_part_bits g WF). replace (fr - fr / HF g * HF g) with (fr mod HF g) by lia.
          reflexivity.
        * f_equal. destruct (N.ltb_spec (N.of_nat j) (fr / HF g)) as [|Hge]; [reflexivity|]. exfalso.
          destruct (li_partial g fr (N.of_nat j) ltac:(unfold nn in Hj; lia) ltac:(lia)) as (E & _).
          unfold nn in Hne. lia.
      + destruct (Nat.eqb_spec (nn (fr / HF g)) j); reflexivity.
    - (* entries *)
      apply bp_nth_error_ext. intros j. rewrite bp_nth_error_upd. unfold st1, free_all_ents. cbn [ents].
      rewrite map_length, seq_length, !li_nth_map_seq. cbn [Nat.add]. unfold st1_ent.
      destruct (Nat.ltb_spec j (nn (ntab g fr * THUGE g))) as [Hj|Hj].
      + destruct (Nat.eqb_spec (nn (fr / HF g)) j) as [<-|Hne].
        * f_equal. unfold nn. rewrite N2Nat.id. lia.
        * f_equal. destruct (N.ltb_spec (N.of_nat j) (fr / HF g)) as [Hlt|Hge].
          -- pose proof (li_full_le g fr _ Hlt). lia.
          -- assert (fr / HF g + 1 <= N.of_nat j) by (unfold nn in Hne; lia).
             assert (fr <= N.of_nat j * HF g) by nia. lia.
      + destruct (Nat.eqb_spec (nn (fr / HF g)) j); reflexivity.
  Qed.

  Theorem free_seq_from_reserve_all fr : put_all (reserve_all g fr) (free_seq fr) = (Ok tt, free_all g fr).
  Proof.
    unfold put_all, free_seq. rewrite fold_left_app.
    rewrite <- li_st1_0. change (st1 fr 0) with (st1 fr (N.of_nat 0)).
    unfold free_seq_huge. rewrite (li_stage1 fr _ 0%nat) by lia. cbn [Nat.add].
    unfold nn at 1. rewrite N2Nat.id. rewrite <- li_st2_0.
    unfold free_seq_small.
    destruct (li_stage2 fr (nn (fr mod HF g)) 0%nat (ones_bf g) ltac:(lia) li_ones_rows) as (rows' & Hr & E).
    cbn [Nat.add] in *. change (N.of_nat 0) with 0 in E. rewrite E.
    unfold nn in *. rewrite N2Nat.id in *. f_equal. apply li_st2_final. exact Hr.
  Qed.

  Corollary free_seq_all_free fr :
    fst (put_all (reserve_all g fr) (free_seq fr)) = Ok tt /\
    o_alloc (abs g (snd (put_all (reserve_all g fr) (free_seq fr)))) = 0 /\
    lower_stats g (snd (put_all (reserve_all g fr) (free_seq fr))) = lower_stats g (free_all g fr).
  Proof. rewrite free_seq_from_reserve_all. cbn [fst snd]. split; [reflexivity|]. split; [apply (free_all_alloc g WF) | reflexivity]. Qed.
End FreeSeq.

Example free_seq_ex :
  length (free_seq g9 5000) = 401%nat /\ put_all g9 (reserve_all g9 5000) (free_seq g9 5000) = (Ok tt, free_all g9 5000) /\
  put_all g9 (reserve_all g9 0) (free_seq g9 0) = (Ok tt, free_all g9 0) /\
  put_all g9 (reserve_all g9 2049) (free_seq g9 2049) = (Ok tt, free_all g9 2049) /\
  put_all g9 (reserve_all g9 511) (free_seq g9 511) = (Ok tt, free_all g9 511).
Proof. vm_compute. repeat split. Qed.

Print Assumptions free_seq_from_reserve_all.
