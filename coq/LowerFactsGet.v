(* The get / get_at / tree_free / stats_at part of `lower_facts g` (LowerFacts.v), proved from
   LowerGetProofs.v; the record itself is assembled from these and the put-side statement. *)
From Coq Require Import PeanoNat ZArith ZifyN ZifyBool.
From LLF Require Import Base BitLemmas Row RowProofs Bitfield Lower Spec LowerFacts AbsLemmas BitfieldProofs
  LowerGetProofs.
Local Open Scope N_scope.

(* counting set bits in a range *)
Definition cnt (a lo n : N) : N := popcount (N.land a (blk lo n)).

Lemma cnt_0 a lo : cnt a lo 0 = 0.
Proof. unfold cnt, blk, ones. change (N.ones 0) with 0. rewrite N.shiftl_0_l, N.land_0_r. reflexivity. Qed.

Lemma cnt_split a lo n m : cnt a lo (n + m) = cnt a lo n + cnt a (lo + n) m.
Proof.
  unfold cnt. rewrite <- popcount_lor_disjoint.
  - f_equal. apply N.bits_inj. intros i. rewrite N.lor_spec, !N.land_spec, !blk_testbit.
    destruct (N.testbit a i); cbn [andb]; [|reflexivity].
    destruct (N.leb_spec lo i), (N.ltb_spec i (lo + (n + m))), (N.ltb_spec i (lo + n)), (N.leb_spec (lo + n) i),
      (N.ltb_spec i (lo + n + m)); cbn [andb orb]; try reflexivity; lia.
  - apply N.bits_inj. intros i. rewrite !N.land_spec, !blk_testbit, N.bits_0.
    destruct (N.testbit a i); cbn [andb]; [|reflexivity].
    destruct (N.leb_spec lo i), (N.ltb_spec i (lo + n)), (N.leb_spec (lo + n) i), (N.ltb_spec i (lo + n + m));
      cbn [andb]; try reflexivity; lia.
Qed.

Lemma cnt_le a lo n : cnt a lo n <= n.
Proof.
  unfold cnt.
  assert (E : N.lor (N.land a (blk lo n)) (N.ldiff (blk lo n) a) = blk lo n).
  { apply N.bits_inj. intros i. rewrite N.lor_spec, N.land_spec, N.ldiff_spec.
    destruct (N.testbit a i), (N.testbit (blk lo n) i); reflexivity. }
  assert (D : N.land (N.land a (blk lo n)) (N.ldiff (blk lo n) a) = 0).
  { apply N.bits_inj. intros i. rewrite !N.land_spec, N.ldiff_spec, N.bits_0.
    destruct (N.testbit a i), (N.testbit (blk lo n) i); reflexivity. }
  pose proof (popcount_lor_disjoint _ _ D) as P. rewrite E, popcount_blk in P. lia.
Qed.

Lemma cnt_full a lo n : (forall i, lo <= i < lo + n -> N.testbit a i = true) -> cnt a lo n = n.
Proof. intros H. unfold cnt. rewrite (proj2 (land_blk_full a lo n) H). apply popcount_blk. Qed.

Lemma cnt_all a n : a < 2 ^ n -> cnt a 0 n = popcount a.
Proof.
  intros H. unfold cnt, blk, ones. rewrite N.shiftl_0_r, N.land_ones, N.mod_small by exact H. reflexivity.
Qed.

Section Facts.
  Variable g : geom.
  Hypothesis WF : wf_geom g.

  Theorem lf_get_proof : forall l start k r l', LowerInv g l -> (k <= tord g)%nat ->
    (start * 64) / TF g < ntab g (frames l) ->
    lower_get g l start k = (r, l') ->
    match r with
    | Ok f => f / TF g = (start * 64) / TF g /\
              spec_get_enabled (abs g l) f k = true /\
              abs g l' = spec_get g (abs g l) f k /\ LowerInv g l' /\ frames l' = frames l /\
              (forall t, tree_free g l' t + delta t (f / TF g) (pow2 k) = tree_free g l t)
    | Err e => e = EMemory /\ l' = l /\
               (forall f, f / TF g = (start * 64) / TF g -> spec_get_enabled (abs g l) f k = false)
    | Panic _ => False
    end.
  Proof.
    intros l start k r l' Inv Hk Ht H. destruct r as [f|e|s].
    - apply (lower_get_ok g WF l start k f l' Inv Hk Ht H).
    - apply (lower_get_err g WF l start k e l' Inv Hk Ht H).
    - apply (lower_get_no_panic g WF l start k Inv Hk Ht s). rewrite H. reflexivity.
  Qed.

  Theorem lf_get_at_proof : forall l f k r l', LowerInv g l -> (k <= tord g)%nat ->
    aligned f k = true -> f + pow2 k <= frames l ->
    lower_get_at g l f k = (r, l') ->
    match r with
    | Ok _ => spec_get_enabled (abs g l) f k = true /\
              abs g l' = spec_get g (abs g l) f k /\ LowerInv g l' /\ frames l' = frames l /\
              (forall t, tree_free g l' t + delta t (f / TF g) (pow2 k) = tree_free g l t)
    | Err e => e = EMemory /\ l' = l /\ spec_get_enabled (abs g l) f k = false
    | Panic _ => False
    end.
  Proof.
    intros l f k r l' Inv Hk Hal Hr H. destruct r as [u|e|s].
    - apply (lower_get_at_ok g WF l f k u l' Inv Hk Hal Hr H).
    - apply (lower_get_at_err g WF l f k e l' Inv Hk Hal Hr H).
    - apply (lower_get_at_no_panic g WF l f k Inv Hk Hal Hr s). rewrite H. reflexivity.
  Qed.

  Theorem lf_stats_at_tree_proof : forall l t, LowerInv g l -> t < ntab g (frames l) ->
    exists s, lower_stats_at g l (t * TF g) (tord g) = Ok s /\ free_frames s = tree_free g l t.
  Proof.
    intros l t Inv Ht. unfold lower_stats_at. cbv zeta.
    rewrite (N.div_mul t (TF g) (TF_nz g)), (proj2 (has_tree_spec g l t Inv) Ht). cbn [negb].
    destruct WF as (H6 & _).
    replace (Nat.eqb (tord g) 0) with false by (symmetry; apply Nat.eqb_neq; unfold tord; lia).
    destruct (Nat.eqb_spec (tord g) (hord g)) as [E|E].
    - assert (Etl : tlog g = 0%nat) by (unfold tord in E; lia).
      assert (ETH : THUGE g = 1) by (rewrite THUGE_pow2, Etl; reflexivity).
      assert (Eh : t * TF g / HF g = t * THUGE g).
      { rewrite TF_eq, N.mul_assoc. apply N.div_mul, HF_nz. }
      rewrite Eh.
      destruct (ent l (t * THUGE g)) as [e|] eqn:He.
      + eexists. split; [reflexivity|]. cbn [free_frames].
        unfold tree_free, thuge_nat. rewrite Etl. change (Nat.pow 2 0) with 1%nat.
        unfold ent in He. rewrite (skipn_nth_cons _ _ _ He). cbn [firstn fold_right]. lia.
      + exfalso. apply (tree_ents g l t Inv Ht (t * THUGE g)); [lia|exact He].
    - rewrite Nat.eqb_refl. eexists. split; reflexivity.
  Qed.

  Lemma cnt_alloc_rows l h e rows cn :
    LowerInv g l -> ent l h = Some e -> bf l h = Some rows -> e <> MARK ->
    h * HF g + cn <= frames l -> cn <= HF g ->
    cnt (o_alloc (abs g l)) (h * HF g) cn = cnt (rows_bits rows) 0 cn.
  Proof.
    intros Inv He Hb Hne Hfr Hcn. unfold cnt.
    replace (N.land (o_alloc (abs g l)) (blk (h * HF g) cn))
      with (N.shiftl (N.land (rows_bits rows) (blk 0 cn)) (h * HF g)); [apply popcount_shiftl|].
    apply N.bits_inj. intros i. rewrite N.land_spec, blk_testbit.
    destruct (N.lt_ge_cases i (h * HF g)) as [Hi|Hi].
    - rewrite N.shiftl_spec_low by exact Hi. destruct (N.leb_spec (h * HF g) i); [lia|]. cbn [andb]. rewrite andb_false_r. reflexivity.
    - rewrite N.shiftl_spec_high' by exact Hi. rewrite N.land_spec, blk_testbit.
      destruct (N.ltb_spec i (h * HF g + cn)) as [Hlt|Hge].
      + destruct (in_huge_divmod g h i) as (Ed & Em); [lia|].
        rewrite (abs_alloc_testbit g WF l Inv), (alloc_at_eq g l i e rows) by (rewrite Ed; assumption).
        rewrite Em, (e_huge_false e Hne). cbn [orb].
        destruct (N.ltb_spec i (frames l)); [|lia]. cbn [andb]. f_equal.
        destruct (N.leb_spec 0 (i - h * HF g)), (N.ltb_spec (i - h * HF g) (0 + cn)); try reflexivity; lia.
      + replace (i - h * HF g <? 0 + cn) with false by (symmetry; apply N.ltb_ge; lia).
        rewrite !andb_false_r. reflexivity.
  Qed.

  (* the number of managed frames (below fr) of huge frame h *)
  Definition child_len (fr h : N) : N := N.min fr ((h + 1) * HF g) - h * HF g.

  (* counter plus set bits among the managed frames is the managed length: for a counter entry the zero
     count of the whole bitfield is HF minus its set bits, and the bits beyond `frames` are all set *)
  Lemma child_count l h : LowerInv g l -> ent l h <> None ->
    efree_at (ents l) (nn h) + cnt (o_alloc (abs g l)) (h * HF g) (child_len (frames l) h)
    = child_len (frames l) h.
  Proof.
    intros Inv He. pose proof (HF_pos g) as Hp. pose proof (HF_lt_MARK g WF) as HM.
    unfold efree_at. change (nth_error (ents l) (nn h)) with (ent l h).
    destruct (ent l h) as [e|] eqn:Ee; [clear He|congruence].
    set (cn := child_len (frames l) h).
    destruct (bf l h) as [rows|] eqn:Eb.
    - pose proof (nbf_lt_inv g _ _ (LowerInv_bf_lt g l h rows Inv Eb)) as Hlt.
      destruct (LowerInv_huge_ok g l h e rows Inv Ee Eb) as (Hok & Hm & Hcnt & Hhi).
      destruct (N.eq_dec e MARK) as [->|Hne].
      + destruct (Hm eq_refl) as (_ & Hfull).
        assert (Ecn : cn = HF g) by (subst cn; unfold child_len; lia).
        rewrite Ecn. change (e_free MARK) with 0. rewrite cnt_full; [lia|].
        intros i Hi. destruct (in_huge_divmod g h i) as (Ed & Em); [lia|].
        rewrite (abs_alloc_testbit g WF l Inv), (alloc_at_eq g l i MARK rows) by (rewrite Ed; assumption).
        change (e_huge MARK) with true. cbn [orb]. destruct (N.ltb_spec i (frames l)); [reflexivity|lia].
      + destruct (Hcnt Hne) as (Ecz & _).
        assert (Hcn : cn <= HF g /\ h * HF g + cn <= frames l) by (subst cn; unfold child_len; lia).
        rewrite (cnt_alloc_rows l h e rows cn Inv Ee Eb Hne (proj2 Hcn) (proj1 Hcn)).
        unfold e_free. rewrite (e_huge_false e Hne).
        pose proof (bf_count_zeros_sum g WF rows Hok) as S.
        rewrite <- (cnt_all _ (HF g) (rows_bits_lt_HF g WF rows Hok)) in S.
        replace (HF g) with (cn + (HF g - cn)) in S at 1 by lia.
        rewrite cnt_split in S. rewrite (cnt_full _ (0 + cn) (HF g - cn)) in S.
        * pose proof (cnt_le (rows_bits rows) 0 cn). lia.
        * intros i Hi. apply Hhi; [lia|]. subst cn. unfold child_len in *. lia.
    - rewrite (LowerInv_no_bf g l h e Inv Ee Eb). change (e_free 0) with 0.
      assert (Hge : frames l <= h * HF g).
      { destruct (N.le_gt_cases (frames l) (h * HF g)) as [|Hgt]; [assumption|]. exfalso.
        assert (Hd : h < nbf g (frames l)).
        { unfold nbf. pose proof (div_lt_div_ceil (frames l) (HF g) (h * HF g) (HF_nz g) Hgt) as D.
          rewrite N.div_mul in D by apply HF_nz. exact D. }
        destruct (LowerInv_bf_some g l h Inv Hd) as (rows & Er). congruence. }
      assert (Ecn : cn = 0) by (subst cn; unfold child_len; lia).
      rewrite Ecn, cnt_0. reflexivity.
  Qed.

  (* the number of managed frames of the m huge frames from h0 *)
  Definition span_len (fr h0 : N) (m : nat) : N := N.min fr ((h0 + N.of_nat m) * HF g) - h0 * HF g.

  Lemma span_count l : LowerInv g l -> forall m h0,
    (forall h, h0 <= h < h0 + N.of_nat m -> ent l h <> None) ->
    nsum m (fun j => efree_at (ents l) (nn h0 + j)) + cnt (o_alloc (abs g l)) (h0 * HF g) (span_len (frames l) h0 m)
    = span_len (frames l) h0 m.
  Proof.
    intros Inv. pose proof (HF_pos g) as Hp.
    induction m as [|m IH]; intros h0 Hent.
    - cbn [nsum]. unfold span_len. replace (N.min (frames l) ((h0 + N.of_nat 0) * HF g) - h0 * HF g) with 0 by lia.
      rewrite cnt_0. reflexivity.
    - cbn [nsum]. rewrite Nat.add_0_r.
      pose proof (child_count l h0 Inv (Hent h0 ltac:(lia))) as C.
      specialize (IH (h0 + 1) ltac:(intros h Hh; apply Hent; lia)).
      rewrite (nsum_ext m _ (fun j => efree_at (ents l) (nn (h0 + 1) + j)))
        by (intros j _; f_equal; unfold nn; lia).
      set (A := efree_at (ents l) (nn h0)) in *.
      set (B := nsum m (fun j => efree_at (ents l) (nn (h0 + 1) + j))) in *.
      set (al := o_alloc (abs g l)) in *.
      assert (El : span_len (frames l) h0 (S m)
                   = child_len (frames l) h0 + span_len (frames l) (h0 + 1) m).
      { unfold span_len, child_len. rewrite Nat2N.inj_succ. lia. }
      rewrite El, cnt_split.
      destruct (N.le_gt_cases ((h0 + 1) * HF g) (frames l)) as [Hfull|Hcut].
      + assert (Ec : child_len (frames l) h0 = HF g) by (unfold child_len; lia).
        replace (h0 * HF g + child_len (frames l) h0) with ((h0 + 1) * HF g) by lia. lia.
      + assert (Es : span_len (frames l) (h0 + 1) m = 0) by (unfold span_len; lia).
        rewrite Es, cnt_0 in *. lia.
  Qed.

  Lemma efree_le l h : LowerInv g l -> efree_at (ents l) (nn h) <= HF g.
  Proof.
    intros Inv. unfold efree_at. change (nth_error (ents l) (nn h)) with (ent l h).
    destruct (ent l h) as [e|] eqn:Ee; [|lia].
    destruct (N.eq_dec e MARK) as [->|Hne]; [change (e_free MARK) with 0; lia|].
    unfold e_free. rewrite (e_huge_false e Hne).
    destruct (bf l h) as [rows|] eqn:Eb.
    - destruct (LowerInv_huge_ok g l h e rows Inv Ee Eb) as (_ & _ & Hcnt & _). apply Hcnt, Hne.
    - rewrite (LowerInv_no_bf g l h e Inv Ee Eb). lia.
  Qed.

  Theorem lf_tree_free_proof : forall l t, LowerInv g l -> t < ntab g (frames l) ->
    tree_free g l t = spec_tree_free g (abs g l) t /\ tree_free g l t <= TF g.
  Proof.
    intros l t Inv Ht. split.
    - pose proof (span_count l Inv (thuge_nat g) (t * THUGE g)) as S.
      rewrite <- (THUGE_nat g) in S. specialize (S (tree_ents g l t Inv Ht)).
      rewrite <- tree_free_nsum in S.
      unfold spec_tree_free. cbv zeta. rewrite abs_frames.
      assert (El : span_len (frames l) (t * THUGE g) (thuge_nat g)
                   = N.min (frames l) (t * TF g + TF g) - t * TF g).
      { unfold span_len. rewrite <- (THUGE_nat g), TF_eq. f_equal; [f_equal|]; lia. }
      rewrite El in S. replace (t * THUGE g * HF g) with (t * TF g) in S by (rewrite TF_eq; lia).
      fold (cnt (o_alloc (abs g l)) (t * TF g) (N.min (frames l) (t * TF g + TF g) - t * TF g)). lia.
    - rewrite tree_free_nsum, TF_eq, (THUGE_nat g). apply nsum_le. intros j _.
      replace (nn (t * N.of_nat (thuge_nat g)) + j)%nat with (nn (t * N.of_nat (thuge_nat g) + N.of_nat j))
        by (unfold nn; lia).
      apply efree_le, Inv.
  Qed.

  Theorem lower_facts_of_put :
    (forall l f k r l', LowerInv g l -> (k <= tord g)%nat ->
        aligned f k = true -> f + pow2 k <= frames l ->
        lower_put g l f k = (r, l') ->
        match r with
        | Ok _ => spec_put_enabled g (abs g l) f k = true /\
                  abs g l' = spec_put g (abs g l) f k /\ LowerInv g l' /\ frames l' = frames l /\
                  (forall t, tree_free g l' t = tree_free g l t + delta t (f / TF g) (pow2 k))
        | Err e => e = EMemory /\ l' = l /\ spec_put_enabled g (abs g l) f k = false
        | Panic _ => False
        end) ->
    lower_facts g.
  Proof.
    intros Hput. constructor.
    - exact lf_tree_free_proof.
    - exact lf_get_proof.
    - exact lf_get_at_proof.
    - exact Hput.
    - exact lf_stats_at_tree_proof.
  Qed.
End Facts.

Print Assumptions lf_get_proof.
Print Assumptions lf_get_at_proof.
Print Assumptions lf_tree_free_proof.
Print Assumptions lf_stats_at_tree_proof.
Print Assumptions lower_facts_of_put.
