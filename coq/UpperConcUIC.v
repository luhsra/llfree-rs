(* The upper half of the M2 invariant: `UIC2` (UpperConcInvDef.v) is the sequential `UpperInvC` of UpperPrims.v
   without its `LowerInv` conjunct (false while lower calls are in flight), which is replaced by the only
   consequence the upper primitives use: tree_free <= TREE_FRAMES.  That is `UpperInvL` of UpperPrims.v at
   `tf_bound` (`UIC2_L`): UpperConcInv.v applies the transformer lemmas `UIL_*` and the per-primitive lemmas
   `trees_*_L` / `locals_*_L` proved there for any lower-state clause, at `tf_bound g`.  Here: the state update
   `mk2`, the index condition of the locals lemmas, and the locals lemmas for get and swap at `tf_bound g`. *)
From Coq Require Import List NArith Bool Lia Permutation PeanoNat.
From LLF Require Import Base Row Bitfield Lower Spec Upper UpperInvDef LowerFacts UpperPrims UpperConcInvDef.

Section U2.
  Variable g : geom.
  Variable policy : N -> N -> N -> pol.
  Hypothesis WF : wf_geom g.
  Notation TF := (TF g).
  Notation UIC := (UIC2 g policy).
  Set Default Proof Using "WF".

  Lemma UIC2_L cr ih x : UIC2 g policy cr ih x = UpperInvL g policy (tf_bound g) cr ih x.
  Proof. reflexivity. Qed.

  Definition mk2 (x : ustate) (u' : upper) : ustate := {| us := u'; off := off x |}.

  Definition idx_ok2 (u : upper) (c j : N) : Prop :=
    forall l, class_slots u c = Some l -> j < N.of_nat (length l).

  Lemma locals_get_C2 cr ih x c j tree n r u' :
    UIC cr ih x -> idx_ok2 (us x) c j ->
    locals_get g (us x) c j tree n = (r, u') ->
    match r with
    | LRow row =>
        exists s, slot_at (us x) c j = Some s /\ s_pres s = true /\ row = s_row s /\ n <= s_free s /\
          (forall t, tree = Some t -> row_tree g row = t) /\
          row_tree g row < ntrees (us x) /\ row * 64 < frames (low (us x)) /\
          u' = set_slot (us x) c j {| s_pres := true; s_row := s_row s; s_free := s_free s - n |} /\
          forall cr', (forall t, cr' t = cr t + delta t (row_tree g row) n) -> UIC cr' ih (mk2 x u')
    | LResv rv =>
        u' = us x /\
        exists s, slot_at (us x) c j = Some s /\ s_pres s = true /\ rv = slot_resv s c /\
          ((exists t, tree = Some t /\ row_tree g (s_row s) <> t) \/ s_free s < n)
    | LNone =>
        u' = us x /\
        (class_slots (us x) c = None \/ exists s, slot_at (us x) c j = Some s /\ s_pres s = false)
    | LPanic _ => False
    end.
  Proof. exact (locals_get_L g policy (tf_bound g) cr ih x c j tree n r u'). Qed.

  Lemma locals_swap_C2 cr ih x c j tree n r u' :
    UIC cr ((tree, c, n) :: ih) x -> idx_ok2 (us x) c j ->
    locals_swap g (us x) c j tree n = (r, u') ->
    exists s, slot_at (us x) c j = Some s /\
      r = Ok (if s_pres s then Some (slot_resv s c) else None) /\
      u' = set_slot (us x) c j {| s_pres := true; s_row := tree_row g tree; s_free := n |} /\
      UIC cr (resv_of g c s ++ ih) (mk2 x u').
  Proof. exact (locals_swap_L g policy WF (tf_bound g) (fun _ H => H) cr ih x c j tree n r u'). Qed.
End U2.
