(* Facts about Requests.v: the requests built by the closures of `Classing::simple` / `Classing::movable` are
   valid for the class tables of the same call (class configured, slot index below its slot count), the
   tables satisfy the construction hypotheses of C09 (`init_inv`: ids < 8, default configured), and the JSON
   policy is an ordered policy (PolicyFacts.v), hence has the four named policy properties. *)
From Coq Require Import List NArith Bool Lia.
From LLF Require Import Base Upper UpperPrims Policies PolicyFacts Requests.
Import ListNotations.

Lemma mod_lt_cores core cores : 1 <= cores -> core mod cores < cores.
Proof. intros H. apply N.mod_lt. lia. Qed.

(* validity of the built requests, in the executable form evaluated by the driver's oracle *)
Lemma simple_request_valid_b hord order core cores : 1 <= cores ->
  request_valid_b (fst (simple_classing cores)) (simple_request hord order core cores) = true.
Proof.
  intros H. pose proof (mod_lt_cores core cores H) as L. apply N.ltb_lt in L.
  unfold request_valid_b, simple_request, simple_classing. cbn [r_class r_local fst].
  destruct (N.of_nat hord <=? order); cbn [slots_of N.eqb Pos.eqb]; exact L.
Qed.

Lemma movable_request_valid_b hord order core cores movable : 1 <= cores ->
  request_valid_b (fst (movable_classing cores)) (movable_request hord order core cores movable) = true.
Proof.
  intros H. pose proof (mod_lt_cores core cores H) as L. apply N.ltb_lt in L.
  unfold request_valid_b, movable_request, movable_classing. cbn [r_class r_local fst].
  destruct (N.of_nat hord <=? order); [|destruct movable]; cbn [slots_of N.eqb Pos.eqb]; exact L.
Qed.

(* `request_valid_b` means what it should: some entry (the first with that id) has the request's class and
   the slot index is below its count *)
Lemma slots_of_in classes c n : slots_of classes c = Some n -> In (c, n) classes.
Proof.
  induction classes as [|[c' k] rest IH]; cbn [slots_of]; [discriminate|].
  destruct (N.eqb_spec c' c) as [->|_]; intros E.
  - injection E as ->. left. reflexivity.
  - right. apply IH, E.
Qed.

Lemma request_valid_b_sound classes r : request_valid_b classes r = true ->
  exists n, In (r_class r, n) classes /\ match r_local r with Some j => j < n | None => True end.
Proof.
  unfold request_valid_b. destruct (slots_of classes (r_class r)) as [n|] eqn:E; [|discriminate].
  intros H. exists n. split; [apply slots_of_in, E|].
  destruct (r_local r); [apply N.ltb_lt, H|exact I].
Qed.

Lemma simple_request_valid hord order core cores : 1 <= cores ->
  let r := simple_request hord order core cores in
  exists n, In (r_class r, n) (fst (simple_classing cores)) /\
            match r_local r with Some j => j < n | None => True end.
Proof. intros H r. apply request_valid_b_sound, simple_request_valid_b, H. Qed.

Lemma movable_request_valid hord order core cores movable : 1 <= cores ->
  let r := movable_request hord order core cores movable in
  exists n, In (r_class r, n) (fst (movable_classing cores)) /\
            match r_local r with Some j => j < n | None => True end.
Proof. intros H r. apply request_valid_b_sound, movable_request_valid_b, H. Qed.

(* the order is passed through; huge requests get the huge class, which is the default class of the table *)
Lemma simple_request_order_class hord order core cores :
  r_order (simple_request hord order core cores) = N.to_nat order /\
  r_class (simple_request hord order core cores) =
    if Nat.leb hord (N.to_nat order) then snd (simple_classing cores) else 0.
Proof.
  split; [reflexivity|]. unfold simple_request, simple_classing. cbn [r_class snd].
  destruct (N.leb_spec (N.of_nat hord) order), (PeanoNat.Nat.leb_spec hord (N.to_nat order)); try reflexivity; lia.
Qed.

Lemma movable_request_order_class hord order core cores movable :
  r_order (movable_request hord order core cores movable) = N.to_nat order /\
  r_class (movable_request hord order core cores movable) =
    if Nat.leb hord (N.to_nat order) then snd (movable_classing cores) else if movable then 1 else 0.
Proof.
  split; [reflexivity|]. unfold movable_request, movable_classing. cbn [r_class snd].
  destruct (N.leb_spec (N.of_nat hord) order), (PeanoNat.Nat.leb_spec hord (N.to_nat order)); try reflexivity; lia.
Qed.

(* the class tables satisfy the construction hypotheses of C09 (C09_new_ok / init_inv) *)
Lemma simple_classing_wf cores :
  (forall c k, In (c, k) (fst (simple_classing cores)) -> c < 8) /\
  (exists k, In (snd (simple_classing cores), k) (fst (simple_classing cores))).
Proof.
  unfold simple_classing. cbn [fst snd]. split.
  - intros c k [E|[E|[]]]; injection E as <- _; lia.
  - exists cores. cbn [In]. auto.
Qed.

Lemma movable_classing_wf cores :
  (forall c k, In (c, k) (fst (movable_classing cores)) -> c < 8) /\
  (exists k, In (snd (movable_classing cores), k) (fst (movable_classing cores))).
Proof.
  unfold movable_classing. cbn [fst snd]. split.
  - intros c k [E|[E|[E|[]]]]; injection E as <- _; lia.
  - exists cores. cbn [In]. auto.
Qed.

(* the JSON policy is an ordered policy *)
Definition json_rank (plo phi glo ghi free : N) : N :=
  if range_contains plo phi free then 255 else if range_contains glo ghi free then 2 else 1.

Lemma pol_json_ordered plo phi glo ghi r t f :
  pol_json plo phi glo ghi r t f = ordered_policy (json_rank plo phi glo ghi) r t f.
Proof.
  unfold pol_json, ordered_policy, json_rank.
  destruct (t <? r); [reflexivity|]. destruct (r <? t); [reflexivity|].
  destruct (range_contains plo phi f); [reflexivity|]. destruct (range_contains glo ghi f); reflexivity.
Qed.

Lemma pol_json_facts plo phi glo ghi :
  pol_refl_match (pol_json plo phi glo ghi) /\ pol_kind_indep (pol_json plo phi glo ghi) /\
  pol_demote_trans (pol_json plo phi glo ghi) /\ pol_never_invalid (pol_json plo phi glo ghi).
Proof. eapply pol_facts_ext; [apply pol_json_ordered | apply ordered_facts]. Qed.

Lemma pol_json_refl_match plo phi glo ghi : pol_refl_match (pol_json plo phi glo ghi).
Proof. apply pol_json_facts. Qed.
Lemma pol_json_kind_indep plo phi glo ghi : pol_kind_indep (pol_json plo phi glo ghi).
Proof. apply pol_json_facts. Qed.
Lemma pol_json_demote_trans plo phi glo ghi : pol_demote_trans (pol_json plo phi glo ghi).
Proof. apply pol_json_facts. Qed.
Lemma pol_json_never_invalid plo phi glo ghi : pol_never_invalid (pol_json plo phi glo ghi).
Proof. apply pol_json_facts. Qed.

(* the rating is one of the three values of the code *)
Lemma pol_json_match plo phi glo ghi c f :
  pol_json plo phi glo ghi c c f = PMatch 255 \/ pol_json plo phi glo ghi c c f = PMatch 2 \/
  pol_json plo phi glo ghi c c f = PMatch 1.
Proof.
  unfold pol_json. rewrite N.ltb_irrefl.
  destruct (range_contains plo phi f); [auto|]. destruct (range_contains glo ghi f); auto.
Qed.
