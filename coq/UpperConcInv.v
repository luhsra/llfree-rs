(* The invariant `UInv` of machine M2 (UpperMachine.v) and its preservation by every step of every call
   (get / get_at / put / drain / change_tree with Offline or a class change; see `call_valid2`).
   UInv o s := (o = the ghost "hidden by offline" amounts, changed only by a successful Offline: `off_next`, `grun`)
              M1's invariant `Inv` for the M1 state formed by the embedded threads (`m1_of`),
              the upper accounting `UG` = UIC2 with credit / in-hand := sums of the per-thread ghosts (`uthr_gh`),
              every thread well-formed (`thr_wf`: `twf` of UpperConcWf.v; the only panic is "Exceeding retries").
   A step = one access (per-primitive lemmas `P_*`: the per-primitive lemmas of UpperPrims.v at `tf_bound g` applied to
   the current memory, the thread's ghost being focused out of the sums) followed by the pure continuation
   (`K_settle_nopanic` of UpperConcLocal.v).
   The file: the invariant and the focusing lemmas `UGt*`; then, with the ghost o fixed (Section Offs), three parts:
     1 shape / wf   `prim_ok`, `twf_prim`, `twf_mono`, `twf_P*`, `*_eqb_true`, `low_frame`, `twf_low`: no memory, no ghost
     2 M1 view      `m1_*`, `midM`, `infl*`, `blocks*`, `perm_*`, `client_take_app`, `inv_uheld_ok`, `idle_pool`, `settled_m1`:
                    stated for `m1_plus s L` (the view with further held blocks L); parts 1 and 2 also serve UpperConcWeak.v
     3 accounting   `P_*`, `off_*`, `UInv_*`, `mid`, `finish_step`, `step_access`, `step_low`, `start_fin`, `step_start`,
                    `ustep_inv`
   and after the section the static lemmas (`*_static`) and the run with its ghost (`grun_*`). *)
From Coq Require Import PeanoNat Permutation.
From LLF Require Import Base Row Bitfield Lower Spec Sorted Upper UpperInvDef LowerFacts LowerFactsProofs UpperPrims UpperGetLoops
  LowerMachine ConcBase ConcInvDef ConcInvStep ConcInvIdle ConcInv ConcProps UpperMachine UpperConcInvDef UpperConcUIC UpperConcWf
  UpperConcLocal UpperConcM1.

Lemma crsum_nil i : crsum [] i = 0.
Proof. reflexivity. Qed.

Lemma flat_map_upd {A B} (f : A -> list B) l t x y : nth_error l t = Some x ->
  exists a b, flat_map f l = a ++ f x ++ b /\ flat_map f (upd l t y) = a ++ f y ++ b.
Proof.
  revert t. induction l as [|h r IH]; destruct t; cbn [nth_error upd flat_map]; intros H; try discriminate.
  - inversion H; subst. exists [], (flat_map f r). split; reflexivity.
  - destruct (IH t H) as (a & b & E1 & E2). exists (f h ++ a), b. rewrite E1, E2, <- !app_assoc. split; reflexivity.
Qed.

Lemma upd_same {A} (l : list A) t x : nth_error l t = Some x -> upd l t x = l.
Proof. revert t. induction l; destruct t; cbn [nth_error upd]; intros H; try discriminate; [inversion H; reflexivity|f_equal; auto]. Qed.
Lemma upd_upd {A} (l : list A) t x y : upd (upd l t x) t y = upd l t y.
Proof. revert t. induction l; destruct t; cbn [upd]; try reflexivity. f_equal. auto. Qed.
Lemma map_upd {A B} (f : A -> B) l t x : map f (upd l t x) = upd (map f l) t (f x).
Proof. revert t. induction l; destruct t; cbn [upd map]; try reflexivity. f_equal. auto. Qed.

Section Main.
  Variable g : geom.
  Variable policy : N -> N -> N -> pol.
  Hypothesis WF : wf_geom g.
  Hypothesis PR : pol_refl_match policy.
  Hypothesis PT : pol_demote_trans policy.
  Notation TF := (TF g).
  Notation UIC := (UIC2 g policy).

  (* `o` = the ghost "hidden by offline" amounts (UpperInvDef.off); only a successful Offline change_tree changes it *)
  Definition ux (o : list N) (u : upper) : ustate := {| us := u; off := o |}.
  Definition UG (o : list N) (u : upper) (gs : list ugh) : Prop := UIC (CRf gs) (IHf gs) (ux o u).
  Definition thr_wf (u : upper) (x : uthr) : Prop :=
    match x with
    | UIdle _ => True
    | URun c p k => call_wf g u c /\ twf g policy u c p k
    | UPanic z c => z = SExceedingRetries /\ exists f r, c = UPut f r
    end.
  Definition UInv (o : list N) (s : m2state) : Prop :=
    Inv g (m1_of g s) /\ UG o (m2_up s) (map (uthr_gh g) (m2_pool s)) /\ Forall (thr_wf (m2_up s)) (m2_pool s).

  (* the sequential invariant is the accounting with no credit and nothing in hand, plus the lower invariant *)
  Lemma UIC_of_UpperInv x : UpperInv g policy x -> UIC (fun _ => 0) [] x.
  Proof.
    intros H. apply (UpperInv_C0 g policy) in H.
    exact (UIL_mono g policy (LowerInv g) (tf_bound g) _ _ x (lf_bound g (lower_facts_proved g WF) _) H).
  Qed.
  Lemma UpperInv_of_UIC x : LowerInv g (low (us x)) -> UIC (fun _ => 0) [] x -> UpperInv g policy x.
  Proof. intros HL U. apply (UpperInv_C0 g policy). exact (UIL_mono g policy (tf_bound g) (LowerInv g) _ _ x (fun _ => HL) U). Qed.

  (* one thread's ghost focused out of the sums *)
  Definition UGt (o : list N) (u : upper) (G : ugh) (cr0 : N -> N) (ih0 : list (N * N * N)) : Prop :=
    UIC (fun i => crsum (g_cr G) i + cr0 i) (g_ih G ++ ih0) (ux o u).
  Definition crR (gs : list ugh) (t : nat) : N -> N := CRf (upd gs t gh_nil).
  Definition ihR (gs : list ugh) (t : nat) : list (N * N * N) := IHf (upd gs t gh_nil).

  Lemma CRf_focus gs t G G' i : nth_error gs t = Some G -> CRf (upd gs t G') i = crsum (g_cr G') i + crR gs t i.
  Proof.
    intros H. unfold crR, CRf.
    pose proof (sumf_upd (fun x => crsum (g_cr x) i) gs t G' G H) as A.
    pose proof (sumf_upd (fun x => crsum (g_cr x) i) gs t gh_nil G H) as B. cbn [g_cr gh_nil] in B.
    rewrite crsum_nil in B. lia.
  Qed.
  Lemma IHf_focus gs t G G' : nth_error gs t = Some G -> Permutation (IHf (upd gs t G')) (g_ih G' ++ ihR gs t).
  Proof.
    unfold ihR, IHf. revert t. induction gs as [|h r IH]; destruct t; cbn [nth_error upd flat_map]; intros H; try discriminate.
    - apply Permutation_refl.
    - eapply perm_trans; [apply Permutation_app_head; exact (IH t H)|apply Permutation_app_swap_app].
  Qed.

  Lemma UG_to_t o u gs t G : nth_error gs t = Some G -> UG o u gs -> UGt o u G (crR gs t) (ihR gs t).
  Proof.
    intros H U. unfold UG in U. rewrite <- (upd_same gs t G H) in U. unfold UGt.
    eapply (UIL_ext g policy (tf_bound g)); [|eapply (UIL_perm g policy (tf_bound g)); [apply (IHf_focus gs t G G H)|exact U]].
    intros i. apply (CRf_focus gs t G G i H).
  Qed.
  Lemma UG_of_t o u gs t G G' : nth_error gs t = Some G -> UGt o u G' (crR gs t) (ihR gs t) -> UG o u (upd gs t G').
  Proof.
    intros H U. unfold UG. unfold UGt in U.
    eapply (UIL_ext g policy (tf_bound g)); [|eapply (UIL_perm g policy (tf_bound g)); [apply Permutation_sym; apply (IHf_focus gs t G G' H)|exact U]].
    intros i. symmetry. apply (CRf_focus gs t G G' i H).
  Qed.
  Lemma UGt_eq_cr_ih o u G G' cr0 ih0 :
    (forall i, crsum (g_cr G) i = crsum (g_cr G') i) -> Permutation (g_ih G) (g_ih G') -> UGt o u G cr0 ih0 -> UGt o u G' cr0 ih0.
  Proof.
    intros A B U. unfold UGt in *.
    eapply (UIL_ext g policy (tf_bound g)); [|eapply (UIL_perm g policy (tf_bound g)); [apply Permutation_app_tail; exact B|exact U]].
    intros i. cbv beta. rewrite (A i). reflexivity.
  Qed.
  Lemma UGt_eq o u G G' cr0 ih0 : gh_eq G G' -> UGt o u G cr0 ih0 -> UGt o u G' cr0 ih0.
  Proof. intros (A & B & _). exact (UGt_eq_cr_ih o u G G' cr0 ih0 A B). Qed.

  Lemma UGt_split o u A F cr0 ih0 :
    UGt o u (gh_add A F) cr0 ih0 <-> UGt o u A (fun i => crsum (g_cr F) i + cr0 i) (g_ih F ++ ih0).
  Proof.
    unfold UGt, gh_add. cbn [g_cr g_ih]. rewrite <- app_assoc. split; intros U.
    - eapply (UIL_ext g policy (tf_bound g)); [|exact U]. intros i. cbv beta. rewrite crsum_app. lia.
    - eapply (UIL_ext g policy (tf_bound g)); [|exact U]. intros i. cbv beta. rewrite crsum_app. lia.
  Qed.

  Lemma UGt_ntrees o u G cr0 ih0 : UGt o u G cr0 ih0 -> ntrees u = ntab g (frames (low u)).
  Proof. intros U. exact (UIL_ntrees g policy (tf_bound g) _ _ _ U). Qed.

  Section Offs.
  Variable o : list N.

  (* Part 1, shape / well-formedness: what the top frame says about the primitive; no memory, no ghost *)
  Definition tfun_ok (u : upper) (f0 : tfun) : Prop :=
    match f0 with
    | FSteal cl _ | FRos _ cl => class_slots u cl <> None
    | FChange _ _ ch => c_op ch <> Some OpOnline /\ (forall c, c_class ch = Some c -> class_slots u c <> None)
    | _ => True
    end.
  Definition sfun_ok (u : upper) (tc : N) (f0 : sfun) (f : kframe) : Prop :=
    match f0 with
    | SGetNone _ n =>
        exists r fr i j, f = KDL1 r fr i j /\ policy (r_class r) tc n = PDemote /\ class_slots u (r_class r) <> None
    | SSetStart row => row * 64 < frames (low u)
    | _ => True
    end.
  Definition prim_ok (u : upper) (p : prim) (f : kframe) : Prop :=
    match p with
    | PLd i => i < ntrees u
    | PTL i f0 => i < ntrees u /\ tfun_ok u f0
    | PTC i f0 cur new => i < ntrees u /\ tfun_ok u f0 /\ tf_apply g policy (dflt u) f0 cur 0 = Some (Ok new)
    | PTF _ _ _ _ _ => False
    | PSL cl idx f0 => slot_ok u cl idx = true /\ sfun_ok u cl f0 f
    | PSC cl idx f0 cur new => slot_ok u cl idx = true /\ sfun_ok u cl f0 f /\ sf_apply g f0 cur = Some (Ok new)
    | PSW cl idx new => slot_ok u cl idx = true /\ (s_pres new = true -> s_row new * 64 < frames (low u))
    | PLow _ => True
    end.

  Lemma locals_slots u cl len : class_locals u cl = Some len -> class_slots u cl <> None.
  Proof. unfold class_locals. destruct (class_slots u cl); [discriminate|discriminate]. Qed.
  Lemma get_class_ok u fr r : call_wf g u (UGet fr r) -> class_slots u (r_class r) <> None.
  Proof.
    intros CW. assert (R : req_ok g u r) by (destruct fr; cbn [call_wf] in CW; [exact (proj1 CW)|exact CW]).
    destruct R as (_ & _ & len & E & _). eapply locals_slots; exact E.
  Qed.

  Lemma twf_prim u c p f k : call_wf g u c -> twf g policy u c p (f :: k) -> prim_ok u p f.
  Proof.
    (* one goal per legal (frame, primitive) pair; what remains after `assumption` are the class / slot-count facts of
       the call (`get_class_ok`, `locals_slots`), vacuous implications, the get_none shape of `SGetNone`, and for
       change_at the two halves of `change_ok` taken from `call_wf` *)
    intros CW (T & _ & _). destruct f; cbn [top_wf] in T; try (destruct T; fail); unfold ros_ok in *; flat; subst; prims;
      cbn [prim_ok tfun_ok sfun_ok]; repeat split; try assumption; try exact I;
      try (eapply get_class_ok; eassumption);
      try (eapply locals_slots; eassumption);
      try (intros _; assumption);
      try (intros Q; discriminate Q);
      try (eexists _, _, _, _; split; [reflexivity|split; [assumption|eapply get_class_ok; eassumption]]);
      try (cbn [call_wf] in CW; destruct CW as [C1 C2]; first [exact C1|intros c0 E0 Q; apply (C2 c0 E0); unfold class_locals; rewrite Q; reflexivity]).
  Qed.

  Lemma top_wf_mono u c p p' f :
    (forall i f0, tprim g policy u p i f0 -> tprim g policy u p' i f0) ->
    (forall cl idx f0, sprim g p cl idx f0 -> sprim g p' cl idx f0) ->
    (forall cl, lprim p cl -> False) -> (forall a b d, p = PSW a b d -> False) -> (forall i, p = PLd i -> False) ->
    top_wf g policy u c p f -> top_wf g policy u c p' f.
  Proof.
    intros Ht Hs Hl Hw Hd T. destruct f; cbn [top_wf] in *; try (destruct T; fail); flat; subst;
      try (exfalso; eapply Hl; eassumption); try (exfalso; eapply Hw; reflexivity); try (exfalso; eapply Hd; reflexivity);
      repeat match goal with
             | |- _ /\ _ => split
             | |- exists _, _ => eexists
             end; eauto.
  Qed.

  Lemma twf_mono u c p p' f k :
    (forall i f0, tprim g policy u p i f0 -> tprim g policy u p' i f0) ->
    (forall cl idx f0, sprim g p cl idx f0 -> sprim g p' cl idx f0) ->
    (forall cl, lprim p cl -> False) -> (forall a b d, p = PSW a b d -> False) -> (forall i, p = PLd i -> False) ->
    twf g policy u c p (f :: k) -> twf g policy u c p' (f :: k).
  Proof. intros Ht Hs Hl Hw Hd (T & R). split; [eapply top_wf_mono; eassumption|exact R]. Qed.

  Lemma tree_eqb_true a b : tree_eqb a b = true -> a = b.
  Proof.
    unfold tree_eqb. destruct a, b. cbn. intros H.
    apply andb_true_iff in H. destruct H as [H H3]. apply andb_true_iff in H. destruct H as [H1 H2].
    apply N.eqb_eq in H1, H3. apply Bool.eqb_prop in H2. subst. reflexivity.
  Qed.
  Lemma slot_eqb_true a b : slot_eqb a b = true -> a = b.
  Proof.
    unfold slot_eqb. destruct a, b. cbn. intros H.
    apply andb_true_iff in H. destruct H as [H H3]. apply andb_true_iff in H. destruct H as [H1 H2].
    apply N.eqb_eq in H2, H3. apply Bool.eqb_prop in H1. subst. reflexivity.
  Qed.

  Lemma slot_at_eq u c j : UpperMachine.slot_at u c j = UpperPrims.slot_at u c j.
  Proof. reflexivity. Qed.
  Lemma slot_ok_some u c j : slot_ok u c j = true -> exists s, UpperPrims.slot_at u c j = Some s.
  Proof.
    unfold slot_ok, class_locals, UpperPrims.slot_at. destruct (class_slots u c) as [l|]; cbn [option_map]; [|discriminate].
    intros H. apply N.ltb_lt in H. destruct (nth_error l (nn j)) eqn:E; [eexists; reflexivity|].
    apply nth_error_None in E. unfold nn in E. lia.
  Qed.

  (* a load / compare-exchange pair of the same closure: the top frame does not tell them apart *)
  Lemma twf_PTC_PTL u c i f0 cur new f k :
    twf g policy u c (PTC i f0 cur new) (f :: k) -> twf g policy u c (PTL i f0) (f :: k).
  Proof.
    apply twf_mono.
    - intros i' f' [H|(? & ? & H & _)]; [discriminate H|]. inversion H; subst. left. reflexivity.
    - intros ? ? ? [H|(? & ? & H & _)]; discriminate H.
    - intros ? (? & H). discriminate H.
    - intros ? ? ? H. discriminate H.
    - intros ? H. discriminate H.
  Qed.
  Lemma twf_PTL_PTC u c i f0 cur new f k :
    tf_apply g policy (dflt u) f0 cur 0 = Some (Ok new) ->
    twf g policy u c (PTL i f0) (f :: k) -> twf g policy u c (PTC i f0 cur new) (f :: k).
  Proof.
    intros Ea. apply twf_mono.
    - intros i' f' [H|(? & ? & H & _)]; [|discriminate H]. inversion H; subst. right. eexists _, _. split; [reflexivity|exact Ea].
    - intros ? ? ? [H|(? & ? & H & _)]; discriminate H.
    - intros ? (? & H). discriminate H.
    - intros ? ? ? H. discriminate H.
    - intros ? H. discriminate H.
  Qed.
  Lemma twf_PSC_PSL u c cl idx f0 cur new f k :
    twf g policy u c (PSC cl idx f0 cur new) (f :: k) -> twf g policy u c (PSL cl idx f0) (f :: k).
  Proof.
    apply twf_mono.
    - intros ? ? [H|(? & ? & H & _)]; discriminate H.
    - intros ? ? ? [H|(? & ? & H & _)]; [discriminate H|]. inversion H; subst. left. reflexivity.
    - intros ? (? & H). discriminate H.
    - intros ? ? ? H. discriminate H.
    - intros ? H. discriminate H.
  Qed.
  Lemma twf_PSL_PSC u c cl idx f0 cur new f k :
    sf_apply g f0 cur = Some (Ok new) ->
    twf g policy u c (PSL cl idx f0) (f :: k) -> twf g policy u c (PSC cl idx f0 cur new) (f :: k).
  Proof.
    intros Ea. apply twf_mono.
    - intros ? ? [H|(? & ? & H & _)]; discriminate H.
    - intros ? ? ? [H|(? & ? & H & _)]; [|discriminate H]. inversion H; subst. right. eexists _, _. split; [reflexivity|exact Ea].
    - intros ? (? & H). discriminate H.
    - intros ? ? ? H. discriminate H.
    - intros ? H. discriminate H.
  Qed.

  (* a step inside the lower allocator *)
  (* the ghost of a thread inside the lower allocator: a fixed part A (in-hand) and the credit (T, hold) *)
  Definition low_A (f : kframe) : ugh :=
    match f with
    | KRS2 i o _ true free tc => gh_ih i tc (free - pow2 o)
    | _ => gh_nil
    end.
  Definition low_T (f : kframe) : N :=
    match f with
    | KGL2 _ _ _ row | KSL2 _ row _ | KDL4 _ row => row_tree g row
    | KRS2 i _ _ _ _ _ | KSG2 i _ _ => i
    | KPut1 frame _ => frame / TF
    | _ => 0
    end.
  Definition low_frame (f : kframe) : bool :=
    match f with
    | KGL2 _ _ _ _ | KSL2 _ _ _ | KDL4 _ _ | KRS2 _ _ _ _ _ _ | KSG2 _ _ _ | KPut1 _ _ => true
    | _ => false
    end.
  Lemma low_gh_split f h : low_frame f = true -> gh_eq (low_gh g h (Some f)) (gh_add (low_A f) (gh_cr (low_T f) h)).
  Proof.
    destruct f; cbn [low_frame]; try discriminate; intros _; cbn [low_gh low_A low_T]; rewrite ?gh_add_nil_l; try apply gh_eq_refl.
    destruct reserved; rewrite ?gh_add_nil_l; apply gh_eq_refl.
  Qed.

  Ltac kill_prims :=
    repeat match goal with
           | H : tprim _ _ _ (PLow _) _ _ |- _ => exfalso; destruct H as [H|(? & ? & H & _)]; discriminate H
           | H : sprim _ (PLow _) _ _ _ |- _ => exfalso; destruct H as [H|(? & ? & H & _)]; discriminate H
           | H : PLow _ = PSW _ _ _ |- _ => discriminate H
           | H : PLow _ = PLd _ |- _ => discriminate H
           | H : lprim (PLow _) _ |- _ => destruct H as (?pc & H); inversion H; subst; clear H
           end.

  Lemma low_call_tree row od fr : fr_tree g fr (row_tree g row) -> c_frame (low_get_call row od fr) / TF = row_tree g row.
  Proof. intros H. destruct fr as [f|]; cbn [low_get_call c_frame]; [apply H; reflexivity|reflexivity]. Qed.
  Lemma low_call_order row od fr : c_order (low_get_call row od fr) = od.
  Proof. destruct fr; reflexivity. Qed.

  Lemma twf_low u c th f k :
    twf g policy u c (PLow th) (f :: k) ->
    exists cl pc, th = TRun cl pc /\ low_frame f = true /\ frame_gh g f = gh_nil /\ low_T f = c_frame cl / TF /\
      (forall pc', twf g policy u c (PLow (TRun cl pc')) (f :: k)) /\
      ((is_put cl = false /\ (forall a b, f <> KPut1 a b) /\
        exists fr r, c = UGet fr r /\ c_order cl = r_order r /\ c_n cl = pow2 (r_order r)) \/
       (exists fr r, f = KPut1 fr r /\ c = UPut fr r /\ cl = CPut fr (r_order r))).
  Proof.
    intros (T & R). revert R. destruct f; cbn [top_wf] in T; try (destruct T; fail); unfold ros_ok, row_ok in *; flat; subst; kill_prims; intros R.
    all: eexists _, _; split; [reflexivity|]; split; [reflexivity|]; split; [reflexivity|].
    all: cbn [low_T].
    - split; [symmetry; apply low_call_tree; assumption|]. split.
      + intros pc'. split; [|exact R]. cbn [top_wf]. eexists _, _. repeat split; try eassumption; try reflexivity. eexists; reflexivity.
      + left. split; [apply low_call_put|]. split; [discriminate|]. eexists _, _. split; [reflexivity|]. split; [apply low_call_order|apply low_call_n].
    - split; [cbn [c_frame]; change (tree_row g i * 64 / TF) with (row_tree g (tree_row g i)); rewrite (row_tree_tree_row g WF); reflexivity|].
      split.
      + intros pc'. split; [|exact R]. cbn [top_wf]. eexists. repeat match goal with |- _ /\ _ => split end; try eassumption; try reflexivity. eexists; reflexivity.
      + left. split; [reflexivity|]. split; [discriminate|]. eexists _, _. split; [reflexivity|]. split; reflexivity.
    - split; [symmetry; rewrite <- (row_tree_tree_row g WF i) at 2; apply low_call_tree; rewrite (row_tree_tree_row g WF); assumption|]. split.
      + intros pc'. split; [|exact R]. cbn [top_wf]. eexists _, _. repeat split; try eassumption; try reflexivity. eexists; reflexivity.
      + left. split; [apply low_call_put|]. split; [discriminate|]. eexists _, _. split; [reflexivity|]. split; [apply low_call_order|apply low_call_n].
    - split; [symmetry; apply low_call_tree; assumption|]. split.
      + intros pc'. split; [|exact R]. cbn [top_wf]. eexists. repeat split; try eassumption; try reflexivity. eexists; reflexivity.
      + left. split; [apply low_call_put|]. split; [discriminate|]. eexists _, _. split; [reflexivity|]. split; [apply low_call_order|apply low_call_n].
    - split; [symmetry; apply low_call_tree; assumption|]. split.
      + intros pc'. split; [|exact R]. cbn [top_wf]. eexists. repeat split; try eassumption; try reflexivity. eexists; reflexivity.
      + left. split; [apply low_call_put|]. split; [discriminate|]. eexists _, _. split; [reflexivity|]. split; [apply low_call_order|apply low_call_n].
    - split; [reflexivity|]. split.
      + intros pc'. split; [|exact R]. cbn [top_wf]. split; [reflexivity|eexists; reflexivity].
      + right. eexists _, _. repeat split.
  Qed.

  (* Part 2, the M1 view: the embedded M1 state, stated for `m1_plus s L` *)
  Lemma client_take_app h r f k h' : client_take h f k = Some h' -> client_take (h ++ r) f k = Some (h' ++ r).
  Proof.
    revert h'. induction h as [|[F K] h IH]; intros h'; cbn [client_take app]; [discriminate|].
    destruct (blk_in f k F K).
    - intros H; inversion H; subst. rewrite <- app_assoc. reflexivity.
    - destruct (client_take h f k) as [x|]; [|discriminate]. intros H; inversion H; subst.
      rewrite (IH x eq_refl). reflexivity.
  Qed.

  (* an idle M1 thread starts a get / get_at *)
  Lemma m1_enter_get m t l cl :
    Inv g m -> nth_error (ms_pool m) t = Some (TIdle l) -> cwf g (ms_frames m) cl = true -> is_put cl = false ->
    Inv g (goto m t cl (entry_pc g cl)).
  Proof.
    intros I Ht Cw Np. pose proof (step_inv g WF m t cl I) as S. unfold mstep in S. rewrite Ht in S.
    rewrite (call_ok_cwf g), Cw in S. destruct cl; try discriminate; exact S.
  Qed.
  (* ... a put of a block the client holds *)
  Lemma m1_enter_put m t l f k h' :
    Inv g m -> nth_error (ms_pool m) t = Some (TIdle l) -> cwf g (ms_frames m) (CPut f k) = true ->
    client_take (ms_held m) f k = Some h' ->
    Inv g (goto (set_held m h') t (CPut f k) (entry_pc g (CPut f k))).
  Proof.
    intros I Ht Cw Ct. pose proof (step_inv g WF m t (CPut f k) I) as S. unfold mstep in S. rewrite Ht in S.
    rewrite (call_ok_cwf g), Cw, Ct in S. exact S.
  Qed.

  (* the blocks in flight of a thread *)
  Lemma prim_gh_bl p top : (forall th, p <> PLow th) -> g_bl (prim_gh g p top) = [].
  Proof.
    intros N. destruct p as [i|i f0|i f0 ? ? ?|i f0 ? ?|? ? f0|? ? f0 ? ?|cl ? nw|th]; cbn [prim_gh];
      try reflexivity; try (destruct f0; reflexivity).
    - unfold slot_gh. destruct (s_pres nw); reflexivity.
    - destruct (N th eq_refl).
  Qed.
  Lemma low_gh_bl h top : g_bl (low_gh g h top) = [].
  Proof. destruct top as [f|]; [|reflexivity]. destruct f; try reflexivity. cbn [low_gh]. destruct reserved; reflexivity. Qed.
  Lemma post_gh_bl p v f : (forall th, p <> PLow th) -> g_bl (post_gh g p v f) = [].
  Proof.
    intros N. destruct p as [i|i f0|i f0 ? ? ?|i f0 ? ?|? ? f0|? ? f0 ? ?|cl ? nw|th]; [| | | | | | |destruct (N th eq_refl)];
      destruct v as [ok old nw'|ok old nw'|x|x|x]; cbn [post_gh]; try reflexivity;
      try (destruct ok; destruct f0; try reflexivity).
    - destruct (t_res nw'); reflexivity.
    - destruct (t_res nw'); reflexivity.
    - destruct (t_res nw'); reflexivity.
    - destruct f; reflexivity.
    - destruct f; reflexivity.
    - unfold slot_gh. destruct (s_pres old); reflexivity.
  Qed.

  Definition mkst (u : upper) (pool : list uthr) (H : list (N * nat)) : m2state :=
    {| m2_up := u; m2_pool := pool; m2_held := H |}.

  (* the M1 state of an updated M2 state (held list HL), from an M1 state M that differs at thread t by the content
     of an idle thread and in the order of the held blocks; `m1_of g (mkst u' (upd pool t x') H')` is this record for
     HL = H' ++ flat_map (inflight g) (upd pool t x') *)
  Lemma m1_of_upd M u' pool t x' HL :
    Inv g M ->
    ms_frames M = frames (low u') -> ms_ents M = ents (low u') -> ms_bfs M = bfs (low u') ->
    (t < length pool)%nat ->
    (exists yM, ms_pool M = upd (map low_thr pool) t yM /\
                (yM = low_thr x' \/ (exists l, yM = TIdle l) /\ exists l', low_thr x' = TIdle l')) ->
    Permutation (ms_held M) HL ->
    Inv g {| ms_frames := frames (low u'); ms_ents := ents (low u'); ms_bfs := bfs (low u');
             ms_pool := map low_thr (upd pool t x'); ms_held := HL |}.
  Proof.
    intros I E1 E2 E3 Lt (yM & Ep & Hy) Pm.
    assert (Lt' : (t < length (map low_thr pool))%nat) by (rewrite map_length; exact Lt).
    assert (I1 : Inv g (set_thr M t (low_thr x'))).
    { destruct Hy as [->|((l & ->) & (l' & El))].
      - replace (set_thr M t (low_thr x')) with M; [exact I|]. destruct M. unfold set_thr. cbn in *.
        f_equal. rewrite Ep, upd_upd. reflexivity.
      - rewrite El. eapply (Inv_idle_irrel g WF); [exact I|]. rewrite Ep. apply nth_error_upd_same. exact Lt'. }
    pose proof (Inv_held_perm g WF _ _ I1 Pm) as I2.
    unfold set_held, set_thr in I2. cbn in I2. rewrite E1, E2, E3, Ep, upd_upd, <- map_upd in I2. exact I2.
  Qed.

  (* C01 read off M1's invariant: the held list of M2 is a prefix of the held list of its M1 view *)
  Lemma heldc_app x a b : heldc x (a ++ b) = heldc x a + heldc x b.
  Proof. unfold heldc. apply sumf_app. Qed.
  Lemma inv_uheld_ok M s R :
    Inv g M -> ms_frames M = frames (low (m2_up s)) -> ms_held M = m2_held s ++ R -> uheld_ok s = true.
  Proof.
    intros I Ef Eh. unfold uheld_ok. pose proof (I_H g _ I) as Hk. rewrite Eh, Ef in Hk.
    apply Forall_app in Hk. destruct Hk as [Hk _]. apply andb_true_iff. split.
    - apply forallb_forall. intros b Hb. exact (proj1 (Forall_forall _ _) Hk b Hb).
    - apply (pairwise_from_heldc (frames (low (m2_up s)))); [exact Hk|].
      intros x Hx. rewrite <- Ef in Hx. pose proof (inv_heldc_le1 g WF _ I x Hx) as Q. rewrite Eh, heldc_app in Q. lia.
  Qed.

  Definition blocks (c : ucall) (G : ugh) : list (N * nat) :=
    match c with UGet _ r => map (fun fr => (fr, r_order r)) (g_bl G) | _ => [] end.
  Lemma inflight_blocks c p k : inflight g (URun c p k) = blocks c (pk_gh g p k).
  Proof. destruct c; reflexivity. Qed.

  (* in-flight blocks of the threads before / after thread t *)
  Definition inflB (pool : list uthr) (t : nat) : list (N * nat) := flat_map (inflight g) (firstn t pool).
  Definition inflA (pool : list uthr) (t : nat) : list (N * nat) := flat_map (inflight g) (skipn (S t) pool).
  Lemma infl_upd pool t y : (t < length pool)%nat ->
    flat_map (inflight g) (upd pool t y) = inflB pool t ++ inflight g y ++ inflA pool t.
  Proof.
    unfold inflB, inflA. revert t. induction pool as [|h r IH]; intros t L; cbn [length] in L; [lia|].
    destruct t; cbn [upd flat_map firstn skipn app]; [reflexivity|]. rewrite (IH t ltac:(lia)), <- app_assoc. reflexivity.
  Qed.
  Lemma infl_at pool t x : nth_error pool t = Some x ->
    flat_map (inflight g) pool = inflB pool t ++ inflight g x ++ inflA pool t.
  Proof.
    intros H. rewrite <- (upd_same pool t x H) at 1. apply infl_upd. apply nth_error_Some. congruence.
  Qed.

  Lemma blocks_ext c G G' : g_bl G = g_bl G' -> blocks c G = blocks c G'.
  Proof. intros E. unfold blocks. rewrite E. reflexivity. Qed.
  Lemma low_thr_panic z c : z <> SExceedingRetries -> low_thr (UPanic z c) = TIdle None.
  Proof. intros N. destruct z; try reflexivity. destruct (N eq_refl). Qed.

  (* the M1 view with further blocks L in its held list (UpperConcWeak.v: blocks leaked by a panic; here L = []) *)
  Definition m1_plus (s : m2state) (L : list (N * nat)) : mstate := set_held (m1_of g s) (ms_held (m1_of g s) ++ L).
  Lemma m1_plus_nil s : m1_plus s [] = m1_of g s.
  Proof. unfold m1_plus, set_held, m1_of. cbn. rewrite app_nil_r. reflexivity. Qed.

  (* a pool of idle threads: nothing in M1, nothing in flight, no ghost *)
  Lemma idle_pool pool : (forall x, In x pool -> exists l, x = UIdle l) ->
    map low_thr pool = repeat (TIdle None) (length pool) /\ flat_map (inflight g) pool = [] /\
    map (uthr_gh g) pool = repeat gh_nil (length pool).
  Proof.
    induction pool as [|a r IH]; intros Q; [repeat split|].
    destruct (Q a (or_introl eq_refl)) as (l & ->). destruct (IH (fun x Hx => Q x (or_intror Hx))) as (E1 & E2 & E3).
    cbn [map flat_map length repeat low_thr inflight uthr_gh app]. rewrite E1, E2, E3. repeat split.
  Qed.

  (* the state right after the access of thread t, M1 part: memory u', thread t idle in M1, the blocks of the thread's
     ghost G in the held list *)
  Definition midM (L : list (N * nat)) (st : m2state) (t : nat) (c : ucall) (u' : upper) (G : ugh) : Prop :=
    exists M, Inv g M /\ ms_frames M = frames (low u') /\ ms_ents M = ents (low u') /\ ms_bfs M = bfs (low u') /\
              (exists l, ms_pool M = upd (map low_thr (m2_pool st)) t (TIdle l)) /\
              Permutation (ms_held M)
                ((m2_held st ++ (inflB (m2_pool st) t ++ inflA (m2_pool st) t) ++ blocks c G) ++ L).

  Lemma perm_mid {A} (H a b B : list A) : Permutation (H ++ (a ++ b) ++ B) (H ++ a ++ B ++ b).
  Proof.
    apply Permutation_app_head. rewrite <- app_assoc. apply Permutation_app_head. apply Permutation_app_comm.
  Qed.
  Lemma perm_leak {A} (H a b B L : list A) : Permutation ((H ++ (a ++ b) ++ B) ++ L) ((H ++ a ++ [] ++ b) ++ B ++ L).
  Proof.
    cbn [app]. rewrite <- !app_assoc. apply Permutation_app_head. apply Permutation_app_head. apply Permutation_app_head.
    apply Permutation_refl.
  Qed.
  Lemma perm_ret {A} (x : A) (H a b L : list A) : Permutation ((H ++ (a ++ b) ++ [x]) ++ L) ((x :: H ++ a ++ b) ++ L).
  Proof. apply Permutation_app_tail. rewrite app_assoc. apply Permutation_sym. apply Permutation_cons_append. Qed.

  (* what the settled continuation does to the M1 view: a panic of the upper layer (never "Exceeding retries") leaks
     the blocks the thread has in hand *)
  (* what the M1 view needs to know about the settled continuation: the blocks in its ghost, a well-formed lower call
     if it enters one, no "Exceeding retries" from upper code *)
  Definition settled_m1 (c : ucall) (u' : upper) (G : ugh) (x : settled) : Prop :=
    match x with
    | SRun p' k' => g_bl (pk_gh g p' k') = g_bl G /\ enter_ok g u' p'
    | SDone r => g_bl (ret_gh c r) = g_bl G
    | SCrash z => z <> SExceedingRetries
    end.
  Lemma m1_finish L st t x0 c u' G x :
    nth_error (m2_pool st) t = Some x0 -> midM L st t c u' G -> settled_m1 c u' G x ->
    Inv g (m1_plus (apply_settled (with_up st u') t c x) (match x with SCrash _ => blocks c G ++ L | _ => L end)).
  Proof.
    intros Ht (M & IM & E1 & E2 & E3 & (l & Ep) & Pm) Hx.
    assert (Lt : (t < length (m2_pool st))%nat) by (apply nth_error_Some; congruence).
    assert (Lt' : (t < length (map low_thr (m2_pool st)))%nat) by (rewrite map_length; exact Lt).
    assert (Idle : forall x' H' L', low_thr x' = TIdle None ->
              Permutation (ms_held M) ((H' ++ flat_map (inflight g) (upd (m2_pool st) t x')) ++ L') ->
              Inv g (m1_plus (mkst u' (upd (m2_pool st) t x') H') L')).
    { intros x' H' L' El PmH. eapply (m1_of_upd M); [exact IM|exact E1|exact E2|exact E3|exact Lt| |exact PmH].
      exists (TIdle l). split; [exact Ep|]. right. split; [eexists; reflexivity|exists None; exact El]. }
    destruct x as [p' k'|r|z]; cbn [apply_settled settled_m1] in *.
    - (* the call continues *)
      destruct Hx as (Eb & En).
      change (set_uthr (with_up st u') t (URun c p' k')) with (mkst u' (upd (m2_pool st) t (URun c p' k')) (m2_held st)).
      assert (Pm' : Permutation (ms_held M) ((m2_held st ++ flat_map (inflight g) (upd (m2_pool st) t (URun c p' k'))) ++ L)).
      { rewrite (infl_upd _ _ _ Lt), inflight_blocks, (blocks_ext c _ _ Eb).
        eapply perm_trans; [exact Pm|apply Permutation_app_tail, perm_mid]. }
      destruct p' as [i|i f0|i f0 cur j a0|i f0 cur new|cl idx f0|cl idx f0 cur new|cl idx new|th'];
        try (apply Idle; [reflexivity|exact Pm']).
      destruct (En th' eq_refl) as (cl & -> & Cw & Np).
      eapply (m1_of_upd (goto M t cl (entry_pc g cl))); [|exact E1|exact E2|exact E3|exact Lt| |exact Pm'].
      + eapply m1_enter_get; [exact IM| |rewrite E1; exact Cw|exact Np]. rewrite Ep. apply nth_error_upd_same. exact Lt'.
      + exists (TRun cl (entry_pc g cl)). split; [|left; reflexivity].
        unfold goto, set_thr. cbn. rewrite Ep, upd_upd. reflexivity.
    - (* the call returns *)
      unfold ufinish.
      assert (Dflt : blocks c G = [] -> Inv g (m1_plus (mkst u' (upd (m2_pool st) t (UIdle (Some r))) (m2_held st)) L)).
      { intros Bn. apply Idle; [reflexivity|]. rewrite (infl_upd _ _ _ Lt). cbn [inflight app]. rewrite Bn, app_nil_r in Pm. exact Pm. }
      destruct c as [fr rq|f rq| |m ch]; try (apply Dflt; reflexivity).
      destruct r as [[frm cl]|e|z]; try (apply Dflt; unfold blocks; rewrite <- Hx; reflexivity).
      change (with_held (set_uthr (with_up st u') t (UIdle (Some (Ok (frm, cl)))))
                ((frm, r_order rq) :: m2_held (set_uthr (with_up st u') t (UIdle (Some (Ok (frm, cl)))))))
        with (mkst u' (upd (m2_pool st) t (UIdle (Some (Ok (frm, cl))))) ((frm, r_order rq) :: m2_held st)).
      apply Idle; [reflexivity|]. rewrite (infl_upd _ _ _ Lt). cbn [inflight app].
      cbn [ret_gh gh_bl g_bl] in Hx. unfold blocks in Pm. rewrite <- Hx in Pm. cbn [map] in Pm.
      eapply perm_trans; [exact Pm|apply perm_ret].
    - (* the upper layer panics *)
      change (set_uthr (with_up st u') t (UPanic z c)) with (mkst u' (upd (m2_pool st) t (UPanic z c)) (m2_held st)).
      apply Idle; [apply low_thr_panic; exact Hx|].
      rewrite (infl_upd _ _ _ Lt). cbn [inflight]. eapply perm_trans; [exact Pm|apply perm_leak].
  Qed.

  Lemma low_thr_run c p k : (forall th, p <> PLow th) -> low_thr (URun c p k) = TIdle None.
  Proof. intros N. destruct p; try reflexivity. destruct (N th eq_refl). Qed.

  (* an access of the upper state leaves the lower memory alone: the M1 view itself is the M1 state in between *)
  Lemma m1_access L st t c p k u' G :
    Inv g (m1_plus st L) -> nth_error (m2_pool st) t = Some (URun c p k) -> (forall th, p <> PLow th) ->
    low u' = low (m2_up st) -> g_bl G = g_bl (pk_gh g p k) -> midM L st t c u' G.
  Proof.
    intros I Ht NL El Eb. exists (m1_plus st L). split; [exact I|].
    split; [cbn; rewrite El; reflexivity|]. split; [cbn; rewrite El; reflexivity|]. split; [cbn; rewrite El; reflexivity|].
    split.
    - exists None. cbn. symmetry. apply upd_same. rewrite nth_error_map, Ht. cbn [option_map]. f_equal. apply low_thr_run. exact NL.
    - cbn. rewrite (infl_at _ _ _ Ht), inflight_blocks, (blocks_ext c _ _ Eb). apply Permutation_sym, Permutation_app_tail, perm_mid.
  Qed.

  Lemma blocks_nil c G : g_bl G = [] -> blocks c G = [].
  Proof. intros E. unfold blocks. rewrite E. destruct c; reflexivity. Qed.

  (* one step of the lower call that thread t is inside of, M1 part: the tree counters against `lhold`, the four outcomes *)
  Lemma m1_low_step L st t c cl pc f k :
    Inv g (m1_plus st L) -> nth_error (m2_pool st) t = Some (URun c (PLow (TRun cl pc)) (f :: k)) ->
    twf g policy (m2_up st) c (PLow (TRun cl pc)) (f :: k) ->
    let ms' := fst (mstep g (m1_view (m2_up st) (TRun cl pc)) 0 cl) in
    let l' := {| frames := ms_frames ms'; bfs := ms_bfs ms'; ents := ms_ents ms' |} in
    let u' := with_low (m2_up st) l' in
    frames l' = frames (low (m2_up st)) /\
    (forall t0, t0 < ntab g (frames l') -> tree_free g l' t0 <= TF) /\
    exists x', nth_error (ms_pool ms') 0 = Some x' /\
      (forall i, tree_free g l' i + delta i (c_frame cl / TF) (lhold g (TRun cl pc))
                 = tree_free g (low (m2_up st)) i + delta i (c_frame cl / TF) (fin_hold g cl x')) /\
      match x' with
      | TIdle (Some (Ok frm)) =>
          (is_put cl = false -> frm / TF = c_frame cl / TF /\ frm < frames (low u')) /\
          midM L st t c u' (gh_add (post_gh g (PLow (TRun cl pc)) (VL (Ok frm)) f) (frame_gh g f))
      | TIdle (Some (Err e)) =>
          e = EMemory /\ midM L st t c u' (gh_add (post_gh g (PLow (TRun cl pc)) (VL (Err EMemory)) f) (frame_gh g f))
      | TRun cl' pc' =>
          cl' = cl /\ Inv g (m1_plus (mkst u' (upd (m2_pool st) t (URun c (PLow (TRun cl pc')) (f :: k))) (m2_held st)) L)
      | TPanic z cl' =>
          z = SExceedingRetries /\ (exists fr r, f = KPut1 fr r /\ c = UPut fr r /\ cl = CPut fr (r_order r)) /\
          Inv g (m1_plus (mkst u' (upd (m2_pool st) t (UPanic SExceedingRetries c)) (m2_held st)) L)
      | _ => False
      end.
  Proof.
    intros I Ht T.
    destruct (twf_low _ _ _ _ _ T) as (cl0 & pc0 & E0 & Lf & Fg & _ & _ & Cls). inversion E0; subst cl0 pc0. clear E0.
    assert (PS : pas_stack (m2_up st) c (lvl f) k) by (destruct T as (_ & PS & _); exact PS).
    assert (Lt : (t < length (m2_pool st))%nat) by (apply nth_error_Some; congruence).
    set (m := m1_plus st L) in *.
    assert (Hm : nth_error (ms_pool m) t = Some (TRun cl pc)).
    { unfold m. cbn. rewrite nth_error_map, Ht. reflexivity. }
    destruct (view_step g WF m t cl pc cl cl Hm) as (Efr & x' & Hx & Est).
    pose proof (step_inv g WF m t cl I) as IM.
    assert (Hx' : nth_error (ms_pool (fst (mstep g m t cl))) t = Some x').
    { rewrite Est. cbn. apply nth_error_upd_same. rewrite map_length. exact Lt. }
    pose proof (step_hold g WF m t cl pc cl x' I Hm Hx') as SHd.
    pose proof (step_result g WF m t cl pc cl x' I Hm Hx') as SR. unfold res_ok in SR.
    pose proof (step_held g WF m t cl pc cl Hm x' Hx') as SHl.
    set (M := fst (mstep g m t cl)) in *.
    change (view m (TRun cl pc)) with (m1_view (m2_up st) (TRun cl pc)) in *.
    set (ms' := fst (mstep g (m1_view (m2_up st) (TRun cl pc)) 0 cl)) in *.
    set (l' := {| frames := ms_frames ms'; bfs := ms_bfs ms'; ents := ms_ents ms' |}).
    set (u' := with_low (m2_up st) l').
    assert (EM : M = {| ms_frames := ms_frames m; ms_ents := ms_ents ms'; ms_bfs := ms_bfs ms';
                        ms_pool := upd (ms_pool m) t x'; ms_held := ms_held ms' ++ ms_held m |}).
    { unfold M. rewrite Est. reflexivity. }
    assert (EMp : ms_pool M = upd (map low_thr (m2_pool st)) t x') by (rewrite EM; reflexivity).
    assert (InflPC : forall pc0, inflight g (URun c (PLow (TRun cl pc0)) (f :: k)) = []).
    { intros pc0. rewrite inflight_blocks. apply blocks_nil. rewrite (pk_gh_top g policy _ _ _ f k _ PS), Fg.
      cbn [prim_gh gh_add g_bl gh_nil]. rewrite low_gh_bl. reflexivity. }
    assert (Hm0 : ms_held m = (m2_held st ++ inflB (m2_pool st) t ++ inflA (m2_pool st) t) ++ L).
    { unfold m. cbn. rewrite (infl_at _ _ _ Ht), InflPC. reflexivity. }
    assert (MidM : forall G, Permutation (ms_held M) ((m2_held st ++ (inflB (m2_pool st) t ++ inflA (m2_pool st) t) ++ blocks c G) ++ L) ->
              (exists l, x' = TIdle l) -> midM L st t c u' G).
    { intros G Pm (l & El). exists M. split; [exact IM|]. split; [rewrite EM; cbn; exact (eq_sym Efr)|].
      split; [rewrite EM; reflexivity|]. split; [rewrite EM; reflexivity|]. split; [exists l; rewrite <- El; exact EMp|exact Pm]. }
    assert (Run : forall x1, low_thr x1 = x' ->
              Permutation (ms_held M) ((m2_held st ++ flat_map (inflight g) (upd (m2_pool st) t x1)) ++ L) ->
              Inv g (m1_plus (mkst u' (upd (m2_pool st) t x1) (m2_held st)) L)).
    { intros x1 El Pm.
      eapply (m1_of_upd M); [exact IM|rewrite EM; cbn; exact (eq_sym Efr)|rewrite EM; reflexivity|rewrite EM; reflexivity|exact Lt| |].
      - exists x'. split; [exact EMp|left; symmetry; exact El].
      - exact Pm. }
    split; [exact Efr|]. split.
    { intros t0 L0. pose proof (inv_tree_free_le g WF M t0 IM) as Q. rewrite EM in Q. cbn in Q. cbn in L0. rewrite Efr in L0.
      apply Q. exact L0. }
    exists x'. split; [exact Hx|]. split.
    { intros i. specialize (SHd i). rewrite EM in SHd. exact SHd. }
    destruct x' as [[[frm|e|z]|]|cl' pc'|z cl']; try (destruct SR; fail).
    - (* the lower call returns a frame / Ok *)
      split.
      + intros Np. destruct (SR Np) as (A & _ & B). split; [exact A|].
        cbn. rewrite Efr. unfold m in B. cbn in B. pose proof (pow2_pos (c_order cl)). lia.
      + apply MidM; [|eexists; reflexivity]. rewrite SHl, Hm0, Fg, gh_add_nil_r.
        destruct Cls as [(Np & NK & fr & r & Ec & Eo & _)|(fr & r & -> & Ec & ->)].
        * rewrite Np, Ec, Eo. unfold blocks.
          assert (Eb : g_bl (post_gh g (PLow (TRun cl pc)) (VL (Ok frm)) f) = [frm]).
          { destruct f; cbn [low_frame] in Lf; try discriminate; try (destruct (NK _ _ eq_refl); fail);
              cbn [post_gh]; try (destruct reserved); reflexivity. }
          rewrite Eb. cbn [map]. apply Permutation_sym. eapply perm_trans; [apply perm_ret|]. cbn [app]. apply Permutation_refl.
        * cbn [is_put]. rewrite Ec. cbn [blocks]. rewrite app_nil_r. apply Permutation_refl.
    - (* out of memory *)
      split; [exact SR|]. apply MidM; [|eexists; reflexivity]. rewrite SHl, Hm0.
      assert (Eb : blocks c (gh_add (post_gh g (PLow (TRun cl pc)) (VL (Err EMemory)) f) (frame_gh g f)) = []).
      { apply blocks_nil. rewrite Fg, gh_add_nil_r.
        destruct f; cbn [low_frame] in Lf; try discriminate; cbn [post_gh low_gh]; try (destruct reserved); try reflexivity;
          cbn [low_gh gh_add gh_ih gh_cr g_bl app]; reflexivity. }
      rewrite Eb, app_nil_r. apply Permutation_refl.
    - (* the lower call continues *)
      split; [exact SR|]. subst cl'. apply Run; [reflexivity|]. rewrite SHl, Hm0, (infl_upd _ _ _ Lt), InflPC. apply Permutation_refl.
    - (* "Exceeding retries" *)
      destruct SR as (-> & -> & Pu). destruct Cls as [(Np & _)|Q]; [congruence|]. split; [reflexivity|]. split; [exact Q|].
      destruct Q as (fr & r & -> & Ec & ->). apply Run; [rewrite Ec; reflexivity|].
      rewrite SHl, Hm0, (infl_upd _ _ _ Lt). cbn [inflight app]. apply Permutation_refl.
  Qed.

  (* a call that returns at once, without a frame *)
  Lemma ufinish_start st t c0 r : ret_gh c0 r = gh_nil -> ufinish st t c0 r = set_uthr st t (UIdle (Some r)).
  Proof.
    intros Er. unfold ufinish. destruct c0 as [fr rq| | |]; try reflexivity.
    destruct r as [[a b]|e|z]; try reflexivity. discriminate Er.
  Qed.

  (* the start of a get / drain / change_tree, M1 part *)
  Lemma m1_start L st t l c0 x :
    Inv g (m1_plus st L) -> nth_error (m2_pool st) t = Some (UIdle l) -> (forall f r, c0 <> UPut f r) ->
    start_good g policy (m2_up st) c0 x -> Inv g (m1_plus (apply_settled st t c0 x) L).
  Proof.
    intros I Ht NP SG.
    assert (Lt : (t < length (m2_pool st))%nat) by (apply nth_error_Some; congruence).
    assert (Hm : nth_error (ms_pool (m1_plus st L)) t = Some (TIdle None)).
    { cbn. rewrite nth_error_map, Ht. reflexivity. }
    assert (Hfl : flat_map (inflight g) (m2_pool st) = inflB (m2_pool st) t ++ inflA (m2_pool st) t).
    { rewrite (infl_at _ _ _ Ht). reflexivity. }
    assert (Same : forall x', inflight g x' = [] -> low_thr x' = TIdle None ->
              Inv g (m1_plus (mkst (m2_up st) (upd (m2_pool st) t x') (m2_held st)) L)).
    { intros x' Ei El. eapply (m1_of_upd (m1_plus st L)); [exact I|reflexivity|reflexivity|reflexivity|exact Lt| |].
      - exists (TIdle None). split; [cbn; symmetry; apply upd_same; exact Hm|left; symmetry; exact El].
      - cbn. rewrite (infl_upd _ _ _ Lt), Ei, Hfl. apply Permutation_refl. }
    destruct x as [p k|r|z]; cbn [start_good apply_settled] in *; [| |destruct SG].
    - destruct SG as (_ & _ & Ge & En).
      change (set_uthr st t (URun c0 p k)) with (mkst (m2_up st) (upd (m2_pool st) t (URun c0 p k)) (m2_held st)).
      assert (Eb : inflight g (URun c0 p k) = []).
      { rewrite inflight_blocks. apply blocks_nil. destruct Ge as (_ & _ & Eb). exact Eb. }
      destruct En as [En|(f0 & r0 & E0 & _)]; [|destruct (NP _ _ E0)].
      destruct p as [i|i f0|i f0 cur j a0|i f0 cur new|cl idx f0|cl idx f0 cur new|cl idx new|th'];
        try (apply Same; [exact Eb|reflexivity]).
      destruct (En th' eq_refl) as (cl & -> & Cw & Np).
      eapply (m1_of_upd (goto (m1_plus st L) t cl (entry_pc g cl))); [|reflexivity|reflexivity|reflexivity|exact Lt| |].
      + eapply m1_enter_get; [exact I|exact Hm|exact Cw|exact Np].
      + exists (TRun cl (entry_pc g cl)). split; [reflexivity|left; reflexivity].
      + cbn. rewrite (infl_upd _ _ _ Lt), Eb, Hfl. apply Permutation_refl.
    - rewrite (ufinish_start _ _ _ _ (proj2 SG)). apply Same; reflexivity.
  Qed.

  (* Part 3, the accounting *)
  Lemma ux_set_tree u i t : mk2 (ux o u) (set_tree u i t) = ux o (set_tree u i t).
  Proof. reflexivity. Qed.
  Lemma ux_set_slot u c j s : mk2 (ux o u) (set_slot u c j s) = ux o (set_slot u c j s).
  Proof. reflexivity. Qed.
  Lemma ux_with_low u l : mk2 (ux o u) (with_low u l) = ux o (with_low u l).
  Proof. reflexivity. Qed.

  Lemma crsum_one t n i : crsum [(t, n)] i = delta i t n.
  Proof. unfold crsum, delta. cbn [sumf fold_right fst snd]. rewrite (N.eqb_sym i t). destruct (t =? i); lia. Qed.

  (* tree entries *)
  Lemma P_tput u i n cr0 ih0 :
    UGt o u (gh_cr i n) cr0 ih0 -> i < ntrees u ->
    exists t t', tree_at u i = Some t /\ tree_put g policy (dflt u) t n = Ok t' /\
                 UGt o (set_tree u i t') gh_nil cr0 ih0.
  Proof.
    intros U L. unfold UGt in U. cbn [gh_cr g_cr g_ih app] in U.
    destruct (trees_put g policy u i n) as [r u'] eqn:E.
    destruct (trees_put_L g policy (tf_bound g) (fun _ H => H) _ (fun j => crsum [] j + cr0 j) _ (ux o u) i n r u' U L) as (Er & U' & t & t' & Et & Ep & _ & _ & Eu).
    - cbv beta. rewrite crsum_one. unfold delta. rewrite N.eqb_refl. lia.
    - intros j. cbv beta. rewrite crsum_one, crsum_nil. lia.
    - exact E.
    - exists t, t'. split; [exact Et|]. split; [exact Ep|]. cbn [us] in Eu. subst u'. rewrite ux_set_tree in U'. exact U'.
  Qed.

  Lemma P_sync u i mn t new cr0 ih0 :
    UGt o u gh_nil cr0 ih0 -> tree_at u i = Some t -> tree_sync_steal t mn = Some new ->
    UGt o (set_tree u i new) (gh_cr i (t_free t)) cr0 ih0.
  Proof.
    intros U Et Es. unfold UGt in U. cbn [gh_nil g_cr g_ih app] in U.
    pose proof (tree_at_lt _ _ _ Et) as L.
    assert (E : trees_sync (us (ux o u)) i mn = (Ok (Some (t_free t)), set_tree u i new)).
    { unfold trees_sync. cbn [us ux]. rewrite Et, Es. reflexivity. }
    destruct (trees_sync_L g policy (tf_bound g) _ _ (ux o u) i mn _ _ U L E) as [(Q & _)|(t0 & Et0 & R & M & _ & Eu & H)]; [discriminate|].
    unfold UGt. cbn [gh_cr g_cr g_ih app]. rewrite <- ux_set_tree. apply H.
    cbn [us ux] in Et0. rewrite Et in Et0. inversion Et0; subst t0.
    intros j. cbv beta. rewrite crsum_one, crsum_nil. lia.
  Qed.

  Lemma P_steal u i cl n t new cr0 ih0 :
    UGt o u gh_nil cr0 ih0 -> tree_at u i = Some t -> tree_steal policy t cl n = Some new ->
    class_slots u cl <> None ->
    UGt o (set_tree u i new) (gh_cr i n) cr0 ih0.
  Proof.
    intros U Et Es Hc. unfold UGt in U. cbn [gh_nil g_cr g_ih app] in U.
    pose proof (tree_at_lt _ _ _ Et) as L.
    assert (E : trees_steal policy (us (ux o u)) i cl n = (Ok (Some (t_class new)), set_tree u i new)).
    { unfold trees_steal. cbn [us ux]. rewrite Et, Es. reflexivity. }
    destruct (trees_steal_L g policy (tf_bound g) _ _ (ux o u) i cl n _ _ U L Hc E) as [(Q & _)|(t0 & t' & _ & _ & _ & _ & _ & _ & _ & _ & _ & H)]; [discriminate|].
    unfold UGt. cbn [gh_cr g_cr g_ih app]. rewrite <- ux_set_tree. apply H.
    intros j. cbv beta. rewrite crsum_one, crsum_nil. lia.
  Qed.

  Lemma P_ros u i cl n t new cr0 ih0 :
    UGt o u gh_nil cr0 ih0 -> tree_at u i = Some t -> tree_reserve_or_steal policy t n cl = Some new ->
    class_slots u cl <> None ->
    UGt o (set_tree u i new)
        (if t_res new then gh_add (gh_ih i (t_class new) (t_free t - n)) (gh_cr i n) else gh_cr i n) cr0 ih0.
  Proof.
    intros U Et Es Hc. unfold UGt in U. cbn [gh_nil g_cr g_ih app] in U.
    pose proof (tree_at_lt _ _ _ Et) as L.
    assert (E : trees_reserve_or_steal policy (us (ux o u)) i cl n = (Ok (Some (t_res new, t_free t, t_class new)), set_tree u i new)).
    { unfold trees_reserve_or_steal. cbn [us ux]. rewrite Et, Es. reflexivity. }
    destruct (trees_reserve_or_steal_L g policy (tf_bound g) _ _ (ux o u) i cl n _ _ PR U L Hc E)
      as [(Q & _)|(t0 & Et0 & Rf & Ln & [(Pk & Er & Eu & H)|(Pk & Er & Eu & H)])]; [discriminate| |];
      cbn [us ux] in Et0; rewrite Et in Et0; inversion Et0; subst t0; inversion Er as [[E1 E2]].
    - rewrite E1, E2. unfold UGt. cbn [gh_add gh_ih gh_cr g_cr g_ih app]. rewrite <- ux_set_tree.
      eapply (UIL_ih_credit g policy (tf_bound g)); [exact H|]. intros j. cbv beta. rewrite crsum_one, crsum_nil.
      unfold delta. destruct (j =? i); lia.
    - rewrite E1. unfold UGt. cbn [gh_cr g_cr g_ih app]. rewrite <- ux_set_tree. apply H.
      intros j. cbv beta. rewrite crsum_one, crsum_nil. lia.
  Qed.

  Lemma P_unres u i cl a cr0 ih0 :
    UGt o u (gh_ih i cl a) cr0 ih0 ->
    exists t t', tree_at u i = Some t /\ tree_unreserve_add g policy (dflt u) t a cl = Some (Ok t') /\
                 UGt o (set_tree u i t') gh_nil cr0 ih0.
  Proof.
    intros U. unfold UGt in U. cbn [gh_ih g_cr g_ih app] in U.
    destruct (trees_unreserve g policy u i a cl) as [r u'] eqn:E.
    destruct (trees_unreserve_L g policy (tf_bound g) (fun _ H => H) _ _ (ux o u) i a cl r u' U E) as (Er & U' & t & t' & Et & _ & _ & _ & Eu).
    cbn [us ux] in Et. unfold trees_unreserve in E. rewrite Et in E.
    destruct (tree_unreserve_add g policy (dflt u) t a cl) as [[t''|e|z]|] eqn:Ea; inversion E as [[E1 E2]]; try (subst r; discriminate).
    exists t, t''. split; [exact Et|]. split; [exact Ea|].
    unfold UGt. cbn [gh_nil g_cr g_ih app]. rewrite <- ux_set_tree. rewrite E2. exact U'.
  Qed.

  (* local slots *)
  Notation pslot_at := UpperPrims.slot_at.

  Lemma slot_idx_ok u c j s : pslot_at u c j = Some s -> idx_ok2 u c j.
  Proof.
    unfold UpperPrims.slot_at, idx_ok2. intros H l E. rewrite E in H.
    assert ((nn j < length l)%nat) by (apply nth_error_Some; congruence). unfold nn in *. lia.
  Qed.

  Lemma P_slot_in u G cr0 ih0 c j s :
    UGt o u G cr0 ih0 -> pslot_at u c j = Some s -> s_pres s = true ->
    rt g s < ntrees u /\ s_row s * 64 < frames (low u) /\ s_free s <= TF.
  Proof. intros U H P. exact (UIL_slot g policy (tf_bound g) _ _ (ux o u) c j s U H P). Qed.
  Lemma P_slot_in_range u G cr0 ih0 c j s : UGt o u G cr0 ih0 -> pslot_at u c j = Some s -> slot_in g u s.
  Proof. intros U H P. destruct (P_slot_in _ _ _ _ _ _ _ U H P) as (L1 & L2 & _). split; assumption. Qed.

  Lemma P_sget u c j s tree n s' cr0 ih0 :
    UGt o u gh_nil cr0 ih0 -> pslot_at u c j = Some s -> slot_get g s tree n = Some s' ->
    UGt o (set_slot u c j s') (gh_cr (rt g s) n) cr0 ih0.
  Proof.
    intros U Hs Hg. destruct (slot_get_facts g _ _ _ _ Hg) as (Pr & _ & Ln & ->).
    destruct (P_slot_in _ _ _ _ _ _ _ U Hs Pr) as (L1 & L2 & L3).
    unfold UGt in *. cbn [gh_nil gh_cr g_cr g_ih app] in *. rewrite <- ux_set_slot.
    eapply (UIL_slot_free g policy (tf_bound g)); [exact U|exact Hs|exact Pr|reflexivity|reflexivity|exact L2|cbn [s_free]; lia|].
    intros t. cbv beta. cbn [s_free]. rewrite crsum_one, crsum_nil. unfold rt, delta. destruct (t =? row_tree g (s_row s)); lia.
  Qed.

  Lemma P_sput u c j s t n cr0 ih0 :
    UGt o u (gh_cr t n) cr0 ih0 -> pslot_at u c j = Some s ->
    match slot_put g s t n with
    | None => True
    | Some (Ok s') => UGt o (set_slot u c j s') gh_nil cr0 ih0
    | Some _ => False
    end.
  Proof.
    intros U Hs. unfold UGt in U. cbn [gh_cr g_cr g_ih app] in U.
    destruct (locals_put g u c j t n) as [r u'] eqn:E.
    assert (Hn : n <= (fun i => crsum [(t, n)] i + cr0 i) t).
    { cbv beta. rewrite crsum_one. unfold delta. rewrite N.eqb_refl. lia. }
    pose proof (locals_put_L g policy (tf_bound g) (fun _ H => H) _ _ (ux o u) c j t n r u' U (slot_idx_ok _ _ _ _ Hs) Hn E) as Q.
    unfold locals_put in E. cbn [us ux] in Q. unfold UpperPrims.slot_at in Hs.
    destruct (class_slots u c) as [l|]; [|discriminate]. rewrite Hs in E.
    destruct (slot_put g s t n) as [[s'|e|z]|]; [| | |exact I]; inversion E as [[E1 E2]]; subst r u'.
    - destruct Q as [(Q & _)|(_ & s0 & _ & _ & _ & Eu & H)]; [discriminate|].
      unfold UGt. cbn [gh_nil g_cr g_ih app]. rewrite <- ux_set_slot. apply H.
      intros i. cbv beta. rewrite crsum_one, crsum_nil. lia.
    - destruct Q as [(Q & _)|(Q & _)]; discriminate.
    - destruct Q as [(Q & _)|(Q & _)]; discriminate.
  Qed.

  Lemma P_sstart u G c j s row s' cr0 ih0 :
    UGt o u G cr0 ih0 -> pslot_at u c j = Some s -> slot_set_start g s row = Some s' -> row * 64 < frames (low u) ->
    UGt o (set_slot u c j s') G cr0 ih0.
  Proof.
    intros U Hs Hg Hr.
    destruct (locals_set_start g u c j row) as [r u'] eqn:E.
    destruct (locals_set_start_L g policy (tf_bound g) _ _ (ux o u) c j row r u' U (slot_idx_ok _ _ _ _ Hs) Hr E) as (_ & U' & _).
    unfold locals_set_start in E. unfold UpperPrims.slot_at in Hs.
    destruct (class_slots u c) as [l|]; [|discriminate]. rewrite Hs, Hg in E. inversion E; subst r u'.
    unfold UGt. rewrite <- ux_set_slot. exact U'.
  Qed.

  Lemma slot_gh_ih c s : g_ih (slot_gh g c s) = resv_of g c s.
  Proof. unfold slot_gh, resv_of. destruct (s_pres s); reflexivity. Qed.
  Lemma slot_gh_cr c s : g_cr (slot_gh g c s) = [].
  Proof. unfold slot_gh. destruct (s_pres s); reflexivity. Qed.

  Lemma ih_sum_in e l : In e l -> snd e <= ih_sum l.
  Proof.
    unfold ih_sum. induction l as [|a l IH]; cbn [In fold_right]; [intros []|]. intros [->|H]; [lia|specialize (IH H); lia].
  Qed.

  Lemma U2_inhand_le cr ih x t c f : UIC cr ih x -> In (t, c, f) ih -> f <= TF.
  Proof.
    intros U Hin. destruct (UIL_inhand g policy (tf_bound g) _ _ _ _ _ _ U Hin) as (L & _).
    destruct (tree_at_some _ _ L) as (tr & Et).
    pose proof (UIL_tree g policy (tf_bound g) _ _ _ _ _ U Et) as Ok. apply (tree_okC_nn g policy) in Ok.
    destruct Ok as (_ & B & _). pose proof (UIL_tree_free_le g policy (tf_bound g) (fun _ H => H) _ _ _ _ U L) as Le.
    assert (Q : In (t, c, f) (ih_of ih t)) by (apply in_ih_of; split; [exact Hin|reflexivity]).
    pose proof (ih_sum_in _ _ Q) as S. cbn [snd] in S. lia.
  Qed.

  Lemma P_swap u c j old new cr0 ih0 :
    UGt o u (slot_gh g c new) cr0 ih0 -> pslot_at u c j = Some old ->
    (s_pres new = true -> s_row new * 64 < frames (low u)) ->
    UGt o (set_slot u c j new) (slot_gh g c old) cr0 ih0.
  Proof.
    intros U Hs Hr. unfold UGt in *. rewrite slot_gh_cr, slot_gh_ih in *. rewrite <- ux_set_slot.
    apply (UIL_slot_xchg g policy (tf_bound g)); [exact Hs| |exact U].
    intros Pn. split; [exact (Hr Pn)|].
    eapply (U2_inhand_le _ _ _ (row_tree g (s_row new)) c); [exact U|]. apply in_or_app. left.
    apply in_resv_of. repeat split. exact Pn.
  Qed.

  (* the class of an in-hand reservation is demoted *)
  Lemma U2_relabel cr ih x t c c' f n :
    UIC cr ((t, c, f) :: ih) x -> policy c' c n = PDemote -> class_slots (us x) c' <> None ->
    UIC cr ((t, c', f) :: ih) x.
  Proof.
    intros (H1 & H2 & H3 & H4 & H5 & H6 & H7 & H8) Pd Hc. unfold UIC2. cbv zeta.
    split; [exact H1|]. split; [exact H2|]. split; [exact H3|]. split; [exact H4|]. split; [exact H5|]. split; [|split; [exact H7|]].
    - intros i tr Hi. destruct (H6 i tr Hi) as (A & B & C & D & F). unfold tree_ok2. cbv zeta.
      rewrite ih_of_cons in *. cbn [fst] in *.
      split; [destruct (t =? N.of_nat i); exact A|]. split; [destruct (t =? N.of_nat i); exact B|]. split; [exact C|].
      split; [exact D|]. intros c0 f0 [Q|Q] f1.
      + inversion Q; subst. eapply PT; [exact Pd|]. apply (F c f0). left. reflexivity.
      + apply (F c0 f0). right. exact Q.
    - intros t0 c0 f0 [Q|Q].
      + inversion Q; subst. split; [|exact Hc]. apply (H8 t0 c f0). left. reflexivity.
      + apply (H8 t0 c0 f0). right. exact Q.
  Qed.

  Lemma P_sgetnone u tc j s tree n s' cl cr0 ih0 :
    UGt o u gh_nil cr0 ih0 -> pslot_at u tc j = Some s -> slot_get g s tree n = Some s' ->
    policy cl tc n = PDemote -> class_slots u cl <> None ->
    UGt o (set_slot u tc j slot_none) (gh_add (gh_ih (rt g s) cl (s_free s - n)) (gh_cr (rt g s) n)) cr0 ih0.
  Proof.
    intros U Hs Hg Pd Hc. destruct (slot_get_facts g _ _ _ _ Hg) as (Pr & _ & Ln & _).
    unfold UGt in *. cbn [gh_nil gh_add gh_ih gh_cr g_cr g_ih app] in *. rewrite <- ux_set_slot.
    assert (U1 : UIC (fun i => crsum [] i + cr0 i) (resv_of g tc s ++ ih0) (mk2 (ux o u) (set_slot u tc j slot_none))).
    { apply (UIL_slot_xchg g policy (tf_bound g)); [exact Hs|discriminate|exact U]. }
    unfold resv_of in U1. rewrite Pr in U1. cbn [app] in U1.
    eapply (UIL_ih_credit g policy (tf_bound g)); [eapply U2_relabel; [exact U1|exact Pd|]|].
    - unfold mk2. cbn [us]. intros Q. apply Hc. apply class_slots_set_slot_none in Q. exact Q.
    - intros i. cbv beta. rewrite crsum_one, crsum_nil. unfold rt, delta. destruct (i =? row_tree g (s_row s)); lia.
  Qed.

  Lemma P_tu u i f0 t cr0 ih0 :
    UGt o u (tf_gh i f0) cr0 ih0 -> i < ntrees u -> tfun_ok u f0 -> tree_at u i = Some t ->
    match tu_eval g policy u i f0 t with
    | OStay p' => exists new, p' = PTC i f0 t new /\ tf_apply g policy (dflt u) f0 t 0 = Some (Ok new)
    | OVal v => v = VT false t t /\ tf_apply g policy (dflt u) f0 t 0 = None /\ (forall a cl, f0 <> FUnres a cl)
    | OCrash _ => False
    end.
  Proof.
    intros U L Tf Et. unfold tu_eval.
    assert (Nf : needs_fetch f0 t = false).
    { destruct f0 as [| | | |mc mf ch|]; cbn [tfun_ok needs_fetch] in *; try reflexivity. destruct Tf as [No _].
      destruct (c_op ch) as [[|]|]; rewrite ?andb_false_r; try reflexivity. destruct (No eq_refl). }
    rewrite Nf. destruct f0 as [mn|cl n|n cl|a cl|mc mf ch|n]; cbn [tf_apply tf_gh tfun_ok] in *.
    - destruct (tree_sync_steal t mn); cbn [option_map]; [eexists; split; reflexivity|]. repeat split; discriminate.
    - destruct (tree_steal policy t cl n); cbn [option_map]; [eexists; split; reflexivity|]. repeat split; discriminate.
    - destruct (tree_reserve_or_steal policy t n cl); cbn [option_map]; [eexists; split; reflexivity|]. repeat split; discriminate.
    - destruct (P_unres _ _ _ _ _ _ U) as (t0 & t' & Et0 & Ea & _). rewrite Et in Et0. inversion Et0; subst t0.
      rewrite Ea. eexists; split; reflexivity.
    - destruct (tree_apply_change t mc mf ch 0); cbn [option_map]; [eexists; split; reflexivity|]. repeat split; discriminate.
    - destruct (P_tput _ _ _ _ _ U L) as (t0 & t' & Et0 & Ea & _). rewrite Et in Et0. inversion Et0; subst t0.
      rewrite Ea. eexists; split; reflexivity.
  Qed.

  Lemma P_su u cl idx f0 s cr0 ih0 :
    UGt o u (sf_gh f0) cr0 ih0 -> UpperPrims.slot_at u cl idx = Some s ->
    match su_eval g cl idx f0 s with
    | OStay p' => exists new, p' = PSC cl idx f0 s new /\ sf_apply g f0 s = Some (Ok new)
    | OVal v => v = UpperMachine.VS false s s /\ sf_apply g f0 s = None
    | OCrash _ => False
    end.
  Proof.
    intros U Hs. unfold su_eval. destruct f0 as [tree n|tree n|t n|row]; cbn [sf_apply sf_gh] in *.
    - destruct (slot_get g s tree n); cbn [option_map]; [eexists; split; reflexivity|split; reflexivity].
    - destruct (slot_get g s tree n); cbn [option_map]; [eexists; split; reflexivity|split; reflexivity].
    - pose proof (P_sput _ _ _ _ _ _ _ _ U Hs) as Q. destruct (slot_put g s t n) as [[s'|e|z]|]; try (destruct Q; fail).
      + eexists; split; reflexivity.
      + split; reflexivity.
    - destruct (slot_set_start g s row); cbn [option_map]; [eexists; split; reflexivity|split; reflexivity].
  Qed.

  (* the ghost `off`: changed by a successful Offline only *)
  Definition off_upd (ch : tree_change) (i : N) (t : tree) : list N :=
    match c_op ch with Some OpOffline => upd o (nn i) (nth (nn i) o 0 + t_free t) | _ => o end.
  Definition off_next (u : upper) (p : prim) : list N :=
    match p with
    | PTC i (FChange _ _ ch) cur _ =>
        match tree_at u i with
        | Some t => if tree_eqb t cur then off_upd ch i cur else o
        | None => o
        end
    | _ => o
    end.
  Lemma off_next_fail u i f0 t cur new : tree_at u i = Some t -> tree_eqb t cur = false -> off_next u (PTC i f0 cur new) = o.
  Proof. intros Et Eq. destruct f0; cbn [off_next]; try reflexivity. rewrite Et, Eq. reflexivity. Qed.

  Lemma nth_upd_same {A} (l : list A) k x d : (k < length l)%nat -> nth k (upd l k x) d = x.
  Proof. revert k. induction l as [|a l IH]; intros k L; cbn [length] in L; [lia|]. destruct k; cbn [upd nth]; [reflexivity|]. apply IH. lia. Qed.
  Lemma nth_upd_other {A} (l : list A) k j x d : j <> k -> nth j (upd l k x) d = nth j l d.
  Proof. revert k j. induction l as [|a l IH]; intros k j N; destruct k, j; cbn [upd nth]; try reflexivity; try lia. apply IH. lia. Qed.

  Lemma P_change u i mc mf ch t new cr0 ih0 :
    UGt o u gh_nil cr0 ih0 -> tree_at u i = Some t -> tree_apply_change t mc mf ch 0 = Some new ->
    tfun_ok u (FChange mc mf ch) ->
    UGt (off_upd ch i t) (set_tree u i new) gh_nil cr0 ih0.
  Proof.
    intros U Et Ea (No & Hc). unfold UGt in *. cbn [gh_nil g_cr g_ih app] in *.
    pose proof (tree_at_lt _ _ _ Et) as L.
    assert (Lo : (nn i < length o)%nat).
    { destruct U as (_ & _ & H3 & _). cbn [ux off us] in H3. rewrite H3. unfold ntrees in L. unfold nn. lia. }
    pose proof (UIL_tree g policy (tf_bound g) _ _ _ _ _ U Et) as Ok0. cbn [ux us off] in Ok0.
    unfold tree_apply_change in Ea.
    destruct (negb (t_res t) && match mc with Some k => k =? t_class t | None => true end && (mf <=? t_free t)) eqn:Ec; [|discriminate].
    apply andb_true_iff in Ec. destruct Ec as [Ec _]. apply andb_true_iff in Ec. destruct Ec as [Rf _]. apply negb_true_iff in Rf.
    assert (Cls : class_slots u (match c_class ch with Some c => c | None => t_class t end) <> None).
    { destruct (c_class ch) as [c0|] eqn:Ecc; [apply (Hc c0 eq_refl)|]. destruct Ok0 as (_ & _ & C & _). exact C. }
    change (ux (off_upd ch i t) (set_tree u i new)) with {| us := set_tree (us (ux o u)) i new; off := off_upd ch i t |}.
    eapply (UIL_set_tree_off g policy (tf_bound g) _ _ _ _ (ux o u) i t new); [exact U|exact Et| | |reflexivity|reflexivity| |].
    - unfold off_upd. destruct (c_op ch) as [[|]|]; [reflexivity| |reflexivity]. cbn [ux off]. apply upd_length.
    - intros k0 Nk. unfold off_upd. destruct (c_op ch) as [[|]|]; [reflexivity| |reflexivity]. cbn [ux off]. apply nth_upd_other. exact Nk.
    - cbn [ux us off]. unfold off_upd.
      destruct (c_op ch) as [[|]|] eqn:Eo.
      + destruct (No eq_refl).
      + inversion Ea; subst new. eapply (okC_unres g policy); [exact Ok0|exact Rf|exact Rf|exact Cls|].
        cbn [t_free]. rewrite nth_upd_same by exact Lo. lia.
      + inversion Ea; subst new. eapply (okC_unres g policy); [exact Ok0|exact Rf|exact Rf|exact Cls|]. reflexivity.
    - intros t0 c0 f0 Hin. exact (UIL_inhand g policy (tf_bound g) _ _ _ _ _ _ U Hin).
  Qed.

  (* a closure is (re-)evaluated on the value just read: after the load, or after a compare-exchange that lost *)
  Lemma P_tu_step u c p i f0 t f k cr0 ih0 :
    tprim g policy u p i f0 -> off_next u p = o -> twf g policy u c (PTL i f0) (f :: k) ->
    UGt o u (tf_gh i f0) (fun j => crsum (g_cr (frame_gh g f)) j + cr0 j) (g_ih (frame_gh g f) ++ ih0) ->
    i < ntrees u -> tfun_ok u f0 -> tree_at u i = Some t ->
    static_eq u u /\ low u = low u /\
    match tu_eval g policy u i f0 t with
    | OStay p' => u = u /\ twf g policy u c p' (f :: k) /\ pk_gh g p' (f :: k) = pk_gh g p (f :: k) /\
                  (forall th, p' <> PLow th) /\ off_next u p = o
    | OVal v => vfacts_unres_ok g policy u p v /\ UGt (off_next u p) u (gh_add (post_gh g p v f) (frame_gh g f)) cr0 ih0
    | OCrash _ => False
    end.
  Proof.
    intros Tp Eo T U L Tf Et. split; [apply static_refl|]. split; [reflexivity|]. rewrite Eo.
    pose proof (P_tu _ _ _ _ _ _ U L Tf Et) as Q. destruct (tu_eval g policy u i f0 t) as [p'|v|z]; [| |exact Q].
    - destruct Q as (new & -> & Ea). split; [reflexivity|]. split; [apply twf_PTL_PTC; [exact Ea|exact T]|].
      split; [|split; [discriminate|reflexivity]]. destruct Tp as [->|(cur & nw & -> & _)]; reflexivity.
    - destruct Q as (-> & Ea & Nu). split.
      + apply (vfacts_unres_ok_tree g policy u _ i f0); [exact Tp|exact Ea|intros a cl E; destruct (Nu _ _ E)].
      + apply UGt_split. destruct Tp as [->|(cur & nw & -> & _)]; cbn [post_gh]; exact U.
  Qed.
  Lemma P_su_step u c p cl idx f0 s f k cr0 ih0 :
    sprim g p cl idx f0 -> twf g policy u c (PSL cl idx f0) (f :: k) ->
    UGt o u (sf_gh f0) (fun j => crsum (g_cr (frame_gh g f)) j + cr0 j) (g_ih (frame_gh g f) ++ ih0) ->
    UpperPrims.slot_at u cl idx = Some s ->
    static_eq u u /\ low u = low u /\
    match su_eval g cl idx f0 s with
    | OStay p' => u = u /\ twf g policy u c p' (f :: k) /\ pk_gh g p' (f :: k) = pk_gh g p (f :: k) /\
                  (forall th, p' <> PLow th) /\ off_next u p = o
    | OVal v => vfacts_unres_ok g policy u p v /\ UGt (off_next u p) u (gh_add (post_gh g p v f) (frame_gh g f)) cr0 ih0
    | OCrash _ => False
    end.
  Proof.
    intros Sp T U Hs. split; [apply static_refl|]. split; [reflexivity|].
    assert (Eo : off_next u p = o) by (destruct Sp as [->|(cur & nw & -> & _)]; reflexivity). rewrite Eo.
    pose proof (P_su _ _ _ _ _ _ _ U Hs) as Q. destruct (su_eval g cl idx f0 s) as [p'|v|z]; [| |exact Q].
    - destruct Q as (new & -> & Ea). split; [reflexivity|]. split; [apply twf_PSL_PSC; [exact Ea|exact T]|].
      split; [|split; [discriminate|reflexivity]]. destruct Sp as [->|(cur & nw & -> & _)]; reflexivity.
    - destruct Q as (-> & Ea). split.
      + split; [|destruct Sp as [->|(cur & nw & -> & _)]; exact I].
        destruct Sp as [->|(cur & nw & -> & _)]; exists false, s, s;
          (split; [reflexivity|]; split; [exact (P_slot_in_range _ _ _ _ _ _ _ U Hs)|exact Ea]).
      + apply UGt_split. destruct Sp as [->|(cur & nw & -> & _)]; cbn [post_gh]; exact U.
  Qed.

  (* one access of a tree / slot primitive *)
  Lemma P_access u c p f k cr0 ih0 :
    call_wf g u c -> twf g policy u c p (f :: k) -> (forall th, p <> PLow th) ->
    UGt o u (pk_gh g p (f :: k)) cr0 ih0 ->
    static_eq u (fst (fst (prim_step g policy u p))) /\ low (fst (fst (prim_step g policy u p))) = low u /\
    match snd (prim_step g policy u p) with
    | OStay p' => fst (fst (prim_step g policy u p)) = u /\ twf g policy u c p' (f :: k) /\
                  pk_gh g p' (f :: k) = pk_gh g p (f :: k) /\ (forall th, p' <> PLow th) /\ off_next u p = o
    | OVal v => vfacts_unres_ok g policy u p v /\
                UGt (off_next u p) (fst (fst (prim_step g policy u p))) (gh_add (post_gh g p v f) (frame_gh g f)) cr0 ih0
    | OCrash _ => False
    end.
  Proof.
    intros CW T NL U. pose proof (twf_prim _ _ _ _ _ CW T) as PO.
    assert (PS : pas_stack u c (lvl f) k) by (destruct T as (_ & PS & _); exact PS).
    rewrite (pk_gh_top g policy u c p f k _ PS) in U. apply UGt_split in U.
    set (cr1 := fun i => crsum (g_cr (frame_gh g f)) i + cr0 i) in *. set (ih1 := g_ih (frame_gh g f) ++ ih0) in *.
    destruct p as [i|i f0|i f0 cur j a|i f0 cur new|cl idx f0|cl idx f0 cur new|cl idx new|th]; cbn [prim_ok] in PO;
      [| |destruct PO| | | | |destruct (NL th eq_refl)].
    - (* PLd *)
      destruct (tree_at_some _ _ PO) as (t & Et). cbn [prim_step]. rewrite Et. cbn [fst snd].
      split; [apply static_refl|]. split; [reflexivity|]. split; [split; [exists t; reflexivity|exact I]|].
      cbn [off_next]. apply UGt_split. exact U.
    - (* PTL *)
      destruct PO as (L & Tf). destruct (tree_at_some _ _ L) as (t & Et). cbn [prim_step]. rewrite Et. cbn [fst snd].
      apply P_tu_step; [left; reflexivity|reflexivity|exact T|exact U|exact L|exact Tf|exact Et].
    - (* PTC *)
      destruct PO as (L & Tf & Ea0). destruct (tree_at_some _ _ L) as (t & Et). cbn [prim_step]. rewrite Et.
      destruct (tree_eqb t cur) eqn:Eq; cbn [fst snd].
      + pose proof Eq as Eq'. apply tree_eqb_true in Eq. subst t.
        split; [apply static_set_tree|]. split; [reflexivity|]. split.
        * apply (vfacts_unres_ok_tree g policy u _ i f0); [right; eexists _, _; split; [reflexivity|exact Ea0]|exact Ea0|reflexivity].
        * apply UGt_split. fold cr1 ih1. cbn [post_gh prim_gh] in *.
          destruct f0 as [mn|cl n|n cl|a cl|mc mf ch|n]; cbn [tf_apply tf_gh tfun_ok off_next] in *.
          -- destruct (tree_sync_steal cur mn) as [x|] eqn:Es; cbn [option_map] in Ea0; inversion Ea0; subst x.
             eapply P_sync; eassumption.
          -- destruct (tree_steal policy cur cl n) as [x|] eqn:Es; cbn [option_map] in Ea0; inversion Ea0; subst x.
             eapply P_steal; eassumption.
          -- destruct (tree_reserve_or_steal policy cur n cl) as [x|] eqn:Es; cbn [option_map] in Ea0; inversion Ea0; subst x.
             eapply P_ros; eassumption.
          -- destruct (P_unres _ _ _ _ _ _ U) as (t0 & t' & Et0 & Ea & U'). rewrite Et in Et0. inversion Et0; subst t0.
             rewrite Ea0 in Ea. inversion Ea; subst t'. exact U'.
          -- rewrite Et, Eq'. destruct (tree_apply_change cur mc mf ch 0) as [x|] eqn:Es; cbn [option_map] in Ea0; inversion Ea0; subst x.
             eapply P_change; eassumption.
          -- destruct (P_tput _ _ _ _ _ U L) as (t0 & t' & Et0 & Ea & U'). rewrite Et in Et0. inversion Et0; subst t0.
             rewrite Ea in Ea0. inversion Ea0; subst t'. exact U'.
      + apply P_tu_step; [right; eexists _, _; split; [reflexivity|exact Ea0]|eapply off_next_fail; eassumption|
                          eapply twf_PTC_PTL; exact T|exact U|exact L|exact Tf|exact Et].
    - (* PSL *)
      destruct PO as (So & Sf). destruct (slot_ok_some _ _ _ So) as (s & Hs). cbn [prim_step]. rewrite slot_at_eq, Hs. cbn [fst snd].
      apply P_su_step; [left; reflexivity|exact T|exact U|exact Hs].
    - (* PSC *)
      destruct PO as (So & Sf & Ea0). destruct (slot_ok_some _ _ _ So) as (s & Hs). cbn [prim_step]. rewrite slot_at_eq, Hs.
      destruct (slot_eqb s cur) eqn:Eq; cbn [fst snd].
      + apply slot_eqb_true in Eq. subst s.
        split; [apply static_set_slot|]. split; [apply set_slot_low|]. split.
        * split; [|exact I]. exists true, cur, new. split; [reflexivity|]. split; [exact (P_slot_in_range _ _ _ _ _ _ _ U Hs)|exact Ea0].
        * cbn [off_next]. apply UGt_split. fold cr1 ih1. cbn [post_gh prim_gh] in *.
          destruct f0 as [tree n|tree n|t n|row]; cbn [sf_apply sf_gh sfun_ok] in *.
          -- destruct (slot_get g cur tree n) as [x|] eqn:Es; cbn [option_map] in Ea0; inversion Ea0; subst x.
             eapply P_sget; eassumption.
          -- destruct (slot_get g cur tree n) as [x|] eqn:Es; cbn [option_map] in Ea0; inversion Ea0; subst new.
             destruct Sf as (r & fr & i0 & j0 & -> & Pd & Hc). eapply P_sgetnone; eassumption.
          -- pose proof (P_sput _ _ _ _ _ _ _ _ U Hs) as Q. rewrite Ea0 in Q. exact Q.
          -- destruct (slot_set_start g cur row) as [x|] eqn:Es; cbn [option_map] in Ea0; inversion Ea0; subst x.
             eapply P_sstart; eassumption.
      + apply P_su_step; [right; eexists _, _; split; [reflexivity|exact Ea0]|eapply twf_PSC_PSL; exact T|exact U|exact Hs].
    - (* PSW *)
      destruct PO as (So & Hr). destruct (slot_ok_some _ _ _ So) as (s & Hs). cbn [prim_step]. rewrite slot_at_eq, Hs. cbn [fst snd].
      split; [apply static_set_slot|]. split; [apply set_slot_low|]. split.
      + split; [|exact I]. exists s. split; [reflexivity|exact (P_slot_in_range _ _ _ _ _ _ _ U Hs)].
      + cbn [off_next]. apply UGt_split. fold cr1 ih1. cbn [post_gh prim_gh] in *. eapply P_swap; eassumption.
  Qed.

  (* assembling a step *)
  Lemma thr_wf_static u u' x : static_eq u u' -> thr_wf u x -> thr_wf u' x.
  Proof.
    intros SE. destruct x as [l|c p k|z c]; cbn [thr_wf]; [tauto| |tauto].
    intros [A B]. split; [eapply call_wf_static; eassumption|eapply twf_static; eassumption].
  Qed.

  Lemma UInv_upd o' s t x0 u' x' H' :
    UInv o s -> nth_error (m2_pool s) t = Some x0 -> static_eq (m2_up s) u' ->
    Inv g (m1_of g (mkst u' (upd (m2_pool s) t x') H')) ->
    UGt o' u' (uthr_gh g x') (crR (map (uthr_gh g) (m2_pool s)) t) (ihR (map (uthr_gh g) (m2_pool s)) t) ->
    thr_wf u' x' ->
    UInv o' (mkst u' (upd (m2_pool s) t x') H').
  Proof.
    intros (I & U & F) Ht SE I' U' W'. split; [exact I'|]. split.
    - cbn [mkst m2_up m2_pool]. rewrite map_upd. eapply UG_of_t; [|exact U'].
      rewrite nth_error_map, Ht. reflexivity.
    - cbn [mkst m2_up m2_pool]. apply Forall_upd; [|exact W'].
      eapply Forall_impl; [|exact F]. intros x. apply thr_wf_static. exact SE.
  Qed.

  (* ... and the accounting for the thread's ghost G *)
  Definition mid (o' : list N) (st : m2state) (t : nat) (c : ucall) (u' : upper) (G : ugh) : Prop :=
    static_eq (m2_up st) u' /\
    UGt o' u' G (crR (map (uthr_gh g) (m2_pool st)) t) (ihR (map (uthr_gh g) (m2_pool st)) t) /\
    midM [] st t c u' G.

  Lemma finish_step o' st t x0 c u' G x :
    UInv o st -> nth_error (m2_pool st) t = Some x0 -> mid o' st t c u' G -> call_wf g u' c ->
    good g policy u' c G x ->
    UInv o' (apply_settled (with_up st u') t c x).
  Proof.
    intros UI Ht (SE & UGm & MM) CW Gd.
    destruct x as [p' k'|r|z]; cbn [good] in Gd; [| |destruct Gd].
    - (* the call continues *)
      destruct Gd as (T & (A & B & Eb) & En).
      pose proof (m1_finish [] st t x0 c u' G (SRun p' k') Ht MM (conj Eb En)) as I'. rewrite m1_plus_nil in I'.
      eapply (UInv_upd o' st t x0 u' (URun c p' k') (m2_held st)); [exact UI|exact Ht|exact SE|exact I'| |split; assumption].
      eapply UGt_eq_cr_ih; [| |exact UGm].
      + intros i. symmetry. apply A.
      + apply Permutation_sym. exact B.
    - (* the call returns *)
      destruct Gd as (NP & A & B & Eb).
      pose proof (m1_finish [] st t x0 c u' G (SDone r) Ht MM Eb) as I'. rewrite m1_plus_nil in I'. cbn [apply_settled] in *.
      assert (E : exists H', ufinish (with_up st u') t c r = mkst u' (upd (m2_pool st) t (UIdle (Some r))) H').
      { unfold ufinish. destruct c as [fr rq| | |]; [destruct r as [[frm cl]|e|z]| | |]; eexists; reflexivity. }
      destruct E as (H' & E). rewrite E in *.
      eapply UInv_upd; [exact UI|exact Ht|exact SE|exact I'| |exact I].
      eapply UGt_eq_cr_ih; [| |exact UGm].
      + intros i. rewrite <- (A i). destruct c, r as [[? ?]|?|?]; reflexivity.
      + eapply perm_trans; [apply Permutation_sym; exact B|]. destruct c, r as [[? ?]|?|?]; apply Permutation_refl.
  Qed.

  Lemma UInv_thread st t c p k :
    UInv o st -> nth_error (m2_pool st) t = Some (URun c p k) ->
    call_wf g (m2_up st) c /\ twf g policy (m2_up st) c p k /\
    UGt o (m2_up st) (pk_gh g p k) (crR (map (uthr_gh g) (m2_pool st)) t) (ihR (map (uthr_gh g) (m2_pool st)) t).
  Proof.
    intros (I & U & F) Ht. pose proof (Forall_nth_error _ _ _ _ F Ht) as W. cbn [thr_wf] in W. destruct W as [CW T].
    split; [exact CW|]. split; [exact T|].
    eapply (UG_to_t _ _ _ t (pk_gh g p k)); [|exact U]. rewrite nth_error_map, Ht. reflexivity.
  Qed.

  Lemma step_access st t c p k c0 :
    UInv o st -> nth_error (m2_pool st) t = Some (URun c p k) -> (forall th, p <> PLow th) ->
    UInv (off_next (m2_up st) p) (fst (ustep g policy st t c0)).
  Proof.
    intros UI Ht NL. destruct (UInv_thread _ _ _ _ _ UI Ht) as (CW & T & Ut).
    destruct k as [|f k]; [destruct T|].
    assert (PS : pas_stack (m2_up st) c (lvl f) k) by (destruct T as (_ & PS & _); exact PS).
    pose proof (P_access _ _ _ _ _ _ _ CW T NL Ut) as PA.
    unfold ustep. rewrite Ht. destruct (prim_step g policy (m2_up st) p) as [[u' ev] oc]. cbn [fst snd] in *.
    destruct PA as (SE & El & PA).
    assert (MM : forall G, g_bl G = g_bl (pk_gh g p (f :: k)) -> midM [] st t c u' G).
    { intros G EG. apply (m1_access [] st t c p (f :: k)); [rewrite m1_plus_nil; exact (proj1 UI)|exact Ht|exact NL|exact El|exact EG]. }
    destruct oc as [p'|v|z]; [| |destruct PA].
    - (* the primitive continues *)
      destruct PA as (-> & T' & Eg & NL' & Eo). rewrite Eo.
      pose proof (m1_finish [] st t _ c _ _ (SRun p' (f :: k)) Ht (MM _ eq_refl)
                    (conj (f_equal g_bl Eg) (fun th E => False_ind _ (NL' th E)))) as I'.
      rewrite m1_plus_nil in I'.
      eapply (UInv_upd o st t _ (m2_up st) (URun c p' (f :: k)) (m2_held st)); [exact UI|exact Ht|exact SE|exact I'| |split; assumption].
      cbn [uthr_gh]. rewrite Eg. exact Ut.
    - (* the primitive completes *)
      destruct PA as (V & Ug).
      assert (SH' : ntrees u' = ntab g (frames (low u'))) by (eapply UGt_ntrees; exact Ug).
      eapply finish_step; [exact UI|exact Ht| |eapply call_wf_static; eassumption|].
      + split; [exact SE|]. split; [exact Ug|]. apply MM.
        rewrite (pk_gh_top g policy _ _ p f k _ PS). cbn [gh_add g_bl]. rewrite (post_gh_bl _ _ _ NL), (prim_gh_bl _ _ NL). reflexivity.
      + apply (K_settle_nopanic g policy WF u' c SH'); [apply call_wf_weaken; eapply call_wf_static; eassumption|eapply twf_static; eassumption|
                                                     eapply vfacts_unres_ok_static; eassumption].
  Qed.

  Lemma P_low_uic u A T h h' l' cr0 ih0 :
    g_cr A = [] -> UGt o u (gh_add A (gh_cr T h)) cr0 ih0 ->
    (forall t0, t0 < ntab g (frames l') -> tree_free g l' t0 <= TF) -> frames l' = frames (low u) ->
    (forall i, tree_free g l' i + delta i T h = tree_free g (low u) i + delta i T h') ->
    UGt o (with_low u l') (gh_add A (gh_cr T h')) cr0 ih0.
  Proof.
    intros EA U Le Ef Eq. unfold UGt in *. cbn [gh_add gh_cr g_cr g_ih] in *. rewrite EA in *. cbn [app] in *.
    rewrite <- ux_with_low. eapply (UIL_with_low g policy (tf_bound g)); [exact U|exact Le|exact Ef|].
    intros t0 _. cbv beta. rewrite !crsum_one. specialize (Eq t0). cbn [us ux]. lia.
  Qed.

  Lemma low_A_cr f : g_cr (low_A f) = [].
  Proof. destruct f; try reflexivity. cbn [low_A]. destruct reserved; reflexivity. Qed.

  Lemma UGt_merge u i tc a n cr0 ih0 :
    UGt o u (gh_add (gh_ih i tc a) (gh_cr i n)) cr0 ih0 -> UGt o u (gh_ih i tc (a + n)) cr0 ih0.
  Proof.
    unfold UGt. cbn [gh_add gh_ih gh_cr g_cr g_ih app]. intros U.
    eapply (UIL_ih_credit g policy (tf_bound g)); [exact U|]. intros j. cbv beta. rewrite crsum_one, crsum_nil. unfold delta.
    destruct (j =? i); lia.
  Qed.

  Lemma step_low st t c th k c0 :
    UInv o st -> nth_error (m2_pool st) t = Some (URun c (PLow th) k) ->
    UInv o (fst (ustep g policy st t c0)).
  Proof.
    intros UI Ht. destruct (UInv_thread _ _ _ _ _ UI Ht) as (CW & T & Ut).
    destruct k as [|f k]; [destruct T|].
    destruct (twf_low _ _ _ _ _ T) as (cl & pc & -> & Lf & Fg & ET & Tpc & Cls).
    assert (PS : pas_stack (m2_up st) c (lvl f) k) by (destruct T as (_ & PS & _); exact PS).
    rewrite (pk_gh_top g policy _ _ _ f k _ PS), Fg, gh_add_nil_r in Ut. cbn [prim_gh] in Ut.
    pose proof (UGt_eq _ _ _ _ _ _ (low_gh_split f (lhold g (TRun cl pc)) Lf) Ut) as Ut'.
    destruct (m1_low_step [] st t c cl pc f k) as (Efr & TFl & x' & Hx & Eq & Out); [rewrite m1_plus_nil; exact (proj1 UI)|exact Ht|exact T|].
    rewrite <- ET in Eq.
    unfold ustep. rewrite Ht. cbn [prim_step].
    destruct (mstep g (m1_view (m2_up st) (TRun cl pc)) 0 cl) as [ms' ev]. cbn [fst snd] in *.
    set (l' := {| frames := ms_frames ms'; bfs := ms_bfs ms'; ents := ms_ents ms' |}) in *.
    set (u' := with_low (m2_up st) l') in *.
    assert (SE : static_eq (m2_up st) u').
    { unfold u', static_eq. cbn. repeat split. exact Efr. }
    assert (Ug : UGt o u' (gh_add (low_A f) (gh_cr (low_T f) (fin_hold g cl x')))
                   (crR (map (uthr_gh g) (m2_pool st)) t) (ihR (map (uthr_gh g) (m2_pool st)) t)).
    { eapply P_low_uic; [apply low_A_cr|exact Ut'|exact TFl|exact Efr|exact Eq]. }
    assert (SH' : ntrees u' = ntab g (frames (low u'))) by (eapply UGt_ntrees; exact Ug).
    assert (Fin : forall v, vfacts g policy u' (PLow (TRun cl pc)) v ->
              mid o st t c u' (gh_add (post_gh g (PLow (TRun cl pc)) v f) (frame_gh g f)) ->
              UInv o (apply_settled (with_up st u') t c (settle g policy SETTLE u' (ARet v (f :: k))))).
    { intros v V MM. eapply finish_step; [exact UI|exact Ht|exact MM|eapply call_wf_static; eassumption|].
      apply (K_settle_nopanic g policy WF u' c SH'); [apply call_wf_weaken; eapply call_wf_static; eassumption|eapply twf_static; eassumption|].
      split; [exact V|exact I]. }
    rewrite Hx.
    destruct x' as [[[frm|e|z]|]|cl' pc'|z cl']; cbn [fst]; try (destruct Out; fail).
    - (* the lower call returns a frame / Ok *)
      destruct Out as (Vf & MM). apply (Fin (VL (Ok frm))); [exists cl, pc; split; [reflexivity|exact Vf]|].
      split; [exact SE|]. split; [|exact MM].
      rewrite Fg, gh_add_nil_r. eapply UGt_eq_cr_ih; [| |exact Ug].
      + intros i. cbn [gh_add g_cr]. rewrite low_A_cr. cbn [app gh_cr g_cr]. rewrite crsum_one. cbn [fin_hold].
        destruct Cls as [(Np & NK & fr & r & Ec & Eo & En)|(fr & r & -> & Ec & ->)].
        * rewrite Np. destruct f; cbn [low_frame] in Lf; try discriminate; try (destruct (NK _ _ eq_refl); fail);
            cbn [post_gh]; try (destruct reserved); cbn; unfold delta; destruct (i =? _); reflexivity.
        * cbn [is_put post_gh gh_cr g_cr low_T c_n c_order]. rewrite crsum_one. reflexivity.
      + cbn [gh_add g_ih gh_cr]. rewrite app_nil_r.
        destruct Cls as [(Np & NK & fr & r & Ec & Eo & En)|(fr & r & -> & Ec & ->)].
        * destruct f; cbn [low_frame] in Lf; try discriminate; try (destruct (NK _ _ eq_refl); fail);
            cbn [post_gh low_A]; try (destruct reserved); apply Permutation_refl.
        * apply Permutation_refl.
    - (* out of memory *)
      destruct Out as (-> & MM). apply (Fin (VL (Err EMemory))); [exists cl, pc; split; reflexivity|].
      split; [exact SE|]. split; [|exact MM].
      rewrite Fg, gh_add_nil_r. cbn [fin_hold] in Ug.
      destruct Cls as [(Np & NK & fr & r & Ec & Eo & En)|(fr & r & -> & Ec & ->)].
      + rewrite Np in Ug. destruct f; cbn [low_frame] in Lf; try discriminate; try (destruct (NK _ _ eq_refl); fail); cbn [post_gh];
          try (eapply UGt_eq; [apply gh_eq_sym; apply (low_gh_split _ (c_n cl)); reflexivity|exact Ug]).
        destruct reserved; [|eapply UGt_eq; [apply gh_eq_sym; apply (low_gh_split (KRS2 i order local false free tc) (c_n cl)); reflexivity|exact Ug]].
        cbn [low_A low_T] in Ug. apply UGt_merge in Ug.
        assert (Ef : free - pow2 order + c_n cl = free).
        { rewrite Ec in T. destruct T as (T & _). cbn [top_wf] in T. destruct T as (r0 & E0 & -> & _ & _ & Hr).
          inversion E0; subst r0. destruct (Hr eq_refl) as (_ & Ln & _). rewrite En. lia. }
        rewrite Ef in Ug. exact Ug.
      + cbn [is_put low_A low_T post_gh] in *. eapply UGt_eq_cr_ih; [| |exact Ug].
        * intros i. cbn [gh_add gh_nil gh_cr g_cr app]. rewrite crsum_one, crsum_nil. unfold delta. destruct (i =? _); reflexivity.
        * apply Permutation_refl.
    - (* the lower call continues *)
      destruct Out as (-> & I'). rewrite m1_plus_nil in I'.
      eapply (UInv_upd o st t _ u' (URun c (PLow (TRun cl pc')) (f :: k)) (m2_held st)); [exact UI|exact Ht|exact SE|exact I'| |].
      + cbn [uthr_gh]. rewrite (pk_gh_top g policy _ _ _ f k _ PS), Fg, gh_add_nil_r. cbn [prim_gh].
        eapply UGt_eq; [apply gh_eq_sym; apply low_gh_split; exact Lf|]. exact Ug.
      + cbn [thr_wf]. split; [eapply call_wf_static; eassumption|eapply twf_static; [exact SE|apply Tpc]].
    - (* "Exceeding retries" *)
      destruct Out as (-> & (fr & r & -> & Ec & ->) & I'). rewrite m1_plus_nil in I'.
      eapply (UInv_upd o st t _ u' (UPanic SExceedingRetries c) (m2_held st)); [exact UI|exact Ht|exact SE|exact I'| |].
      + cbn [uthr_gh]. eapply UGt_eq_cr_ih; [| |exact Ug].
        * intros i. cbn [gh_add low_A gh_nil gh_cr g_cr app fin_hold]. rewrite crsum_one, crsum_nil. unfold delta. destruct (i =? _); reflexivity.
        * apply Permutation_refl.
      + cbn [thr_wf]. split; [reflexivity|]. eexists _, _. exact Ec.
  Qed.

  (* the start of a call *)
  (* scope: valid parameters (UpperConcLocal.call_valid: slot index below the slot count or none; change_tree: `change_ok`),
     and a put passes `check` (its block was taken out of the ghost `held` before the check) *)
  Definition call_valid2 (u : upper) (c : ucall) : Prop :=
    call_valid u c /\ match c with UPut f r => check g u f r = Ok tt | _ => True end.

  Lemma UInv_idle_gh st t l : nth_error (m2_pool st) t = Some (UIdle l) -> UInv o st ->
    UGt o (m2_up st) gh_nil (crR (map (uthr_gh g) (m2_pool st)) t) (ihR (map (uthr_gh g) (m2_pool st)) t).
  Proof.
    intros Ht (_ & U & _). eapply (UG_to_t _ _ _ t gh_nil); [|exact U]. rewrite nth_error_map, Ht. reflexivity.
  Qed.

  Lemma UInv_SH st : UInv o st -> ntrees (m2_up st) = ntab g (frames (low (m2_up st))).
  Proof. intros (_ & U & _). exact (UIL_ntrees g policy (tf_bound g) _ _ _ U). Qed.

  Lemma start_fin st t l c0 x :
    UInv o st -> nth_error (m2_pool st) t = Some (UIdle l) -> (forall f r, c0 <> UPut f r) -> call_valid (m2_up st) c0 ->
    start_good g policy (m2_up st) c0 x -> UInv o (apply_settled st t c0 x).
  Proof.
    intros UI Ht NP V SG. pose proof (UInv_idle_gh _ _ _ Ht UI) as Ug.
    assert (I' : Inv g (m1_of g (apply_settled st t c0 x))).
    { rewrite <- m1_plus_nil. eapply m1_start; [rewrite m1_plus_nil; exact (proj1 UI)|exact Ht|exact NP|exact SG]. }
    destruct x as [p k|r|z]; cbn [start_good apply_settled] in *; [| |destruct SG].
    - destruct SG as (CW & T & Ge & _). apply (call_valid_wf g _ _ V) in CW.
      eapply (UInv_upd o st t _ (m2_up st) (URun c0 p k) (m2_held st)); [exact UI|exact Ht|apply static_refl|exact I'| |split; assumption].
      cbn [uthr_gh]. eapply UGt_eq; [apply gh_eq_sym; exact Ge|exact Ug].
    - rewrite (ufinish_start _ _ _ _ (proj2 SG)) in *.
      eapply (UInv_upd o st t _ (m2_up st) (UIdle (Some r)) (m2_held st)); [exact UI|exact Ht|apply static_refl|exact I'|exact Ug|exact I].
  Qed.

  Lemma step_start st t l c0 :
    UInv o st -> nth_error (m2_pool st) t = Some (UIdle l) -> call_valid2 (m2_up st) c0 ->
    UInv o (fst (ustep g policy st t c0)).
  Proof.
    intros UI Ht (V & Vp). pose proof (UInv_SH _ UI) as SH.
    pose proof (start_ok g policy (m2_up st) SH c0 (call_valid_idx _ _ V)) as SG.
    unfold ustep. rewrite Ht.
    destruct c0 as [fr r|f r| |m ch];
      try (cbn [fst]; eapply start_fin; [exact UI|exact Ht|discriminate|exact V|exact SG]).
    pose proof (UInv_idle_gh _ _ _ Ht UI) as Ug.
    assert (Lt : (t < length (m2_pool st))%nat) by (apply nth_error_Some; congruence).
    assert (Hm : nth_error (ms_pool (m1_of g st)) t = Some (TIdle None)).
    { unfold m1_of. cbn. rewrite nth_error_map, Ht. reflexivity. }
    assert (Hfl : flat_map (inflight g) (m2_pool st) = inflB (m2_pool st) t ++ inflA (m2_pool st) t).
    { rewrite (infl_at _ _ _ Ht). reflexivity. }
    destruct UI as (I & U & F).
    destruct (client_take (m2_held st) f (r_order r)) as [h'|] eqn:Ct; cbn [fst]; [|split; [exact I|split; [exact U|exact F]]].
    cbn [with_held m2_up]. cbn [enter_call] in *. unfold enter_put in *. rewrite Vp in *. unfold enter_low, SETTLE in *.
    cbn [settle start_good apply_settled] in *.
    destruct SG as (CW & T & Ge & [En|(f0 & r0 & E0 & _ & Cw)]). apply (call_valid_wf g _ _ V) in CW.
    { destruct (En _ eq_refl) as (cl & E1 & _ & Np). inversion E1; subst cl. discriminate Np. }
    inversion E0; subst f0 r0.
    change (set_uthr (with_held st h') t (URun (UPut f r) (PLow (TRun (CPut f (r_order r)) (entry_pc g (CPut f (r_order r))))) [KPut1 f r]))
      with (mkst (m2_up st) (upd (m2_pool st) t (URun (UPut f r) (PLow (TRun (CPut f (r_order r)) (entry_pc g (CPut f (r_order r))))) [KPut1 f r])) h').
    eapply UInv_upd; [split; [exact I|split; [exact U|exact F]]|exact Ht|apply static_refl| | |split; assumption].
    - eapply (m1_of_upd (goto (set_held (m1_of g st) (h' ++ flat_map (inflight g) (m2_pool st))) t (CPut f (r_order r)) (entry_pc g (CPut f (r_order r)))));
        [|reflexivity|reflexivity|reflexivity|exact Lt| |].
      + eapply m1_enter_put; [exact I|exact Hm|exact Cw|]. cbn. apply client_take_app. exact Ct.
      + eexists. split; [reflexivity|left; reflexivity].
      + cbn. rewrite (infl_upd _ _ _ Lt), Hfl. cbn [inflight app]. apply Permutation_refl.
    - cbn [uthr_gh]. eapply UGt_eq; [apply gh_eq_sym; exact Ge|exact Ug].
  Qed.

  (* every step *)
  Definition goff (st : m2state) (t : nat) : list N :=
    match nth_error (m2_pool st) t with
    | Some (URun _ p _) => off_next (m2_up st) p
    | _ => o
    end.

  Theorem ustep_inv st t c0 :
    UInv o st -> call_valid2 (m2_up st) c0 -> UInv (goff st t) (fst (ustep g policy st t c0)).
  Proof.
    intros UI V. unfold goff. destruct (nth_error (m2_pool st) t) as [[l|c p k|z c]|] eqn:Ht.
    - eapply step_start; eassumption.
    - destruct p; try (eapply step_access; [exact UI|exact Ht|discriminate]). cbn [off_next]. eapply step_low; eassumption.
    - unfold ustep. rewrite Ht. exact UI.
    - unfold ustep. rewrite Ht. exact UI.
  Qed.

  (* the ghost only changes inside a change_tree call *)
  Lemma goff_change st t :
    UInv o st -> goff st t <> o -> exists m ch p k, nth_error (m2_pool st) t = Some (URun (UChange m ch) p k).
  Proof.
    intros (_ & _ & F) Hne. unfold goff in Hne. destruct (nth_error (m2_pool st) t) as [[l|c p k|z c]|] eqn:Ht; try (destruct (Hne eq_refl)).
    pose proof (Forall_nth_error _ _ _ _ F Ht) as W. cbn [thr_wf] in W. destruct W as [CW T].
    destruct p as [i|i f0|i f0 cur j a|i f0 cur new|cl idx f0|cl idx f0 cur new|cl idx new|th]; try (destruct (Hne eq_refl)).
    destruct f0 as [| | | |mc mf ch|]; try (destruct (Hne eq_refl)).
    destruct k as [|f k]; [destruct T|]. destruct T as (T & _).
    destruct f; cbn [top_wf] in T; try (destruct T; fail); unfold ros_ok in *; flat; subst;
      repeat match goal with
             | H : tprim _ _ _ (PTC _ _ _ _) _ _ |- _ => destruct H as [H|(? & ? & H & _)]; [discriminate H|inversion H; subst; clear H]
             | H : sprim _ (PTC _ _ _ _) _ _ _ |- _ => destruct H as [H|(? & ? & H & _)]; discriminate H
             | H : lprim (PTC _ _ _ _) _ |- _ => destruct H as (? & H); discriminate H
             | H : PTC _ _ _ _ = _ |- _ => discriminate H
             end.
    eexists _, _, _, _. reflexivity.
  Qed.
  End Offs.

  (* the static parts of the shared state never change *)
  Lemma static_trans u1 u2 u3 : static_eq u1 u2 -> static_eq u2 u3 -> static_eq u1 u3.
  Proof.
    intros (A1 & A2 & A3 & A4) (B1 & B2 & B3 & B4). split; [congruence|]. split; [intros c; rewrite B2; apply A2|].
    split; congruence.
  Qed.

  Lemma prim_step_static u p : static_eq u (fst (fst (prim_step g policy u p))).
  Proof.
    destruct p as [i|i f0|i f0 cur j a|i f0 cur new|cl idx f0|cl idx f0 cur new|cl idx new|th]; cbn [prim_step].
    - destruct (tree_at u i); apply static_refl.
    - destruct (tree_at u i); apply static_refl.
    - destruct (nth_error _ _); apply static_refl.
    - destruct (tree_at u i); [|apply static_refl]. destruct (tree_eqb _ _); [apply static_set_tree|apply static_refl].
    - destruct (UpperMachine.slot_at u cl idx); apply static_refl.
    - destruct (UpperMachine.slot_at u cl idx); [|apply static_refl]. destruct (slot_eqb _ _); [apply static_set_slot|apply static_refl].
    - destruct (UpperMachine.slot_at u cl idx); [apply static_set_slot|apply static_refl].
    - destruct th as [l|c pc|z c]; try apply static_refl.
      pose proof (step_frames g WF (m1_view u (TRun c pc)) 0 c) as Ef.
      destruct (mstep g (m1_view u (TRun c pc)) 0 c) as [ms' ev]. cbn [fst] in Ef.
      assert (S : static_eq u (with_low u {| frames := ms_frames ms'; bfs := ms_bfs ms'; ents := ms_ents ms' |})).
      { unfold static_eq. cbn. repeat split. exact Ef. }
      destruct (nth_error (ms_pool ms') 0) as [[[[x|x|x]|]|c' p'|z c']|]; exact S.
  Qed.

  Lemma ustep_static st t c0 : static_eq (m2_up st) (m2_up (fst (ustep g policy st t c0))).
  Proof.
    unfold ustep. destruct (nth_error (m2_pool st) t) as [[l|c p k|z c]|]; try apply static_refl.
    - assert (S : forall s1, m2_up s1 = m2_up st -> forall x, static_eq (m2_up st) (m2_up (apply_settled s1 t c0 x))).
      { intros s1 E x. destruct x as [p k|r|z]; cbn [apply_settled]; [rewrite <- E; apply static_refl| |rewrite <- E; apply static_refl].
        unfold ufinish. destruct c0 as [fr rq| | |]; try (rewrite <- E; apply static_refl).
        destruct r as [[a b]|e|z]; rewrite <- E; apply static_refl. }
      destruct c0 as [fr r|f r| |m ch]; cbn [fst]; try (apply S; reflexivity).
      destruct (client_take _ _ _); cbn [fst]; [apply S; reflexivity|apply static_refl].
    - pose proof (prim_step_static (m2_up st) p) as PS.
      destruct (prim_step g policy (m2_up st) p) as [[u' ev] oc]. cbn [fst] in *.
      destruct oc as [p'|v|z]; try exact PS.
      destruct (settle g policy SETTLE u' (ARet v k)) as [p' k'|r|z]; cbn [apply_settled]; try exact PS.
      unfold ufinish. destruct c as [fr rq| | |]; try exact PS. destruct r as [[a b]|e|z]; exact PS.
  Qed.

  Lemma check_static u u' f r : static_eq u u' -> check g u' f r = check g u f r.
  Proof. intros (_ & A & B & _). unfold check. rewrite A, B. reflexivity. Qed.
  Lemma call_valid2_static u u' c : static_eq u u' -> call_valid2 u c -> call_valid2 u' c.
  Proof.
    intros SE (V & P). split.
    - destruct c as [fr r|f r| |m ch];
        [exact (call_idx_ok_static u u' SE (UGet fr r) V)|exact (call_idx_ok_static u u' SE (UPut f r) V)|exact V|].
      destruct V as [V1 V2]. split; [exact V1|]. intros c0 E0. rewrite (proj1 (proj2 SE)). exact (V2 c0 E0).
    - destruct c; try exact P. rewrite (check_static _ _ _ _ SE). exact P.
  Qed.

  (* schedules: every call that may be started has valid parameters with respect to the static configuration *)
  Definition sched_valid (u : upper) (sch : list (nat * ucall)) : Prop :=
    Forall (fun tc => call_valid2 u (snd tc)) sch.
  Lemma sched_valid_static u u' sch : static_eq u u' -> sched_valid u sch -> sched_valid u' sch.
  Proof. intros SE. apply Forall_impl. intros tc. apply call_valid2_static. exact SE. Qed.

  Definition gstep (x : m2state * list N) (tc : nat * ucall) : m2state * list N :=
    (fst (ustep g policy (fst x) (fst tc) (snd tc)), goff (snd x) (fst x) (fst tc)).
  Definition grun (sch : list (nat * ucall)) (x : m2state * list N) : m2state * list N := fold_left gstep sch x.

  Lemma grun_fst sch : forall x, fst (grun sch x) = urun g policy sch (fst x).
  Proof.
    induction sch as [|tc sch IH]; intros x; [reflexivity|].
    change (grun (tc :: sch) x) with (grun sch (gstep x tc)). rewrite IH. reflexivity.
  Qed.

  Theorem grun_inv sch : forall st o, UInv o st -> sched_valid (m2_up st) sch ->
    UInv (snd (grun sch (st, o))) (fst (grun sch (st, o))).
  Proof.
    induction sch as [|[t c] sch IH]; intros st o UI SV; [exact UI|]. inversion SV as [|? ? V1 V2]; subst. cbn [snd] in V1.
    change (grun ((t, c) :: sch) (st, o)) with (grun sch (fst (ustep g policy st t c), goff o st t)). apply IH.
    - apply ustep_inv; assumption.
    - exact (sched_valid_static _ _ _ (ustep_static st t c) V2).
  Qed.

  (* without change_tree the ghost never changes *)
  Definition no_change (c : ucall) : Prop := match c with UChange _ _ => False | _ => True end.
  Definition thr_nochange (x : uthr) : Prop := match x with URun c _ _ => no_change c | _ => True end.
  Lemma ustep_nochange st t c0 :
    no_change c0 -> Forall thr_nochange (m2_pool st) -> Forall thr_nochange (m2_pool (fst (ustep g policy st t c0))).
  Proof.
    intros N F. unfold ustep. destruct (nth_error (m2_pool st) t) as [[l|c p k|z c]|] eqn:Ht; try exact F.
    - assert (S : forall s1, m2_pool s1 = m2_pool st -> forall x, Forall thr_nochange (m2_pool (apply_settled s1 t c0 x))).
      { intros s1 E x. destruct x as [p k|r|z]; cbn [apply_settled].
        - cbn. rewrite E. apply Forall_upd; [exact F|exact N].
        - unfold ufinish. assert (Q : Forall thr_nochange (upd (m2_pool s1) t (UIdle (Some r)))) by (rewrite E; apply Forall_upd; [exact F|exact I]).
          destruct c0 as [fr rq| | |]; try exact Q. destruct r as [[a b]|e|z]; exact Q.
        - cbn. rewrite E. apply Forall_upd; [exact F|exact I]. }
      destruct c0 as [fr r|f r| |m ch]; cbn [fst]; try (apply S; reflexivity).
      destruct (client_take _ _ _); cbn [fst]; [apply S; reflexivity|exact F].
    - pose proof (Forall_nth_error _ _ _ _ F Ht) as Nc. cbn [thr_nochange] in Nc.
      destruct (prim_step g policy (m2_up st) p) as [[u' ev] oc]. cbn [fst].
      destruct oc as [p'|v|z]; try (cbn; apply Forall_upd; [exact F|try exact Nc; exact I]).
      destruct (settle g policy SETTLE u' (ARet v k)) as [p' k'|r|z]; cbn [apply_settled]; try (cbn; apply Forall_upd; [exact F|try exact Nc; exact I]).
      unfold ufinish. assert (Q : Forall thr_nochange (upd (m2_pool st) t (UIdle (Some r)))) by (apply Forall_upd; [exact F|exact I]).
      destruct c as [fr rq| | |]; try exact Q. destruct r as [[a b]|e|z]; exact Q.
  Qed.

  Lemma grun_nochange sch : forall st o, UInv o st -> sched_valid (m2_up st) sch ->
    Forall (fun tc => no_change (snd tc)) sch -> Forall thr_nochange (m2_pool st) ->
    snd (grun sch (st, o)) = o.
  Proof.
    induction sch as [|[t c] sch IH]; intros st o UI SV NC F; [reflexivity|].
    inversion SV as [|? ? V1 V2]; subst. inversion NC as [|? ? N1 N2]; subst. cbn [snd] in V1, N1.
    change (grun ((t, c) :: sch) (st, o)) with (grun sch (fst (ustep g policy st t c), goff o st t)).
    assert (Eo : goff o st t = o).
    { destruct (list_eq_dec N.eq_dec (goff o st t) o) as [E|Ne]; [exact E|exfalso].
      destruct (goff_change o st t UI Ne) as (m & ch & p & k & Ht).
      pose proof (Forall_nth_error _ _ _ _ F Ht) as Q. exact Q. }
    rewrite Eo. apply IH.
    - rewrite <- Eo. apply ustep_inv; assumption.
    - exact (sched_valid_static _ _ _ (ustep_static st t c) V2).
    - exact N2.
    - apply ustep_nochange; assumption.
  Qed.

End Main.
