(* Shared lemmas about the primitives of the upper allocator model (Upper.v), used by
   UpperPutProofs / UpperStatsProofs / UpperGetProofs* and (through UpperConcUIC.v) by the concurrent proofs.
   - geometry facts
   - list structure of `all_slots` / `slots_of` under `set_slot`
   - named policy hypotheses
   - `UpperInvC credit inhand x`: UpperInv generalised with an explicit per-tree credit (frames the
     caller holds: taken from a counter but not yet taken from / already returned to the lower
     allocator) and a list of in-hand reservations (tree, class, free) that no slot holds;
     `UpperInvL L`: the same with the clause about the lower state left open (`L`)
   - one transformer lemma per primitive, for any `L` that bounds tree_free by TREE_FRAMES. *)
From Coq Require Import List NArith Bool Lia Permutation PeanoNat.
From LLF Require Import Base Row Bitfield Lower Spec Upper UpperInvDef LowerFacts.

Ltac splits := repeat match goal with |- _ /\ _ => split end.

Section Geo.
  Variable g : geom.
  Hypothesis WF : wf_geom g.
  Notation TF := (TF g).

  Lemma TF_pos : 0 < TF.
  Proof. unfold Bitfield.TF, THUGE, HF. apply N.mul_pos_pos; apply N.neq_0_lt_0, N.pow_nonzero; lia. Qed.

  Lemma TF_pow : TF = pow2 (tord g).
  Proof. unfold Bitfield.TF, THUGE, HF, pow2, tord. rewrite <- N.pow_add_r. f_equal. lia. Qed.

  Lemma TF_64 : exists q, TF = q * 64 /\ 0 < q.
  Proof.
    destruct WF as (H6 & _).
    exists (THUGE g * 2 ^ N.of_nat (hord g - 6)). split.
    - unfold Bitfield.TF, HF. rewrite <- N.mul_assoc. f_equal.
      change 64 with (2 ^ 6). rewrite <- N.pow_add_r. f_equal. lia.
    - apply N.mul_pos_pos; apply N.neq_0_lt_0, N.pow_nonzero; lia.
  Qed.

  Lemma pow2_le_TF k : (k <= tord g)%nat -> pow2 k <= TF.
  Proof. intros. rewrite TF_pow. unfold pow2. apply N.pow_le_mono_r; lia. Qed.

  Lemma row_tree_tree_row t : row_tree g (tree_row g t) = t.
  Proof.
    unfold row_tree, tree_row. destruct TF_64 as (q & E & Q). rewrite E.
    rewrite N.mul_assoc, N.div_mul by lia. rewrite <- N.mul_assoc. rewrite N.div_mul; lia.
  Qed.

  Lemma tree_row_64 t : tree_row g t * 64 = t * TF.
  Proof.
    unfold tree_row. destruct TF_64 as (q & E & Q). rewrite E.
    rewrite N.mul_assoc, N.div_mul by lia. reflexivity.
  Qed.

  Lemma ntab_lt fr t : t < ntab g fr <-> t * TF < fr.
  Proof.
    unfold ntab, div_ceil. pose proof TF_pos. split; intros.
    - destruct (N.lt_ge_cases (t * TF) fr); auto. exfalso.
      assert ((fr + TF - 1) / TF < t + 1). { apply N.div_lt_upper_bound; nia. } lia.
    - assert (t + 1 <= (fr + TF - 1) / TF). { apply N.div_le_lower_bound; nia. } lia.
  Qed.

  Lemma div_lt_ntab fr f : f < fr -> f / TF < ntab g fr.
  Proof.
    intros. apply ntab_lt. pose proof TF_pos.
    pose proof (N.mul_div_le f TF). nia.
  Qed.
End Geo.

Lemma upd_app_mid {A} (l1 l2 : list A) x y : upd (l1 ++ x :: l2) (length l1) y = l1 ++ y :: l2.
Proof. induction l1; cbn; auto. f_equal; auto. Qed.

Lemma flat_map_ext_in' {A B} (f h : A -> list B) l :
  (forall a, In a l -> f a = h a) -> flat_map f l = flat_map h l.
Proof. induction l; cbn; intros; auto. rewrite H by auto. f_equal. auto. Qed.

Section Slots.
  Variable g : geom.

  Definition slot_at (u : upper) (c j : N) : option slot :=
    match class_slots u c with Some l => nth_error l (nn j) | None => None end.
  Lemma slot_at_inv u c j s : slot_at u c j = Some s ->
    exists l, class_slots u c = Some l /\ nth_error l (nn j) = Some s.
  Proof. unfold slot_at. destruct (class_slots u c); try discriminate. eauto. Qed.

  Lemma class_slots_lt u c l : length (locals u) = 8%nat -> class_slots u c = Some l -> c < 8.
  Proof.
    unfold class_slots. intros L H. destruct (nth_error (locals u) (nn c)) eqn:E; try discriminate.
    assert (nn c < length (locals u))%nat by (apply nth_error_Some; congruence). unfold nn in *. lia.
  Qed.

  Lemma all_slots_ext u u' : locals u = locals u' -> all_slots u = all_slots u'.
  Proof. unfold all_slots, class_slots. intros ->. reflexivity. Qed.
  Lemma class_slots_ext u u' c : locals u = locals u' -> class_slots u c = class_slots u' c.
  Proof. unfold class_slots. intros ->. reflexivity. Qed.

  Lemma class_slots_set_slot_same u c j s l :
    class_slots u c = Some l -> class_slots (set_slot u c j s) c = Some (upd l (nn j) s).
  Proof.
    intros H. unfold set_slot. rewrite H. unfold class_slots in *. cbn [locals with_locals].
    destruct (nth_error (locals u) (nn c)) eqn:E; try discriminate.
    rewrite nth_error_upd_same; auto. apply nth_error_Some; congruence.
  Qed.
  Lemma class_slots_set_slot_other u c c' j s :
    c' <> c -> class_slots (set_slot u c j s) c' = class_slots u c'.
  Proof.
    intros H. unfold set_slot. destruct (class_slots u c) eqn:E; auto.
    unfold class_slots. cbn [locals with_locals]. rewrite nth_error_upd_other; auto.
    unfold nn. lia.
  Qed.
  Lemma class_slots_set_slot_none u c c' j s :
    class_slots (set_slot u c j s) c' = None <-> class_slots u c' = None.
  Proof.
    destruct (N.eq_dec c' c) as [->|N].
    - destruct (class_slots u c) eqn:E.
      + erewrite class_slots_set_slot_same by eauto. split; discriminate.
      + unfold set_slot. rewrite E. rewrite E. tauto.
    - rewrite class_slots_set_slot_other; tauto.
  Qed.
  Lemma with_low_id u : with_low u (low u) = u.
  Proof. destruct u; reflexivity. Qed.
  Lemma set_slot_low u c j s : low (set_slot u c j s) = low u.
  Proof. unfold set_slot. destruct (class_slots u c); reflexivity. Qed.
  Lemma set_slot_trees u c j s : trees (set_slot u c j s) = trees u.
  Proof. unfold set_slot. destruct (class_slots u c); reflexivity. Qed.
  Lemma set_slot_dflt u c j s : dflt (set_slot u c j s) = dflt u.
  Proof. unfold set_slot. destruct (class_slots u c); reflexivity. Qed.
  Lemma set_slot_locals_len u c j s : length (locals (set_slot u c j s)) = length (locals u).
  Proof. unfold set_slot. destruct (class_slots u c); cbn; auto. apply upd_length. Qed.

  Lemma slot_at_set_slot_same u c j s : slot_at u c j <> None -> slot_at (set_slot u c j s) c j = Some s.
  Proof.
    unfold slot_at. intros H. destruct (class_slots u c) eqn:E; try congruence.
    erewrite class_slots_set_slot_same by eauto. apply nth_error_upd_same. apply nth_error_Some; auto.
  Qed.
  Lemma slot_at_set_slot_other u c j c' j' s : (c', j') <> (c, j) -> slot_at (set_slot u c j s) c' j' = slot_at u c' j'.
  Proof.
    unfold slot_at. intros H. destruct (N.eq_dec c' c) as [->|Nc].
    - destruct (class_slots u c) eqn:E.
      + erewrite class_slots_set_slot_same by eauto. apply nth_error_upd_other. unfold nn. intros Q.
        apply H. f_equal. lia.
      + unfold set_slot. rewrite E, E. auto.
    - rewrite class_slots_set_slot_other; auto.
  Qed.

  Lemma all_slots_split u c j l s :
    length (locals u) = 8%nat -> class_slots u c = Some l -> nth_error l (nn j) = Some s ->
    exists A B, all_slots u = A ++ (c, s) :: B /\
                forall s', all_slots (set_slot u c j s') = A ++ (c, s') :: B.
  Proof.
    intros L HC HS. pose proof (class_slots_lt _ _ _ L HC) as C8.
    destruct (nth_error_split _ _ HS) as (l1 & l2 & El & Ll1).
    set (F := fun (u : upper) (c : nat) => match class_slots u (N.of_nat c) with
                       | Some l => map (fun s => (N.of_nat c, s)) l | None => [] end).
    assert (E8 : seq 0 8 = seq 0 (nn c) ++ nn c :: seq (S (nn c)) (7 - nn c)).
    { replace 8%nat with (nn c + S (7 - nn c))%nat by (unfold nn; lia). rewrite seq_app. reflexivity. }
    exists (flat_map (F u) (seq 0 (nn c)) ++ map (fun s => (c, s)) l1),
           (map (fun s => (c, s)) l2 ++ flat_map (F u) (seq (S (nn c)) (7 - nn c))).
    assert (Fc : forall u' l', class_slots u' c = Some l' -> F u' (nn c) = map (fun s => (c, s)) l').
    { intros u' l' H. unfold F. unfold nn. rewrite N2Nat.id. rewrite H. reflexivity. }
    split.
    - unfold all_slots. fold (F u). rewrite E8, flat_map_app. cbn [flat_map].
      rewrite (Fc u l HC). rewrite El, map_app. cbn [map]. rewrite <- !app_assoc. reflexivity.
    - intros s'. unfold all_slots. fold (F (set_slot u c j s')). rewrite E8, flat_map_app. cbn [flat_map].
      rewrite (Fc _ _ (class_slots_set_slot_same u c j s' l HC)).
      rewrite El, <- Ll1, upd_app_mid, map_app. cbn [map]. rewrite <- !app_assoc.
      assert (X : forall a, a <> nn c -> F (set_slot u c j s') a = F u a).
      { intros a Ha. unfold F. rewrite class_slots_set_slot_other; auto. unfold nn in *. lia. }
      rewrite (flat_map_ext_in' (F (set_slot u c j s')) (F u) (seq 0 (nn c))).
      2:{ intros a Ha. apply X. apply in_seq in Ha. lia. }
      rewrite (flat_map_ext_in' (F (set_slot u c j s')) (F u) (seq (S (nn c)) _)).
      2:{ intros a Ha. apply X. apply in_seq in Ha. lia. }
      reflexivity.
  Qed.

  (* what slot (c, s) contributes to `slots_of .. t` (`one`) and to `present_slots` (`onep`): itself or nothing;
     `one_free` / `one_cnt` below: what it contributes to `sum_free` / `length` of `slots_of .. t` *)
  Definition one (c : N) (s : slot) (t : N) : list (N * slot) :=
    if s_pres s && (row_tree g (s_row s) =? t) then [(c, s)] else [].
  Definition onep (c : N) (s : slot) : list (N * slot) := if s_pres s then [(c, s)] else [].

  Lemma present_split u c j l s :
    length (locals u) = 8%nat -> class_slots u c = Some l -> nth_error l (nn j) = Some s ->
    exists X Y, present_slots u = X ++ onep c s ++ Y /\
                forall s', present_slots (set_slot u c j s') = X ++ onep c s' ++ Y.
  Proof.
    intros L HC HS. destruct (all_slots_split u c j l s L HC HS) as (A & B & E & E').
    exists (filter (fun cs => s_pres (snd cs)) A), (filter (fun cs => s_pres (snd cs)) B).
    unfold present_slots. split.
    - rewrite E, filter_app. cbn [filter snd]. unfold onep. destruct (s_pres s); reflexivity.
    - intros s'. rewrite E', filter_app. cbn [filter snd]. unfold onep. destruct (s_pres s'); reflexivity.
  Qed.

  Lemma slots_of_split u c j l s t :
    length (locals u) = 8%nat -> class_slots u c = Some l -> nth_error l (nn j) = Some s ->
    exists X Y, slots_of g u t = X ++ one c s t ++ Y /\
                forall s', slots_of g (set_slot u c j s') t = X ++ one c s' t ++ Y.
  Proof.
    intros L HC HS. destruct (present_split u c j l s L HC HS) as (A & B & E & E').
    exists (filter (fun cs => row_tree g (s_row (snd cs)) =? t) A),
           (filter (fun cs => row_tree g (s_row (snd cs)) =? t) B).
    unfold slots_of. split.
    - rewrite E, !filter_app. f_equal. f_equal. unfold onep, one.
      destruct (s_pres s); cbn [filter snd andb]; auto.
    - intros s'. rewrite E', !filter_app. f_equal. f_equal. unfold onep, one.
      destruct (s_pres s'); cbn [filter snd andb]; auto.
  Qed.

  Lemma sum_free_app a b : sum_free (a ++ b) = sum_free a + sum_free b.
  Proof. unfold sum_free. induction a; cbn [fold_right app]; try lia. Qed.

  Definition one_free (s : slot) (t : N) : N := if s_pres s && (row_tree g (s_row s) =? t) then s_free s else 0.
  Definition one_cnt (s : slot) (t : N) : nat := if s_pres s && (row_tree g (s_row s) =? t) then 1 else 0.
  Lemma sum_free_one c s t : sum_free (one c s t) = one_free s t.
  Proof. unfold one, one_free. destruct (_ && _); cbn; lia. Qed.
  Lemma length_one c s t : length (one c s t) = one_cnt s t.
  Proof. unfold one, one_cnt. destruct (_ && _); reflexivity. Qed.

  Lemma in_all_slots u c s : length (locals u) = 8%nat ->
    (In (c, s) (all_slots u) <-> exists j, slot_at u c j = Some s).
  Proof.
    intros L. unfold all_slots. rewrite in_flat_map. split.
    - intros (k & Hk & H). destruct (class_slots u (N.of_nat k)) eqn:E; [|destruct H].
      apply in_map_iff in H. destruct H as (s0 & Q & H). inversion Q; subst.
      apply In_nth_error in H. destruct H as (n & H). exists (N.of_nat n).
      unfold slot_at. rewrite E. unfold nn. rewrite Nat2N.id. auto.
    - intros (j & H). unfold slot_at in H. destruct (class_slots u c) eqn:E; try discriminate.
      pose proof (class_slots_lt _ _ _ L E). exists (nn c). split.
      + apply in_seq. unfold nn. lia.
      + unfold nn. rewrite N2Nat.id, E. apply in_map_iff. exists s. split; auto.
        eapply nth_error_In; eauto.
  Qed.
  Lemma in_one c0 s0 c s t : In (c0, s0) (one c s t) <->
    c0 = c /\ s0 = s /\ s_pres s = true /\ row_tree g (s_row s) = t.
  Proof.
    unfold one. destruct (s_pres s); cbn [andb].
    - destruct (N.eqb_spec (row_tree g (s_row s)) t); cbn [In]; split.
      + intros [H|[]]. inversion H; subst; splits; auto.
      + intros (-> & -> & _). auto.
      + tauto.
      + intros (_ & _ & _ & ?). contradiction.
    - cbn. split; [tauto|]. intros (_ & _ & ? & _). discriminate.
  Qed.
  Lemma in_slots_of u c s t : In (c, s) (slots_of g u t) <->
    In (c, s) (all_slots u) /\ s_pres s = true /\ row_tree g (s_row s) = t.
  Proof.
    unfold slots_of, present_slots. rewrite !filter_In. cbn [snd]. rewrite N.eqb_eq. tauto.
  Qed.
  Lemma in_present u c s : In (c, s) (present_slots u) <-> In (c, s) (all_slots u) /\ s_pres s = true.
  Proof. unfold present_slots. rewrite filter_In. cbn [snd]. tauto. Qed.

  (* in-hand reservations (tree, class, free): those of tree t, and their free counts summed *)
  Definition ih_of (ih : list (N * N * N)) (t : N) : list (N * N * N) :=
    filter (fun e => fst (fst e) =? t) ih.
  Definition ih_sum (l : list (N * N * N)) : N := fold_right (fun e a => snd e + a) 0 l.

  Lemma ih_of_app a b t : ih_of (a ++ b) t = ih_of a t ++ ih_of b t.
  Proof. apply filter_app. Qed.
  Lemma ih_sum_app a b : ih_sum (a ++ b) = ih_sum a + ih_sum b.
  Proof. unfold ih_sum. induction a; cbn [fold_right app]; lia. Qed.
  Lemma ih_of_cons t c f ih j :
    ih_of ((t, c, f) :: ih) j = if t =? j then (t, c, f) :: ih_of ih j else ih_of ih j.
  Proof. reflexivity. Qed.
  Lemma in_ih_of e ih t : In e (ih_of ih t) <-> In e ih /\ fst (fst e) = t.
  Proof. unfold ih_of. rewrite filter_In, N.eqb_eq. tauto. Qed.

  Definition resv_of (c : N) (s : slot) : list (N * N * N) :=
    if s_pres s then [(row_tree g (s_row s), c, s_free s)] else [].
  Lemma resv_of_len c s t : length (ih_of (resv_of c s) t) = one_cnt s t.
  Proof. unfold resv_of, one_cnt. destruct (s_pres s); cbn [ih_of filter fst andb]; auto. destruct (_ =? t); auto. Qed.
  Lemma resv_of_sum c s t : ih_sum (ih_of (resv_of c s) t) = one_free s t.
  Proof.
    unfold resv_of, one_free. destruct (s_pres s); cbn [ih_of filter fst andb]; auto.
    destruct (_ =? t); cbn; lia.
  Qed.
  Lemma in_resv_of t c0 f c s : In (t, c0, f) (resv_of c s) <->
    s_pres s = true /\ t = row_tree g (s_row s) /\ c0 = c /\ f = s_free s.
  Proof.
    unfold resv_of. destruct (s_pres s); cbn [In]; split.
    - intros [H|[]]. inversion H; subst; splits; auto.
    - intros (_ & -> & -> & ->). auto.
    - tauto.
    - intros (? & _). discriminate.
  Qed.
  Lemma ih_of_perm a b t : Permutation a b -> Permutation (ih_of a t) (ih_of b t).
  Proof.
    induction 1; cbn [ih_of filter]; auto.
    - destruct (_ =? t); auto.
    - destruct (fst (fst x) =? t), (fst (fst y) =? t); auto. apply perm_swap.
    - eapply perm_trans; eauto.
  Qed.
  Lemma ih_sum_perm a b : Permutation a b -> ih_sum a = ih_sum b.
  Proof. unfold ih_sum. induction 1; cbn [fold_right]; lia. Qed.

  Lemma tree_at_lt u i t : tree_at u i = Some t -> i < ntrees u.
  Proof.
    unfold tree_at, ntrees. intros H.
    assert (nn i < length (trees u))%nat by (apply nth_error_Some; congruence). unfold nn in *. lia.
  Qed.
  Lemma tree_at_some u i : i < ntrees u -> exists t, tree_at u i = Some t.
  Proof.
    unfold tree_at, ntrees. intros H. destruct (nth_error (trees u) (nn i)) eqn:E; eauto.
    apply nth_error_None in E. unfold nn in *. lia.
  Qed.
  Lemma tree_at_set_tree_same u i t t' : tree_at u i = Some t -> tree_at (set_tree u i t') i = Some t'.
  Proof.
    unfold tree_at, set_tree. cbn [trees with_trees]. intros H. apply nth_error_upd_same.
    apply nth_error_Some; congruence.
  Qed.
  Lemma tree_at_set_tree_other u i j t' : j <> i -> tree_at (set_tree u i t') j = tree_at u j.
  Proof.
    unfold tree_at, set_tree. cbn [trees with_trees]. intros H. apply nth_error_upd_other. unfold nn. lia.
  Qed.
  Lemma ntrees_set_tree u i t' : ntrees (set_tree u i t') = ntrees u.
  Proof. unfold ntrees, set_tree. cbn [trees with_trees]. rewrite upd_length. reflexivity. Qed.
  Lemma ntrees_set_slot u c j s : ntrees (set_slot u c j s) = ntrees u.
  Proof. unfold ntrees. rewrite set_slot_trees. reflexivity. Qed.

End Slots.

(* what `check` accepts: the only error is EArgument, no panic *)
Lemma check_inv g u frame r :
  match check g u frame r with
  | Ok _ => (r_order r <= tord g)%nat /\ frame + pow2 (r_order r) <= frames (low u) /\
            aligned frame (r_order r) = true /\ class_slots u (r_class r) <> None
  | Err e => e = EArgument
  | Panic _ => False
  end.
Proof.
  unfold check.
  destruct (Nat.leb (r_order r) (tord g)) eqn:E1; cbn [negb]; auto.
  destruct ((frame + pow2 (r_order r) <? W64) && (frame + pow2 (r_order r) <=? frames (low u))) eqn:E2; cbn [negb]; auto.
  destruct (frame mod pow2 (r_order r) =? 0) eqn:E3; cbn [negb]; auto.
  unfold class_locals. destruct (class_slots u (r_class r)) eqn:E4; cbn [option_map]; auto.
  apply Nat.leb_le in E1. apply andb_true_iff in E2. destruct E2 as (_ & E2). apply N.leb_le in E2.
  splits; auto. congruence.
Qed.

Definition pol_kind (p : pol) : N :=
  match p with PMatch _ => 0 | PDemote => 1 | PSteal => 2 | PInvalid => 3 end.
Definition pol_refl_match (policy : N -> N -> N -> pol) : Prop :=
  forall c f, pol_is_match (policy c c f) = true.
Definition pol_kind_indep (policy : N -> N -> N -> pol) : Prop :=
  forall r t f f', pol_kind (policy r t f) = pol_kind (policy r t f').
Definition pol_demote_trans (policy : N -> N -> N -> pol) : Prop :=
  forall a b c f f', policy a b f = PDemote -> pol_keeps (policy b c f') = true ->
                     pol_keeps (policy a c f') = true.
Definition pol_never_invalid (policy : N -> N -> N -> pol) : Prop :=
  forall r t f, pol_is_invalid (policy r t f) = false.

Section InvC.
  Variable g : geom.
  Variable policy : N -> N -> N -> pol.
  Hypothesis WF : wf_geom g.
  Notation TF := (TF g).

  Definition tree_okC (u : upper) (offs : list N) (cr : N -> N) (ih : list (N * N * N))
             (i : nat) (t : tree) : Prop :=
    let ti := N.of_nat i in
    let sl := slots_of g u ti in
    (length sl + length (ih_of ih ti) = if t_res t then 1 else 0)%nat /\
    t_free t + sum_free sl + nth i offs 0 + cr ti + ih_sum (ih_of ih ti) = tree_free g (low u) ti /\
    class_slots u (t_class t) <> None /\
    (forall c s, In (c, s) sl -> forall f, pol_keeps (policy c (t_class t) f) = true) /\
    (forall c f0, In (ti, c, f0) ih -> forall f, pol_keeps (policy c (t_class t) f) = true).

  Definition UpperInvC (cr : N -> N) (ih : list (N * N * N)) (x : ustate) : Prop :=
    let u := us x in
    LowerInv g (low u) /\
    length (trees u) = nn (ntab g (frames (low u))) /\
    length (off x) = length (trees u) /\
    length (locals u) = 8%nat /\
    class_slots u (dflt u) <> None /\
    (forall i t, nth_error (trees u) i = Some t -> tree_okC u (off x) cr ih i t) /\
    (forall c s, In (c, s) (present_slots u) ->
       row_tree g (s_row s) < ntrees u /\ s_row s * 64 < frames (low u) /\ s_free s <= TF) /\
    (forall t c f, In (t, c, f) ih -> t < ntrees u /\ class_slots u c <> None).

  (* `UpperInvC` with its first clause, the one about the lower state alone, left open.  `LowerInv g` for `L`
     gives `UpperInvC` (by conversion: see `UIC_ext`); while lower calls are in flight only `tf_bound` holds of the lower state (`UIC2`,
     UpperConcInvDef.v).  The primitives need nothing of `L` but `tf_bound`, so each lemma below is proved
     once, for any `L`. *)
  Definition UpperRest (cr : N -> N) (ih : list (N * N * N)) (x : ustate) : Prop :=
    let u := us x in
    length (trees u) = nn (ntab g (frames (low u))) /\
    length (off x) = length (trees u) /\
    length (locals u) = 8%nat /\
    class_slots u (dflt u) <> None /\
    (forall i t, nth_error (trees u) i = Some t -> tree_okC u (off x) cr ih i t) /\
    (forall c s, In (c, s) (present_slots u) ->
       row_tree g (s_row s) < ntrees u /\ s_row s * 64 < frames (low u) /\ s_free s <= TF) /\
    (forall t c f, In (t, c, f) ih -> t < ntrees u /\ class_slots u c <> None).

  Definition UpperInvL (L : lower -> Prop) (cr : N -> N) (ih : list (N * N * N)) (x : ustate) : Prop :=
    L (low (us x)) /\ UpperRest cr ih x.

  Definition tf_bound (l : lower) : Prop := forall t, t < ntab g (frames l) -> tree_free g l t <= TF.

  Lemma UIL_mono (L L' : lower -> Prop) cr ih x :
    (L (low (us x)) -> L' (low (us x))) -> UpperInvL L cr ih x -> UpperInvL L' cr ih x.
  Proof. intros HL (H1 & H). exact (conj (HL H1) H). Qed.

  (* open the goal `UpperInvL ..` into its clauses *)
  Ltac splitsL := unfold UpperInvL, UpperRest, tree_okC; cbv zeta; splits.

  Theorem UpperInv_C0 x : UpperInv g policy x <-> UpperInvC (fun _ => 0) [] x.
  Proof.
    unfold UpperInv, UpperInvC. split.
    - intros (H1 & H2 & H3 & H4 & H5 & H6 & H7). splits; auto.
      + intros i t Hi. destruct (H6 i t Hi) as (A & B & C & D). unfold tree_okC.
        cbn [ih_of filter length ih_sum fold_right].
        splits; auto; try lia; try (destruct (t_res t); lia); try (intros ? ? []).
      + intros ? ? ? [].
    - intros (H1 & H2 & H3 & H4 & H5 & H6 & H7 & _). splits; auto.
      intros i t Hi. destruct (H6 i t Hi) as (A & B & C & D & _). unfold tree_ok.
      cbn [ih_of filter length ih_sum fold_right] in *.
      splits; auto; try lia; try (destruct (t_res t); lia).
  Qed.

  Lemma UpperInv_to_L x : UpperInv g policy x -> UpperInvL (LowerInv g) (fun _ => 0) [] x.
  Proof. exact (proj1 (UpperInv_C0 x)). Qed.
  Lemma UpperInv_of_L x : UpperInvL (LowerInv g) (fun _ => 0) [] x -> UpperInv g policy x.
  Proof. exact (proj2 (UpperInv_C0 x)). Qed.

  Lemma tree_okC_ext u u' offs cr ih i t :
    locals u = locals u' -> low u = low u' -> tree_okC u offs cr ih i t -> tree_okC u' offs cr ih i t.
  Proof.
    intros L W. unfold tree_okC, slots_of, present_slots.
    rewrite (all_slots_ext _ _ L), W, (class_slots_ext _ _ (t_class t) L). auto.
  Qed.

  Lemma UIL_ext L cr cr' ih x : (forall t, cr t = cr' t) -> UpperInvL L cr ih x -> UpperInvL L cr' ih x.
  Proof.
    intros E (H1 & H2 & H3 & H4 & H5 & H6 & H7 & H8). splitsL; auto.
    intros i t Hi. destruct (H6 i t Hi) as (A & B & C & D & F). unfold tree_okC. rewrite <- E. repeat split; auto.
  Qed.

  Lemma UIC_ext cr cr' ih x : (forall t, cr t = cr' t) -> UpperInvC cr ih x -> UpperInvC cr' ih x.
  Proof. exact (UIL_ext (LowerInv g) cr cr' ih x). Qed.

  Lemma UIL_perm L cr ih ih' x : Permutation ih ih' -> UpperInvL L cr ih x -> UpperInvL L cr ih' x.
  Proof.
    intros P (H1 & H2 & H3 & H4 & H5 & H6 & H7 & H8). splitsL; auto.
    - intros i t Hi. destruct (H6 i t Hi) as (A & B & C & D & F). unfold tree_okC.
      pose proof (ih_of_perm _ _ (N.of_nat i) P) as P'.
      rewrite <- (Permutation_length P'), <- (ih_sum_perm _ _ P'). repeat split; auto.
      intros c f0 Hin. apply (F c f0). eapply Permutation_in; [apply Permutation_sym|]; eauto.
    - intros t c f Hin. eapply H8. eapply Permutation_in; [apply Permutation_sym|]; eauto.
  Qed.

  Lemma UIC_perm cr ih ih' x : Permutation ih ih' -> UpperInvC cr ih x -> UpperInvC cr ih' x.
  Proof. exact (UIL_perm (LowerInv g) cr ih ih' x). Qed.

  (* the free count of the first in-hand reservation against the credit of its tree *)
  Lemma UIL_ih_credit L cr cr' t c f f' ih x :
    UpperInvL L cr ((t, c, f) :: ih) x ->
    (forall j, cr' j + delta j t f' = cr j + delta j t f) ->
    UpperInvL L cr' ((t, c, f') :: ih) x.
  Proof.
    intros (H1 & H2 & H3 & H4 & H5 & H6 & H7 & H8) E. splitsL; auto.
    - intros i t0 Hi. destruct (H6 i t0 Hi) as (A & B & C & D & F). unfold tree_okC.
      rewrite ih_of_cons in *. specialize (E (N.of_nat i)). unfold delta in E. rewrite (N.eqb_sym (N.of_nat i)) in E.
      destruct (t =? N.of_nat i) eqn:Et; cbn [length ih_sum fold_right snd] in *.
      + repeat split; auto; try lia.
        intros c0 f0 [Q|Q]; [inversion Q; subst; eapply F; left; reflexivity | eapply F; right; eauto].
      + repeat split; auto; try lia.
        intros c0 f0 [Q|Q]; [inversion Q; subst; rewrite N.eqb_refl in Et; discriminate | eapply F; right; eauto].
    - intros t0 c0 f0 [Q|Q]; [inversion Q; subst; eapply (H8 t0 c0 f); left; reflexivity | eapply H8; right; eauto].
  Qed.
End InvC.

Section Trans.
  Variable g : geom.
  Variable policy : N -> N -> N -> pol.
  Variable L : lower -> Prop.
  Notation TF := (TF g).
  Notation UIL := (UpperInvL g policy L).

  Definition mk (x : ustate) (u' : upper) : ustate := {| us := u'; off := off x |}.

  Lemma mk_id x : mk x (us x) = x.
  Proof. destruct x; reflexivity. Qed.

  (* a tree entry is rewritten (together with the credit / in-hand list of that tree); the ghost `off`
     list may change at index i as well (change_tree) *)
  Lemma UIL_set_tree_off cr cr' ih ih' x i t t' offs' :
    UIL cr ih x -> tree_at (us x) i = Some t ->
    length offs' = length (off x) ->
    (forall k, k <> nn i -> nth k offs' 0 = nth k (off x) 0) ->
    (forall j, j <> i -> cr' j = cr j) ->
    (forall j, j <> i -> ih_of ih' j = ih_of ih j) ->
    tree_okC g policy (us x) offs' cr' ih' (nn i) t' ->
    (forall t0 c f, In (t0, c, f) ih' -> t0 < ntrees (us x) /\ class_slots (us x) c <> None) ->
    UIL cr' ih' {| us := set_tree (us x) i t'; off := offs' |}.
  Proof.
    intros (H1 & H2 & H3 & H4 & H5 & H6 & H7 & H8) Ht Hlo Hoffs Ecr Eih Hok Hih.
    unfold UpperInvL, UpperRest. cbn [us off]. cbv zeta.
    cbn [low set_tree with_trees trees locals dflt]. rewrite upd_length.
    splits; auto.
    - congruence.
    - intros k tk Hk. destruct (Nat.eq_dec k (nn i)) as [->|Nk].
      + unfold tree_at in Ht. rewrite nth_error_upd_same in Hk by (apply nth_error_Some; congruence).
        inversion Hk; subst tk. eapply tree_okC_ext; [| |apply Hok]; reflexivity.
      + rewrite nth_error_upd_other in Hk by auto.
        assert (Nk' : N.of_nat k <> i) by (unfold nn in *; lia).
        destruct (H6 k tk Hk) as (A & B & C & D & F).
        eapply tree_okC_ext with (u := us x); [reflexivity|reflexivity|].
        unfold tree_okC. rewrite Ecr, Eih, Hoffs by auto. splits; auto.
        intros c f0 Hin. apply (F c f0).
        assert (Q : In (N.of_nat k, c, f0) (ih_of ih' (N.of_nat k))) by (apply in_ih_of; auto).
        rewrite Eih in Q by auto. apply in_ih_of in Q. tauto.
    - intros c s Hin. rewrite ntrees_set_tree. apply (H7 c s).
      unfold present_slots in *. erewrite all_slots_ext; eauto.
    - intros t0 c f Hin. rewrite ntrees_set_tree.
      destruct (Hih t0 c f Hin). split; auto.
  Qed.

  Lemma UIL_set_tree cr cr' ih ih' x i t t' :
    UIL cr ih x -> tree_at (us x) i = Some t ->
    (forall j, j <> i -> cr' j = cr j) ->
    (forall j, j <> i -> ih_of ih' j = ih_of ih j) ->
    tree_okC g policy (us x) (off x) cr' ih' (nn i) t' ->
    (forall t0 c f, In (t0, c, f) ih' -> t0 < ntrees (us x) /\ class_slots (us x) c <> None) ->
    UIL cr' ih' (mk x (set_tree (us x) i t')).
  Proof. intros H Ht. apply UIL_set_tree_off with (t := t); auto. Qed.

  (* the lower allocator state is replaced *)
  Lemma UIL_with_low cr cr' ih x l' :
    UIL cr ih x -> L l' -> frames l' = frames (low (us x)) ->
    (forall t, t < ntrees (us x) -> tree_free g l' t + cr t = tree_free g (low (us x)) t + cr' t) ->
    UIL cr' ih (mk x (with_low (us x) l')).
  Proof.
    intros (H1 & H2 & H3 & H4 & H5 & H6 & H7 & H8) HL HF E.
    unfold UpperInvL, UpperRest, mk. cbn [us off]. cbv zeta. cbn [low with_low trees locals dflt]. rewrite HF.
    splits; auto.
    intros k tk Hk. destruct (H6 k tk Hk) as (A & B & C & D & F).
    assert (Lk : N.of_nat k < ntrees (us x)).
    { unfold ntrees. assert (k < length (trees (us x)))%nat by (apply nth_error_Some; congruence). lia. }
    specialize (E _ Lk).
    unfold tree_okC. cbn [low with_low]. cbv zeta.
    change (slots_of g (with_low (us x) l') (N.of_nat k)) with (slots_of g (us x) (N.of_nat k)).
    change (class_slots (with_low (us x) l') (t_class tk)) with (class_slots (us x) (t_class tk)).
    splits; auto. lia.
  Qed.

  (* a present slot keeps its tree, its free count (and start row) change *)
  Lemma UIL_slot_free cr cr' ih x c j s s' :
    UIL cr ih x -> slot_at (us x) c j = Some s -> s_pres s = true -> s_pres s' = true ->
    row_tree g (s_row s') = row_tree g (s_row s) ->
    s_row s' * 64 < frames (low (us x)) -> s_free s' <= TF ->
    (forall t, cr' t + delta t (row_tree g (s_row s)) (s_free s') =
               cr t + delta t (row_tree g (s_row s)) (s_free s)) ->
    UIL cr' ih (mk x (set_slot (us x) c j s')).
  Proof.
    intros (H1 & H2 & H3 & H4 & H5 & H6 & H7 & H8) Hs P P' ET Hrow Hfree E.
    destruct (slot_at_inv _ _ _ _ Hs) as (l & HC & HN).
    unfold UpperInvL, UpperRest, mk. cbn [us off]. cbv zeta.
    rewrite set_slot_low, set_slot_trees, set_slot_dflt, set_slot_locals_len, ntrees_set_slot.
    splits; auto.
    - rewrite class_slots_set_slot_none. auto.
    - intros k tk Hk. destruct (H6 k tk Hk) as (A & B & C & D & F).
      destruct (slots_of_split g (us x) c j l s (N.of_nat k) H4 HC HN) as (X & Y & E1 & E2).
      unfold tree_okC. cbv zeta. rewrite set_slot_low, class_slots_set_slot_none, (E2 s').
      rewrite E1 in A, B, D. rewrite !app_length, !length_one in *. rewrite !sum_free_app, !sum_free_one in *.
      specialize (E (N.of_nat k)). unfold delta in E.
      unfold one_cnt, one_free in *. rewrite P, P', ET in *. cbn [andb] in *.
      rewrite (N.eqb_sym (N.of_nat k)) in E.
      splits; auto.
      + destruct (row_tree g (s_row s) =? N.of_nat k); lia.
      + intros c0 s0 Hin. apply in_app_or in Hin. destruct Hin as [Hin|Hin].
        * apply (D c0 s0). apply in_or_app. auto.
        * apply in_app_or in Hin. destruct Hin as [Hin|Hin].
          -- apply in_one in Hin. destruct Hin as (-> & -> & _ & Q). apply (D c s).
             apply in_or_app. right. apply in_or_app. left. apply in_one. rewrite <- ET. auto.
          -- apply (D c0 s0). apply in_or_app. right. apply in_or_app. auto.
    - intros c0 s0 Hin.
      destruct (present_split (us x) c j l s H4 HC HN) as (X & Y & E1 & E2).
      rewrite (E2 s') in Hin. rewrite E1 in H7. unfold onep in *. rewrite P in H7. rewrite P' in Hin.
      apply in_app_or in Hin. destruct Hin as [Hin|Hin].
      + apply (H7 c0 s0). apply in_or_app. auto.
      + destruct Hin as [Hin|Hin].
        * inversion Hin; subst c0 s0. splits; auto. rewrite ET. apply (H7 c s). apply in_or_app. right. left. auto.
        * apply (H7 c0 s0). apply in_or_app. right. right. auto.
    - intros t c0 f Hin. rewrite class_slots_set_slot_none. apply (H8 t c0 f Hin).
  Qed.

  (* a slot is overwritten: the new content comes out of the in-hand list, the old one goes in *)
  Lemma UIL_slot_xchg cr ih x c j s s' :
    slot_at (us x) c j = Some s ->
    (s_pres s' = true -> s_row s' * 64 < frames (low (us x)) /\ s_free s' <= TF) ->
    UIL cr (resv_of g c s' ++ ih) x ->
    UIL cr (resv_of g c s ++ ih) (mk x (set_slot (us x) c j s')).
  Proof.
    intros Hs Hb (H1 & H2 & H3 & H4 & H5 & H6 & H7 & H8).
    destruct (slot_at_inv _ _ _ _ Hs) as (l & HC & HN).
    unfold UpperInvL, UpperRest, mk. cbn [us off]. cbv zeta.
    rewrite set_slot_low, set_slot_trees, set_slot_dflt, set_slot_locals_len, ntrees_set_slot.
    splits; auto.
    - rewrite class_slots_set_slot_none. auto.
    - intros k tk Hk. destruct (H6 k tk Hk) as (A & B & C & D & F).
      destruct (slots_of_split g (us x) c j l s (N.of_nat k) H4 HC HN) as (X & Y & E1 & E2).
      unfold tree_okC. cbv zeta. rewrite set_slot_low, class_slots_set_slot_none, (E2 s').
      rewrite E1 in A, B, D. rewrite !ih_of_app in *. rewrite !ih_sum_app in *.
      rewrite !app_length, !length_one, !resv_of_len in *.
      rewrite !sum_free_app, !sum_free_one, !resv_of_sum in *.
      splits; auto; try lia.
      + intros c0 s0 Hin. apply in_app_or in Hin. destruct Hin as [Hin|Hin].
        * apply (D c0 s0). apply in_or_app. auto.
        * apply in_app_or in Hin. destruct Hin as [Hin|Hin].
          -- apply in_one in Hin. destruct Hin as (-> & -> & Q1 & Q2). apply (F c (s_free s')).
             apply in_or_app. left. apply in_resv_of. auto.
          -- apply (D c0 s0). apply in_or_app. right. apply in_or_app. auto.
      + intros c0 f0 Hin. apply in_app_or in Hin. destruct Hin as [Hin|Hin].
        * apply in_resv_of in Hin. destruct Hin as (Q1 & Q2 & -> & ->). apply (D c s).
          apply in_or_app. right. apply in_or_app. left. apply in_one. auto.
        * apply (F c0 f0). apply in_or_app. auto.
    - intros c0 s0 Hin.
      destruct (present_split (us x) c j l s H4 HC HN) as (X & Y & E1 & E2).
      rewrite (E2 s') in Hin. rewrite E1 in H7. unfold onep in *.
      apply in_app_or in Hin. destruct Hin as [Hin|Hin].
      + apply (H7 c0 s0). apply in_or_app. auto.
      + apply in_app_or in Hin. destruct Hin as [Hin|Hin].
        * destruct (s_pres s') eqn:P'; [|destruct Hin]. destruct Hin as [Hin|[]].
          inversion Hin; subst c0 s0. destruct (Hb eq_refl). splits; auto.
          apply (H8 (row_tree g (s_row s')) c (s_free s')). apply in_or_app. left. apply in_resv_of. auto.
        * apply (H7 c0 s0). apply in_or_app. right. apply in_or_app. auto.
    - intros t c0 f Hin. rewrite class_slots_set_slot_none. apply in_app_or in Hin. destruct Hin as [Hin|Hin].
      + apply in_resv_of in Hin. destruct Hin as (Q1 & -> & -> & ->). split; [|congruence].
        apply (H7 c s). rewrite in_present. split; auto. apply in_all_slots; eauto.
      + apply (H8 t c0 f). apply in_or_app. auto.
  Qed.
End Trans.

Section TreeOk.
  Variable g : geom.
  Variable policy : N -> N -> N -> pol.
  Notation TF := (TF g).

  Lemma tree_okC_nn u offs cr ih i t :
    tree_okC g policy u offs cr ih (nn i) t <->
    ((length (slots_of g u i) + length (ih_of ih i) = if t_res t then 1 else 0)%nat /\
     t_free t + sum_free (slots_of g u i) + nth (nn i) offs 0 + cr i + ih_sum (ih_of ih i)
       = tree_free g (low u) i /\
     class_slots u (t_class t) <> None /\
     (forall c s, In (c, s) (slots_of g u i) -> forall f, pol_keeps (policy c (t_class t) f) = true) /\
     (forall c f0, In (i, c, f0) ih -> forall f, pol_keeps (policy c (t_class t) f) = true)).
  Proof. unfold tree_okC, nn. rewrite N2Nat.id. reflexivity. Qed.

  Lemma okC_same_class u offs offs' cr cr' ih k t t' :
    tree_okC g policy u offs cr ih k t -> t_res t' = t_res t -> t_class t' = t_class t ->
    t_free t' + nth k offs' 0 + cr' (N.of_nat k) = t_free t + nth k offs 0 + cr (N.of_nat k) ->
    tree_okC g policy u offs' cr' ih k t'.
  Proof.
    intros (A & B & C & D & F) R K E. unfold tree_okC. cbv zeta. rewrite R, K. splits; auto. lia.
  Qed.

  Lemma okC_unres u offs offs' cr cr' ih k t t' :
    tree_okC g policy u offs cr ih k t -> t_res t = false -> t_res t' = false ->
    class_slots u (t_class t') <> None ->
    t_free t' + nth k offs' 0 + cr' (N.of_nat k) = t_free t + nth k offs 0 + cr (N.of_nat k) ->
    tree_okC g policy u offs' cr' ih k t'.
  Proof.
    intros (A & B & C & D & F) R R' K E. unfold tree_okC. cbv zeta. rewrite R in A. rewrite R'.
    assert (L1 : slots_of g u (N.of_nat k) = []) by (apply length_zero_iff_nil; lia).
    assert (L2 : ih_of ih (N.of_nat k) = []) by (apply length_zero_iff_nil; lia).
    splits; auto; try lia.
    - intros c s Hin. rewrite L1 in Hin. destruct Hin.
    - intros c f0 Hin. assert (Q : In (N.of_nat k, c, f0) (ih_of ih (N.of_nat k))) by (apply in_ih_of; auto).
      rewrite L2 in Q. destruct Q.
  Qed.

  Lemma okC_fresh u offs cr ih k t' :
    slots_of g u (N.of_nat k) = [] -> ih_of ih (N.of_nat k) = [] -> t_res t' = false ->
    class_slots u (t_class t') <> None ->
    t_free t' + nth k offs 0 + cr (N.of_nat k) = tree_free g (low u) (N.of_nat k) ->
    tree_okC g policy u offs cr ih k t'.
  Proof.
    intros L1 L2 R C E. unfold tree_okC. cbv zeta. rewrite L1, L2, R. cbn [length sum_free ih_sum fold_right].
    splits; auto; try lia; try (intros c s []).
    intros c f0 Hin. assert (Q : In (N.of_nat k, c, f0) (ih_of ih (N.of_nat k))) by (apply in_ih_of; auto).
    rewrite L2 in Q. destruct Q.
  Qed.

End TreeOk.

Section PrimFacts.
  Variable g : geom.
  Variable policy : N -> N -> N -> pol.
  Notation TF := (TF g).

  Lemma tree_put_ok d t free : t_free t + free <= TF ->
    tree_put g policy d t free =
    Ok {| t_free := t_free t + free; t_res := t_res t;
          t_class := if (t_free t + free =? TF) && negb (t_res t) &&
                        negb (pol_is_invalid (policy (t_class t) d (t_free t + free)))
                     then d else t_class t |}.
  Proof. intros H. unfold tree_put. apply N.ltb_ge in H. rewrite H. reflexivity. Qed.

  Lemma slot_at_present u c j s : length (locals u) = 8%nat -> slot_at u c j = Some s -> s_pres s = true ->
    In (c, s) (present_slots u).
  Proof. intros L H P. apply in_present. split; auto. apply in_all_slots; eauto. Qed.

  Definition idx_ok (u : upper) (c j : N) : Prop :=
    forall l, class_slots u c = Some l -> j < N.of_nat (length l).

  Lemma idx_ok_slot u c j l : idx_ok u c j -> class_slots u c = Some l -> exists s, nth_error l (nn j) = Some s.
  Proof.
    intros H E. specialize (H l E). destruct (nth_error l (nn j)) eqn:En; eauto.
    apply nth_error_None in En. unfold nn in En. lia.
  Qed.

  Lemma sum_free_in c s l : In (c, s) l -> s_free s <= sum_free l.
  Proof.
    unfold sum_free. induction l as [|a l IH]; cbn [In fold_right]; [intros []|].
    intros [->|H]; cbn [snd]; [lia|]. specialize (IH H). lia.
  Qed.
End PrimFacts.

Section Prims.
  Variable g : geom.
  Variable policy : N -> N -> N -> pol.
  Hypothesis WF : wf_geom g.
  Variable L : lower -> Prop.
  Hypothesis LB : forall l, L l -> tf_bound g l.
  Notation TF := (TF g).
  Notation UIL := (UpperInvL g policy L).

  Lemma UIL_lower cr ih x : UIL cr ih x -> L (low (us x)).
  Proof. intros (H1 & _). exact H1. Qed.

  Lemma UIL_tree cr ih x i t : UIL cr ih x -> tree_at (us x) i = Some t ->
    tree_okC g policy (us x) (off x) cr ih (nn i) t.
  Proof. intros (H1 & H2 & H3 & H4 & H5 & H6 & H7 & H8) Ht. apply H6. exact Ht. Qed.

  Lemma UIL_tree_at cr ih x i t : UIL cr ih x -> tree_at (us x) i = Some t ->
    (length (slots_of g (us x) i) + length (ih_of ih i) = if t_res t then 1 else 0)%nat /\
    t_free t + sum_free (slots_of g (us x) i) + nth (nn i) (off x) 0 + cr i + ih_sum (ih_of ih i)
      = tree_free g (low (us x)) i /\
    class_slots (us x) (t_class t) <> None /\
    (forall c s, In (c, s) (slots_of g (us x) i) -> forall f, pol_keeps (policy c (t_class t) f) = true) /\
    (forall c f0, In (i, c, f0) ih -> forall f, pol_keeps (policy c (t_class t) f) = true).
  Proof. intros H Ht. apply tree_okC_nn, (UIL_tree _ _ _ _ _ H Ht). Qed.

  Lemma UIL_ntrees cr ih x : UIL cr ih x -> ntrees (us x) = ntab g (frames (low (us x))).
  Proof. intros (H1 & H2 & _). unfold ntrees. rewrite H2. unfold nn. apply N2Nat.id. Qed.

  Lemma UIL_tree_free_le cr ih x i : UIL cr ih x -> i < ntrees (us x) -> tree_free g (low (us x)) i <= TF.
  Proof.
    intros H Hi. rewrite (UIL_ntrees _ _ _ H) in Hi. destruct H as (H1 & _). exact (LB _ H1 _ Hi).
  Qed.

  Lemma UIL_inhand cr ih x t c f : UIL cr ih x -> In (t, c, f) ih -> t < ntrees (us x) /\ class_slots (us x) c <> None.
  Proof. intros (H1 & H2 & H3 & H4 & H5 & H6 & H7 & H8). apply H8. Qed.
  Lemma UIL_dflt cr ih x : UIL cr ih x -> class_slots (us x) (dflt (us x)) <> None.
  Proof. intros (H1 & H2 & H3 & H4 & H5 & _). exact H5. Qed.
  Lemma UIL_len8 cr ih x : UIL cr ih x -> length (locals (us x)) = 8%nat.
  Proof. intros (H1 & H2 & H3 & H4 & _). exact H4. Qed.

  Lemma UIL_slot cr ih x c j s : UIL cr ih x -> slot_at (us x) c j = Some s -> s_pres s = true ->
    row_tree g (s_row s) < ntrees (us x) /\ s_row s * 64 < frames (low (us x)) /\ s_free s <= TF.
  Proof.
    intros H Hs P. pose proof (UIL_len8 _ _ _ H) as L8.
    destruct H as (H1 & H2 & H3 & H4 & H5 & H6 & H7 & H8). apply (H7 c s). eapply slot_at_present; eauto.
  Qed.

  Lemma UIL_set_tree_cr cr cr' ih x i t t' :
    UIL cr ih x -> tree_at (us x) i = Some t ->
    (forall j, j <> i -> cr' j = cr j) ->
    tree_okC g policy (us x) (off x) cr' ih (nn i) t' ->
    UIL cr' ih (mk x (set_tree (us x) i t')).
  Proof. intros H Ht E Hok. eapply UIL_set_tree; eauto. intros t0 c f. eapply UIL_inhand; eauto. Qed.

  Lemma delta_other j i n : j <> i -> delta j i n = 0.
  Proof. intros H. unfold delta. apply N.eqb_neq in H. rewrite H. reflexivity. Qed.

  (* `put`: `free` frames of the caller's credit for tree i go to the tree counter *)
  Lemma trees_put_L cr cr' ih x i free r u' :
    UIL cr ih x -> i < ntrees (us x) -> free <= cr i ->
    (forall j, cr' j + delta j i free = cr j) ->
    trees_put g policy (us x) i free = (r, u') ->
    r = Ok tt /\ UIL cr' ih (mk x u') /\
    exists t t', tree_at (us x) i = Some t /\ tree_put g policy (dflt (us x)) t free = Ok t' /\
                 t_free t' = t_free t + free /\ t_res t' = t_res t /\
                 u' = set_tree (us x) i t'.
  Proof.
    intros H Hi Hf E Hp. destruct (tree_at_some _ _ Hi) as (t & Ht).
    pose proof (UIL_tree _ _ _ _ _ H Ht) as Hok. pose proof (UIL_tree_free_le _ _ _ _ H Hi) as Hle.
    pose proof Hok as Hok'. apply tree_okC_nn in Hok'. destruct Hok' as (A & B & C & D & F).
    assert (Hb : t_free t + free <= TF) by lia.
    unfold trees_put in Hp. rewrite Ht, (tree_put_ok _ _ _ _ _ Hb) in Hp. inversion Hp; subst r u'. clear Hp.
    split; auto. split.
    - eapply UIL_set_tree_cr; eauto. { intros j Hj. specialize (E j). rewrite (delta_other _ _ _ Hj) in E. lia. }
      pose proof (E i) as Ei. unfold delta in Ei. rewrite N.eqb_refl in Ei.
      destruct ((t_free t + free =? TF) && negb (t_res t) &&
                negb (pol_is_invalid (policy (t_class t) (dflt (us x)) (t_free t + free)))) eqn:Ec.
      + apply andb_true_iff in Ec. destruct Ec as (Ec & _). apply andb_true_iff in Ec. destruct Ec as (_ & Ec).
        apply negb_true_iff in Ec.
        eapply okC_unres; eauto; cbn [t_free t_res t_class].
        * eapply UIL_dflt; eauto.
        * unfold nn. rewrite N2Nat.id. lia.
      + eapply okC_same_class; eauto; cbn [t_free t_res t_class]. unfold nn. rewrite N2Nat.id. lia.
    - eexists _, _. splits; eauto using tree_put_ok.
  Qed.

  (* `sync`: the counter of a reserved tree goes to the caller's credit *)
  Lemma trees_sync_L cr ih x i min r u' :
    UIL cr ih x -> i < ntrees (us x) ->
    trees_sync (us x) i min = (r, u') ->
    (r = Ok None /\ u' = us x) \/
    (exists t, tree_at (us x) i = Some t /\ t_res t = true /\ min <= t_free t /\
               r = Ok (Some (t_free t)) /\
               u' = set_tree (us x) i {| t_free := 0; t_res := true; t_class := t_class t |} /\
               forall cr', (forall j, cr' j = cr j + delta j i (t_free t)) -> UIL cr' ih (mk x u')).
  Proof.
    intros H Hi Hp. destruct (tree_at_some _ _ Hi) as (t & Ht).
    pose proof (UIL_tree _ _ _ _ _ H Ht) as Hok.
    unfold trees_sync in Hp. rewrite Ht in Hp. unfold tree_sync_steal in Hp.
    destruct (t_res t && (min <=? t_free t)) eqn:Ec; inversion Hp; subst r u'; clear Hp; auto.
    apply andb_true_iff in Ec. destruct Ec as (R & M). apply N.leb_le in M. right.
    exists t. rewrite R. splits; auto.
    intros cr' E. eapply UIL_set_tree_cr; eauto.
    - intros j Hj. rewrite E, (delta_other _ _ _ Hj). lia.
    - eapply okC_same_class; eauto; cbn [t_free t_res t_class]; auto.
      unfold nn. rewrite N2Nat.id, E. unfold delta. rewrite N.eqb_refl. lia.
  Qed.

  (* `steal`: `free` frames of an unreserved tree go to the caller's credit *)
  Lemma trees_steal_L cr ih x i class free r u' :
    UIL cr ih x -> i < ntrees (us x) -> class_slots (us x) class <> None ->
    trees_steal policy (us x) i class free = (r, u') ->
    (r = Ok None /\ u' = us x) \/
    (exists t t', tree_at (us x) i = Some t /\ t_res t = false /\ free <= t_free t /\
               tree_steal policy t class free = Some t' /\
               t_free t' = t_free t - free /\ t_res t' = false /\
               (t_class t' = class \/ t_class t' = t_class t) /\
               r = Ok (Some (t_class t')) /\ u' = set_tree (us x) i t' /\
               forall cr', (forall j, cr' j = cr j + delta j i free) -> UIL cr' ih (mk x u')).
  Proof.
    intros H Hi Hc Hp. destruct (tree_at_some _ _ Hi) as (t & Ht).
    pose proof (UIL_tree _ _ _ _ _ H Ht) as Hok. pose proof Hok as Hok'. apply tree_okC_nn in Hok'.
    destruct Hok' as (A & B & C & D & F).
    unfold trees_steal in Hp. rewrite Ht in Hp.
    destruct (tree_steal policy t class free) as [t'|] eqn:Es; inversion Hp; subst r u'; clear Hp; auto.
    right. pose proof Es as Es0. unfold tree_steal in Es.
    destruct ((free <=? t_free t) && negb (t_res t)) eqn:Ec; try discriminate.
    apply andb_true_iff in Ec. destruct Ec as (M & R). apply N.leb_le in M. apply negb_true_iff in R.
    assert (Q : t_free t' = t_free t - free /\ t_res t' = false /\
                (t_class t' = class \/ t_class t' = t_class t)).
    { destruct (policy class (t_class t) free); inversion Es; subst t'; cbn [t_free t_res t_class]; auto. }
    destruct Q as (Q1 & Q2 & Q3).
    exists t, t'. splits; auto.
    intros cr' E. eapply UIL_set_tree_cr; eauto.
    - intros j Hj. rewrite E, (delta_other _ _ _ Hj). lia.
    - eapply okC_unres; eauto.
      + destruct Q3 as [-> | ->]; auto.
      + unfold nn. rewrite N2Nat.id, E. unfold delta. rewrite N.eqb_refl. lia.
  Qed.

  (* `reserve_or_steal`: either the whole counter becomes an in-hand reservation of `class`, or
     `free` frames go to the credit *)
  Lemma trees_reserve_or_steal_L cr ih x i class free r u' :
    pol_refl_match policy ->
    UIL cr ih x -> i < ntrees (us x) -> class_slots (us x) class <> None ->
    trees_reserve_or_steal policy (us x) i class free = (r, u') ->
    (r = Ok None /\ u' = us x) \/
    (exists t, tree_at (us x) i = Some t /\ t_res t = false /\ free <= t_free t /\
       ((pol_keeps (policy class (t_class t) free) = true /\
         r = Ok (Some (true, t_free t, class)) /\
         u' = set_tree (us x) i {| t_free := 0; t_res := true; t_class := class |} /\
         UIL cr ((i, class, t_free t) :: ih) (mk x u')) \/
        (policy class (t_class t) free = PSteal /\
         r = Ok (Some (false, t_free t, t_class t)) /\
         u' = set_tree (us x) i {| t_free := t_free t - free; t_res := false; t_class := t_class t |} /\
         forall cr', (forall j, cr' j = cr j + delta j i free) -> UIL cr' ih (mk x u')))).
  Proof.
    intros PR H Hi Hc Hp. destruct (tree_at_some _ _ Hi) as (t & Ht).
    pose proof (UIL_tree _ _ _ _ _ H Ht) as Hok. pose proof Hok as Hok'. apply tree_okC_nn in Hok'.
    destruct Hok' as (A & B & C & D & F).
    unfold trees_reserve_or_steal in Hp. rewrite Ht in Hp. unfold tree_reserve_or_steal in Hp.
    destruct ((free <=? t_free t) && negb (t_res t)) eqn:Ec.
    2:{ inversion Hp; auto. }
    apply andb_true_iff in Ec. destruct Ec as (M & R). apply N.leb_le in M. apply negb_true_iff in R.
    rewrite R in A.
    assert (L1 : slots_of g (us x) i = []) by (apply length_zero_iff_nil; lia).
    assert (L2 : ih_of ih i = []) by (apply length_zero_iff_nil; lia).
    assert (RES : forall r u', (r, u') = (Ok (Some (true, t_free t, class)),
                   set_tree (us x) i {| t_free := 0; t_res := true; t_class := class |}) ->
              r = Ok (Some (true, t_free t, class)) /\
              u' = set_tree (us x) i {| t_free := 0; t_res := true; t_class := class |} /\
              UIL cr ((i, class, t_free t) :: ih) (mk x u')).
    { intros r0 u0 Q. inversion Q; subst r0 u0. splits; auto.
      eapply UIL_set_tree; eauto.
      - intros j Hj. rewrite ih_of_cons. apply N.eqb_neq in Hj. rewrite N.eqb_sym, Hj. reflexivity.
      - apply tree_okC_nn. rewrite ih_of_cons, N.eqb_refl, L1, L2. cbn [t_free t_res t_class length ih_sum fold_right snd sum_free].
        rewrite L1, L2 in B. cbn [sum_free ih_sum fold_right] in B.
        splits; auto; try lia.
        intros c f0 [Q0|Q0] f.
        * inversion Q0 as [[Hc1 Hc2]]. rewrite <- ?Hc1. specialize (PR class f). destruct (policy class class f); try discriminate. reflexivity.
        * assert (Q' : In (i, c, f0) (ih_of ih i)) by (apply in_ih_of; auto). rewrite L2 in Q'. destruct Q'.
      - intros t0 c f [Q0|Q0].
        + inversion Q0 as [[Hc0 Hc1 Hc2]]. rewrite <- Hc0, <- Hc1. auto.
        + eapply UIL_inhand; eauto. }
    destruct (policy class (t_class t) free) eqn:Ep; inversion Hp; subst r u'; clear Hp; auto; right; exists t; splits; auto.
    - left. split; auto. rewrite Ep. reflexivity.
    - left. split; auto. rewrite Ep. reflexivity.
    - right. rewrite R. splits; auto. intros cr' E. eapply UIL_set_tree_cr; eauto.
      + intros j Hj. rewrite E, (delta_other _ _ _ Hj). lia.
      + eapply okC_unres; eauto; cbn [t_free t_res t_class]; auto.
        unfold nn. rewrite N2Nat.id, E. unfold delta. rewrite N.eqb_refl. lia.
  Qed.

  (* `unreserve`: an in-hand reservation goes back to the (then unreserved) tree *)
  Lemma trees_unreserve_L cr ih x i free class r u' :
    UIL cr ((i, class, free) :: ih) x ->
    trees_unreserve g policy (us x) i free class = (r, u') ->
    r = Ok tt /\ UIL cr ih (mk x u') /\
    exists t t', tree_at (us x) i = Some t /\ t_res t = true /\ t_free t' = t_free t + free /\
                 t_res t' = false /\ u' = set_tree (us x) i t'.
  Proof.
    intros H Hp. destruct (UIL_inhand _ _ _ i class free H (or_introl eq_refl)) as (Hi & Hc).
    destruct (tree_at_some _ _ Hi) as (t & Ht).
    pose proof (UIL_tree_free_le _ _ _ _ H Hi) as Hle.
    destruct (UIL_tree_at _ _ _ _ _ H Ht) as (A & B & C & D & F).
    rewrite ih_of_cons, N.eqb_refl in A, B. cbn [length ih_sum fold_right snd] in A, B.
    assert (R : t_res t = true) by (destruct (t_res t); auto; lia). rewrite R in A.
    assert (L1 : slots_of g (us x) i = []) by (apply length_zero_iff_nil; lia).
    assert (L2 : ih_of ih i = []) by (apply length_zero_iff_nil; lia).
    rewrite L1, L2 in B. cbn [sum_free fold_right] in B.
    pose proof (F class free (or_introl eq_refl) free) as K.
    unfold trees_unreserve, tree_unreserve_add in Hp. rewrite Ht, R in Hp.
    assert (G : forall cls, class_slots (us x) cls <> None ->
              exists t', tree_put g policy (dflt (us x)) {| t_free := t_free t; t_res := false; t_class := cls |} free = Ok t' /\
                         t_free t' = t_free t + free /\ t_res t' = false /\
                         UIL cr ih (mk x (set_tree (us x) i t'))).
    { intros cls Hcls. eexists. split; [apply tree_put_ok; cbn [t_free]; lia|]. cbn [t_free t_res t_class]. splits; auto.
      eapply UIL_set_tree; eauto.
      - intros j Hj. rewrite ih_of_cons. apply N.eqb_neq in Hj. rewrite N.eqb_sym, Hj. reflexivity.
      - unfold nn. apply okC_fresh; rewrite ?N2Nat.id; auto; cbn [t_free t_res t_class].
        + destruct (_ && _); auto. eapply UIL_dflt; eauto.
        + fold (nn i). lia.
      - intros t0 c f Q. eapply UIL_inhand; eauto. right. exact Q. }
    destruct (policy class (t_class t) free) eqn:Ep; try discriminate.
    - destruct (G (t_class t) C) as (t' & E1 & E2 & E3 & E4). rewrite E1 in Hp. inversion Hp; subst r u'.
      splits; auto. exists t, t'. splits; auto.
    - destruct (G class Hc) as (t' & E1 & E2 & E3 & E4). rewrite E1 in Hp. inversion Hp; subst r u'.
      splits; auto. exists t, t'. splits; auto.
  Qed.

  Lemma locals_get_L cr ih x c j tree n r u' :
    UIL cr ih x -> idx_ok (us x) c j ->
    locals_get g (us x) c j tree n = (r, u') ->
    match r with
    | LRow row =>
        exists s, slot_at (us x) c j = Some s /\ s_pres s = true /\ row = s_row s /\ n <= s_free s /\
          (forall t, tree = Some t -> row_tree g row = t) /\
          row_tree g row < ntrees (us x) /\ row * 64 < frames (low (us x)) /\
          u' = set_slot (us x) c j {| s_pres := true; s_row := s_row s; s_free := s_free s - n |} /\
          forall cr', (forall t, cr' t = cr t + delta t (row_tree g row) n) -> UIL cr' ih (mk x u')
    | LResv rv =>
        u' = us x /\
        exists s, slot_at (us x) c j = Some s /\ s_pres s = true /\ rv = slot_resv s c /\
          ((exists t, tree = Some t /\ row_tree g (s_row s) <> t) \/ s_free s < n)
    | LNone =>
        u' = us x /\
        (class_slots (us x) c = None \/ exists s, slot_at (us x) c j = Some s /\ s_pres s = false)
    | LPanic _ => False
    end.
  Proof.
    intros H Hidx Hp. unfold locals_get in Hp.
    destruct (class_slots (us x) c) as [l|] eqn:HC.
    2:{ inversion Hp; subst. auto. }
    destruct (idx_ok_slot _ _ _ _ Hidx HC) as (s & Hs). rewrite Hs in Hp.
    assert (Hat : slot_at (us x) c j = Some s) by (unfold slot_at; rewrite HC; auto).
    unfold slot_get in Hp.
    destruct (s_pres s) eqn:P; cbn [andb] in Hp.
    2:{ inversion Hp; subst. split; auto. right. eauto. }
    destruct (UIL_slot _ _ _ _ _ _ H Hat P) as (B1 & B2 & B3).
    destruct (match tree with Some i => row_tree g (s_row s) =? i | None => true end) eqn:Et.
    - destruct (n <=? s_free s) eqn:En.
      + apply N.leb_le in En. inversion Hp; subst r u'. clear Hp. exists s. splits; auto.
        * intros t ->. apply N.eqb_eq in Et. auto.
        * intros cr' E. eapply UIL_slot_free; eauto; cbn [s_pres s_row s_free]; auto; try lia.
          intros t. rewrite E. unfold delta. destruct (t =? row_tree g (s_row s)); lia.
      + apply N.leb_gt in En. inversion Hp; subst r u'. clear Hp. split; auto. exists s. splits; auto.
    - inversion Hp; subst r u'. clear Hp. split; auto. exists s. splits; auto. left.
      destruct tree as [t|]; try discriminate. exists t. split; auto. apply N.eqb_neq. auto.
  Qed.

  Lemma locals_put_L cr ih x c j tree n r u' :
    UIL cr ih x -> idx_ok (us x) c j -> n <= cr tree ->
    locals_put g (us x) c j tree n = (r, u') ->
    (r = Ok false /\ u' = us x /\
       (class_slots (us x) c = None \/
        exists s, slot_at (us x) c j = Some s /\ (s_pres s = false \/ row_tree g (s_row s) <> tree))) \/
    (r = Ok true /\ exists s, slot_at (us x) c j = Some s /\ s_pres s = true /\ row_tree g (s_row s) = tree /\
       u' = set_slot (us x) c j {| s_pres := true; s_row := s_row s; s_free := s_free s + n |} /\
       forall cr', (forall t, cr' t + delta t tree n = cr t) -> UIL cr' ih (mk x u')).
  Proof.
    intros H Hidx Hn Hp. unfold locals_put in Hp.
    destruct (class_slots (us x) c) as [l|] eqn:HC.
    2:{ inversion Hp; subst. auto. }
    destruct (idx_ok_slot _ _ _ _ Hidx HC) as (s & Hs). rewrite Hs in Hp.
    assert (Hat : slot_at (us x) c j = Some s) by (unfold slot_at; rewrite HC; auto).
    unfold slot_put in Hp.
    destruct (s_pres s) eqn:P; cbn [andb] in Hp.
    2:{ inversion Hp; subst. left. splits; auto. right. eauto. }
    destruct (N.eqb_spec (row_tree g (s_row s)) tree) as [Et|Et].
    2:{ inversion Hp; subst. left. splits; auto. right. eauto. }
    destruct (UIL_slot _ _ _ _ _ _ H Hat P) as (B1 & B2 & B3).
    rewrite Et in B1. destruct (tree_at_some _ _ B1) as (t & Ht).
    pose proof (UIL_tree_free_le _ _ _ _ H B1) as Hle.
    destruct (UIL_tree_at _ _ _ _ _ H Ht) as (A & B & _).
    assert (Hin : In (c, s) (slots_of g (us x) tree)).
    { apply in_slots_of. splits; auto. apply in_all_slots; eauto using UIL_len8. }
    pose proof (sum_free_in _ _ _ Hin) as Hsf.
    assert (Hb : s_free s + n <= TF) by lia. apply N.leb_le in Hb. rewrite Hb in Hp.
    inversion Hp; subst r u'. clear Hp. right. split; auto. exists s. splits; auto.
    intros cr' E. eapply UIL_slot_free; eauto; cbn [s_pres s_row s_free]; auto.
    - apply N.leb_le in Hb. auto.
    - intros t0. rewrite Et. specialize (E t0). unfold delta in *. destruct (t0 =? tree); lia.
  Qed.

  Lemma locals_swap_L cr ih x c j tree n r u' :
    UIL cr ((tree, c, n) :: ih) x -> idx_ok (us x) c j ->
    locals_swap g (us x) c j tree n = (r, u') ->
    exists s, slot_at (us x) c j = Some s /\
      r = Ok (if s_pres s then Some (slot_resv s c) else None) /\
      u' = set_slot (us x) c j {| s_pres := true; s_row := tree_row g tree; s_free := n |} /\
      UIL cr (resv_of g c s ++ ih) (mk x u').
  Proof.
    intros H Hidx Hp. destruct (UIL_inhand _ _ _ tree c n H (or_introl eq_refl)) as (Hi & Hc).
    unfold locals_swap in Hp.
    destruct (class_slots (us x) c) as [l|] eqn:HC; [|congruence].
    destruct (idx_ok_slot _ _ _ _ Hidx HC) as (s & Hs). rewrite Hs in Hp.
    assert (Hat : slot_at (us x) c j = Some s) by (unfold slot_at; rewrite HC; auto).
    inversion Hp; subst r u'. clear Hp. exists s. splits; auto.
    destruct (tree_at_some _ _ Hi) as (t & Ht).
    pose proof (UIL_tree_free_le _ _ _ _ H Hi) as Hle.
    destruct (UIL_tree_at _ _ _ _ _ H Ht) as (A & B & _).
    rewrite ih_of_cons, N.eqb_refl in B. cbn [ih_sum fold_right snd] in B.
    apply UIL_slot_xchg; auto.
    - intros _. cbn [s_row s_free]. split; [|lia]. rewrite (tree_row_64 g WF).
      apply (ntab_lt g). rewrite <- (UIL_ntrees _ _ _ H). exact Hi.
    - unfold resv_of. cbn [s_pres s_row s_free app]. rewrite (row_tree_tree_row g WF). exact H.
  Qed.

  Lemma locals_set_start_L cr ih x c j row r u' :
    UIL cr ih x -> idx_ok (us x) c j -> row * 64 < frames (low (us x)) ->
    locals_set_start g (us x) c j row = (r, u') ->
    r = Ok tt /\ UIL cr ih (mk x u') /\
    (u' = us x \/ exists s, slot_at (us x) c j = Some s /\ s_pres s = true /\
                   row_tree g (s_row s) = row_tree g row /\
                   u' = set_slot (us x) c j {| s_pres := true; s_row := row; s_free := s_free s |}).
  Proof.
    intros H Hidx Hr Hp. unfold locals_set_start in Hp.
    destruct (class_slots (us x) c) as [l|] eqn:HC.
    2:{ inversion Hp; subst. rewrite mk_id. auto. }
    destruct (idx_ok_slot _ _ _ _ Hidx HC) as (s & Hs). rewrite Hs in Hp.
    assert (Hat : slot_at (us x) c j = Some s) by (unfold slot_at; rewrite HC; auto).
    unfold slot_set_start in Hp.
    destruct (s_pres s && (row_tree g (s_row s) =? row_tree g row) && negb (s_row s =? row)) eqn:Ec.
    2:{ inversion Hp; subst. rewrite mk_id. auto. }
    apply andb_true_iff in Ec. destruct Ec as (Ec & _). apply andb_true_iff in Ec. destruct Ec as (P & Et).
    apply N.eqb_eq in Et. inversion Hp; subst r u'. clear Hp.
    destruct (UIL_slot _ _ _ _ _ _ H Hat P) as (B1 & B2 & B3).
    splits; auto.
    - eapply UIL_slot_free; eauto; cbn [s_pres s_row s_free]; auto.
    - right. exists s. splits; auto.
  Qed.
End Prims.

(* The sequential invariant is `UpperInvL` at `LowerInv g`, whose bound is `lf_tree_free`. *)
Lemma lf_bound g : lower_facts g -> forall l, LowerInv g l -> tf_bound g l.
Proof. intros LF l H t Ht. apply (lf_tree_free g LF _ _ H Ht). Qed.

(* U2 and U3 for a tree that no slot holds: it is unreserved and its counter is its whole visible free count.
   This is the case after a drain (no present slot at all) and for every unreserved tree. *)
Section NoSlot.
  Variable g : geom.
  Variable policy : N -> N -> N -> pol.

  Lemma UpperInv_tree x i t : UpperInv g policy x -> tree_at (us x) i = Some t ->
    (if t_res t then length (slots_of g (us x) i) = 1%nat else length (slots_of g (us x) i) = 0%nat) /\
    t_free t + sum_free (slots_of g (us x) i) + nth (nn i) (off x) 0 = tree_free g (low (us x)) i.
  Proof.
    intros (_ & _ & _ & _ & _ & HT & _) Ht. destruct (HT (nn i) t Ht) as (A & B & _).
    unfold nn in A, B at 1 3. rewrite N2Nat.id in A, B. auto.
  Qed.

  Lemma counter_no_slot x i t : UpperInv g policy x -> tree_at (us x) i = Some t -> slots_of g (us x) i = [] ->
    t_res t = false /\ t_free t + nth (nn i) (off x) 0 = tree_free g (low (us x)) i.
  Proof.
    intros HI Ht Hs. destruct (UpperInv_tree x i t HI Ht) as (A & B). rewrite Hs in A, B.
    cbn [length sum_free fold_right] in A, B. split; [destruct (t_res t); [discriminate|reflexivity]|lia].
  Qed.

  Lemma unres_no_slots x i t : UpperInv g policy x -> tree_at (us x) i = Some t -> t_res t = false ->
    slots_of g (us x) i = [].
  Proof.
    intros HI Ht Hr. destruct (UpperInv_tree x i t HI Ht) as (A & _). rewrite Hr in A.
    apply length_zero_iff_nil, A.
  Qed.

  Lemma counter_unres x i t : UpperInv g policy x -> tree_at (us x) i = Some t -> t_res t = false ->
    t_free t + nth (nn i) (off x) 0 = tree_free g (low (us x)) i.
  Proof. intros HI Ht Hr. apply (counter_no_slot x i t HI Ht (unres_no_slots x i t HI Ht Hr)). Qed.

  Lemma no_present_slots u i : present_slots u = [] -> slots_of g u i = [].
  Proof. intros H. unfold slots_of. rewrite H. reflexivity. Qed.
End NoSlot.
