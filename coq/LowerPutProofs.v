(* `lower_put` (lower.rs `Lower::put`, `put_small`, `partial_put_huge`) refines the ownership
   specification: under the invariant a free of an aligned in-range block succeeds exactly when the
   specification allows it, its effect on the abstract state is `spec_put`, the invariant is
   preserved, failures are `Err Memory` without a state change, and no panic site is reachable. *)
From Coq Require Import PeanoNat ZArith ZifyN ZifyBool.
From LLF Require Import Base BitLemmas Row RowProofs Bitfield Lower Spec AbsLemmas BitfieldPutProofs.
Local Open Scope N_scope.

Lemma lp_upd_upd {A} (l : list A) i x y : upd (upd l i x) i y = upd l i y.
Proof. revert i; induction l as [|a l IH]; intros [|i]; cbn [upd]; try reflexivity. f_equal. apply IH. Qed.

Section Put.
  Variable g : geom.
  Hypothesis WF : wf_geom g.

  (* the effect of a small put on the huge frame's pair (entry, bitfield), abstractly *)
  Lemma lp_small_update l f k e rows e' rows' :
    LowerInv g l -> f mod pow2 k = 0 -> f + pow2 k <= frames l -> (k < hord g)%nat ->
    ent l (f / HF g) = Some e -> bf l (f / HF g) = Some rows ->
    rows_ok g rows' ->
    (forall i, N.testbit (rows_bits rows') i =
       if (f mod HF g <=? i) && (i <? f mod HF g + pow2 k) then false
       else (e_huge e || N.testbit (rows_bits rows) i) && (i <? HF g)) ->
    e' = bf_count_zeros rows' ->
    let l' := set_bf (set_ent l (f / HF g) e') (f / HF g) rows' in
    LowerInv g l' /\ abs g l' = spec_put g (abs g l) f k.
  Proof.
    intros Inv Ha Hr Hk He Hb Hok' Hbits -> l'.
    pose proof (aligned_in_huge g f k ltac:(lia) Ha) as Hfit.
    pose proof (N.div_mod f (HF g) (HF_nz g)) as Df.
    destruct (cell_update g WF l _ e rows rows' _ _ false Inv He Hb Hok' Hfit ltac:(rewrite <- Df; exact Hr) Hbits)
      as (Inv' & Hal & Hwh).
    split; [exact Inv'|]. apply (abs_eq g WF _ _ Inv'); [reflexivity | |].
    - intros i. rewrite Hal, <- Df, spec_put_alloc_testbit, (abs_alloc_testbit g WF l Inv).
      destruct ((f <=? i) && (i <? f + pow2 k)); [rewrite andb_false_r | rewrite andb_true_r]; reflexivity.
    - intros x. rewrite Hwh, spec_put_whole_testbit, abs_whole_testbit_gen.
      destruct (Nat.leb_spec (hord g) k); [lia | reflexivity].
  Qed.

  (* clearing a block of set bits adds its size to the zero count *)
  Lemma lp_clear_count rows rows' p w : rows_ok g rows -> rows_ok g rows' ->
    (forall i, p <= i < p + w -> N.testbit (rows_bits rows) i = true) ->
    (forall i, N.testbit (rows_bits rows') i = if (p <=? i) && (i <? p + w) then false else N.testbit (rows_bits rows) i) ->
    bf_count_zeros rows' = bf_count_zeros rows + w.
  Proof.
    intros Hok Hok' Hset Hnew. apply (count_zeros_clear_block g WF rows rows' p w); try assumption.
    - apply land_blk_full. exact Hset.
    - apply N.bits_inj. intros i. rewrite Hnew, N.ldiff_spec, blk_testbit.
      destruct ((p <=? i) && (i <? p + w)); [rewrite andb_false_r | rewrite andb_true_r]; reflexivity.
  Qed.

  (* per-tree counter sums: a small put adds the block size to the entry of its huge frame *)
  Lemma lp_small_tree_free l f e e' rows' d :
    ent l (f / HF g) = Some e -> e_free e' = e_free e + d ->
    forall t, tree_free g (set_bf (set_ent l (f / HF g) e') (f / HF g) rows') t =
              tree_free g l t + (if t =? f / TF g then d else 0).
  Proof.
    intros He Hd t. pose proof (set_tree_free g l _ e e' rows' He t) as E. rewrite <- (div_TF g) in E.
    destruct (t =? f / TF g); lia.
  Qed.

  Definition put_outcome (l : lower) (f : N) (k : nat) : Prop :=
    (spec_put_enabled g (abs g l) f k = true /\
     exists l', lower_put g l f k = (Ok tt, l') /\
                (LowerInv g l' /\ abs g l' = spec_put g (abs g l) f k) /\
                frames l' = frames l /\
                (forall t, tree_free g l' t = tree_free g l t + (if t =? f / TF g then pow2 k else 0)))
    \/ (spec_put_enabled g (abs g l) f k = false /\ lower_put g l f k = (Err EMemory, l)).

  (* the specification's enabledness for a small block, read on the huge frame's pair *)
  Lemma lp_enabled_small l f k e rows :
    LowerInv g l -> f mod pow2 k = 0 -> f + pow2 k <= frames l -> (k < hord g)%nat ->
    ent l (f / HF g) = Some e -> bf l (f / HF g) = Some rows ->
    spec_put_enabled g (abs g l) f k = true <->
    (forall t, f mod HF g <= t < f mod HF g + pow2 k -> e_huge e || N.testbit (rows_bits rows) t = true).
  Proof.
    intros Inv Ha Hr Hk He Hb. unfold spec_put_enabled.
    destruct (Nat.leb_spec (hord g) k) as [|_]; [lia|]. rewrite andb_true_r, all_alloc_spec.
    rewrite <- (block_alloc_at g l f k e rows true ltac:(lia) Ha Hr He Hb).
    split; intros H i Hi; [rewrite <- (abs_alloc_testbit g WF l Inv) | rewrite (abs_alloc_testbit g WF l Inv)];
      apply H, Hi.
  Qed.

  Lemma lp_put_small_case l f k :
    LowerInv g l -> f mod pow2 k = 0 -> f + pow2 k <= frames l -> (k < hord g)%nat -> put_outcome l f k.
  Proof.
    intros Inv Ha Hr Hk. pose proof (pow2_pos k) as WP. pose proof (HF_pos g) as HP.
    assert (Hf : f < frames l) by lia.
    destruct (LowerInv_frame g l f Inv Hf) as (e & rows & He & Hb).
    pose proof (lp_enabled_small l f k e rows Inv Ha Hr Hk He Hb) as Hen.
    pose proof (aligned_in_huge g f k ltac:(lia) Ha) as Hfit.
    pose proof (LowerInv_huge_ok g l _ _ _ Inv He Hb) as (Hok & Hmark & Hcnt & Htail).
    assert (Ht : has_tree g l (f / TF g) = true).
    { apply (has_tree_spec g l _ Inv). apply frame_lt_ntab. exact Hf. }
    unfold put_outcome, lower_put. rewrite Ht. cbn [negb].
    destruct (Nat.leb_spec (hord g) k) as [|_]; [lia|]. rewrite He.
    destruct (e_huge e) eqn:Hh.
    - (* whole huge frame: split it *)
      left. split; [apply Hen; intros; reflexivity|].
      assert (Em : e = MARK) by (apply N.eqb_eq; exact Hh).
      destruct (Hmark Em) as (Hz & _).
      unfold partial_put_huge. rewrite Hb. rewrite (bp_toggle_fill g WF rows Hok Hz).
      set (full := repeat MAX64 (rows_nat g)).
      assert (Hokf : rows_ok g full) by (apply bp_rows_ok_repeat; reflexivity).
      unfold put_small. rewrite bf_set_ent, bf_set_bf_same by congruence.
      pose proof (bf_toggle_spec g WF full f k true Hokf ltac:(lia) Ha) as P.
      assert (Hfull : forall i, N.testbit (rows_bits full) i = (i <? HF g)).
      { intros i. unfold full. rewrite (bp_rows_bits_full g WF).
        destruct (N.ltb_spec i (HF g)); [apply N.ones_spec_low | apply N.ones_spec_high]; assumption. }
      destruct (bf_toggle g full f k true) as [rows'|]; cbn [toggle_post negb] in P.
      2:{ exfalso. apply P. intros i Hi. rewrite Hfull. apply N.ltb_lt. lia. }
      destruct P as (Hok' & Pset & Pnew).
      rewrite ent_set_bf, ent_set_ent_same by (rewrite ent_set_bf; congruence).
      assert (Ei : e_inc g 0 (pow2 k) = Some (0 + pow2 k)).
      { unfold e_inc. change (e_huge 0) with false. change (e_free 0) with 0. cbn [negb andb].
        destruct (N.leb_spec (0 + pow2 k) (HF g)); [reflexivity | lia]. }
      rewrite Ei.
      exists (set_bf (set_ent l (f / HF g) (0 + pow2 k)) (f / HF g) rows'). split.
      { f_equal. unfold set_ent, set_bf. cbn [frames bfs ents]. rewrite !lp_upd_upd. reflexivity. }
      split; [|split; [reflexivity|]].
      2:{ apply (lp_small_tree_free l f e (0 + pow2 k) rows' (pow2 k) He).
          unfold e_free. rewrite Hh, (e_huge_le g WF (0 + pow2 k)) by lia. reflexivity. }
      apply (lp_small_update l f k e rows (0 + pow2 k) rows'); try assumption.
      + intros i. rewrite Pnew, Hfull, Hh. reflexivity.
      + rewrite (lp_clear_count full rows' _ _ Hokf Hok' Pset Pnew).
        unfold full. rewrite bp_count_zeros_repeat1. reflexivity.
    - (* counter *)
      assert (Ef : e_free e = e) by (unfold e_free; rewrite Hh; reflexivity).
      assert (Enm : e <> MARK) by (apply N.eqb_neq; exact Hh).
      destruct (Hcnt Enm) as (Ec & Ele).
      pose proof (bf_toggle_spec g WF rows f k true Hok ltac:(lia) Ha) as P.
      assert (Hen' : spec_put_enabled g (abs g l) f k = true <->
                     (forall t, f mod HF g <= t < f mod HF g + pow2 k -> N.testbit (rows_bits rows) t = true)).
      { rewrite Hen. reflexivity. }
      rewrite Ef. destruct (N.leb_spec (e + pow2 k) (HF g)) as [C|C].
      + unfold put_small. rewrite Hb.
        destruct (bf_toggle g rows f k true) as [rows'|]; cbn [toggle_post negb] in P.
        * destruct P as (Hok' & Pset & Pnew). left. split; [apply Hen'; exact Pset|].
          rewrite ent_set_bf, He. unfold e_inc. rewrite Hh, Ef. cbn [negb andb].
          destruct (N.leb_spec (e + pow2 k) (HF g)); [|lia].
          exists (set_bf (set_ent l (f / HF g) (e + pow2 k)) (f / HF g) rows'). split; [reflexivity|].
          split; [|split; [reflexivity|]].
          2:{ apply (lp_small_tree_free l f e (e + pow2 k) rows' (pow2 k) He).
              rewrite Ef. unfold e_free. rewrite (e_huge_le g WF (e + pow2 k)) by lia. reflexivity. }
          apply (lp_small_update l f k e rows (e + pow2 k) rows'); try assumption.
          -- intros i. rewrite Pnew, Hh. cbn [orb].
             destruct (N.ltb_spec i (HF g)); [rewrite andb_true_r; reflexivity|].
             rewrite (rows_bits_high g WF rows i Hok) by assumption. reflexivity.
          -- rewrite (lp_clear_count rows rows' _ _ Hok Hok' Pset Pnew). congruence.
        * right. split; [|reflexivity]. apply not_true_is_false. intros En. apply P. apply Hen'. exact En.
      + right. split; [|reflexivity]. apply not_true_is_false. intros En.
        pose proof (proj1 Hen' En) as Hall.
        destruct (bf_toggle g rows f k true) as [rows'|]; cbn [toggle_post negb] in P.
        * destruct P as (Hok' & Pset & Pnew).
          pose proof (lp_clear_count rows rows' _ _ Hok Hok' Pset Pnew) as Hc.
          pose proof (bf_count_zeros_le g WF rows' Hok'). lia.
        * apply P. exact Hall.
  Qed.

  Lemma lp_put_huge_case l f k :
    LowerInv g l -> f mod pow2 k = 0 -> f + pow2 k <= frames l -> (hord g <= k)%nat -> (k <= tord g)%nat ->
    put_outcome l f k.
  Proof.
    intros Inv Ha Hr Hk Hkt. pose proof (pow2_pos k) as WP.
    destruct (aligned_huge g f k Hk Ha) as (Ef & Ehm). rewrite N.mul_comm in Ef.
    pose proof (huge_index_fits g _ k Hk Hkt Ehm) as Hth.
    assert (Ek : pow2 k = HF g * pow2 (k - hord g)) by (rewrite HF_pow2, N.mul_comm; apply pow2_split; assumption).
    assert (Ht : has_tree g l (f / TF g) = true).
    { apply (has_tree_spec g l _ Inv). apply frame_lt_ntab. clear - Hr WP. lia. }
    unfold put_outcome, lower_put, spec_put_enabled. rewrite Ht. cbn [negb].
    destruct (Nat.leb_spec (hord g) k) as [_|]; [|lia].
    destruct (N.ltb_spec (THUGE g) ((f / HF g) mod THUGE g + pow2 (k - hord g))) as [|_]; [lia|].
    set (h := f / HF g) in *. set (n := pow2 (k - hord g)) in *.
    assert (Hblk : forall i, (f <=? i) && (i <? f + pow2 k) = (h <=? i / HF g) && (i / HF g <? h + n)).
    { intros i. rewrite Ek. rewrite Ef at 1 2. apply in_cells, HF_nz. }
    destruct (cas_all (ents l) (nn h) (nn n) MARK (HF g)) as [es|] eqn:C.
    - pose proof C as C'. apply cas_all_some in C'. destruct C' as (_ & Hold & Hnew).
      destruct (cells_update g WF l es h n MARK (HF g) Inv (or_introl eq_refl) (or_intror eq_refl) C)
        as (Inv' & Hal & Hwh & Hin). rewrite (e_huge_le g WF (HF g) (N.le_refl _)) in Hal, Hwh.
      left. split.
      + (* enabled: the cells were markers *)
        apply andb_true_iff. split.
        * apply all_alloc_spec. intros i Hi. rewrite (abs_alloc_testbit g WF l Inv).
          assert (Hq : h <= i / HF g < h + n) by (specialize (Hblk i); lia).
          destruct (Hin _ Hq) as (He & Hfr). destruct (whole_cell g WF l _ MARK Inv He (or_introl eq_refl)) as (rows & Hb & _).
          unfold alloc_at. rewrite He, Hb. pose proof (N.div_mod i (HF g) (HF_nz g)) as D.
          pose proof (N.mod_lt i (HF g) (HF_nz g)) as L. rewrite N.mul_comm in Hfr.
          destruct (N.ltb_spec i (frames l)) as [|Hge]; [reflexivity|]. exfalso. clear - D L Hfr Hge. lia.
        * apply all_whole_spec. intros q Hq. rewrite abs_whole_testbit_gen. unfold whole_at.
          destruct (Hin _ Hq) as (He & _). destruct (whole_cell g WF l _ MARK Inv He (or_introl eq_refl)) as (rows & Hb & _).
          rewrite He, Hb. reflexivity.
      + eexists. split; [reflexivity|]. split; [|split; [reflexivity|]].
        * split; [exact Inv'|]. apply (abs_eq g WF _ _ Inv'); [reflexivity | |].
          -- intros i. rewrite Hal, spec_put_alloc_testbit, (abs_alloc_testbit g WF l Inv), Hblk.
             destruct ((h <=? i / HF g) && (i / HF g <? h + n)); [rewrite andb_false_r | rewrite andb_true_r]; reflexivity.
          -- intros q. rewrite Hwh, spec_put_whole_testbit, abs_whole_testbit_gen.
             destruct (Nat.leb_spec (hord g) k) as [_|]; [|lia]. fold h n.
             destruct ((h <=? q) && (q <? h + n)); [rewrite andb_false_r | rewrite andb_true_r]; reflexivity.
        * intros t. pose proof (tree_free_ents g l es h n MARK (HF g) Hth Hold Hnew t) as E.
          replace (h / THUGE g) with (f / TF g) in E by exact (div_TF g f). unfold e_free in E.
          rewrite (e_huge_le g WF (HF g) (N.le_refl _)) in E. change (e_huge MARK) with true in E.
          rewrite N.mul_0_r, (N.mul_comm n), <- Ek in E. clear - E. destruct (t =? f / TF g); lia.
    - right. split; [|reflexivity]. apply not_true_is_false. intros En.
      apply cas_all_none in C. destruct C as (j & Hj & Hne).
      apply andb_true_iff in En. destruct En as (_ & Hw).
      rewrite all_whole_spec in Hw. fold h n in Hw. specialize (Hw (N.of_nat j) ltac:(unfold nn in Hj; lia)).
      rewrite abs_whole_testbit_gen in Hw. unfold whole_at, ent in Hw. unfold nn in Hw. rewrite Nat2N.id in Hw.
      destruct (nth_error (ents l) j) as [e|]; [|discriminate].
      destruct (bf l (N.of_nat j)); [|discriminate].
      apply N.eqb_eq in Hw. subst e. apply Hne. reflexivity.
  Qed.

  Definition put_pre (l : lower) (f : N) (k : nat) : Prop :=
    LowerInv g l /\ aligned f k = true /\ f + pow2 k <= frames l /\ (k <= tord g)%nat.

  Theorem lower_put_outcome l f k : put_pre l f k -> put_outcome l f k.
  Proof.
    intros (Inv & Ha & Hr & Hk). apply N.eqb_eq in Ha.
    destruct (Nat.lt_ge_cases k (hord g)).
    - apply lp_put_small_case; assumption.
    - apply lp_put_huge_case; assumption.
  Qed.

  (* a free succeeds exactly when the specification enables it *)
  Theorem lower_put_ok_iff l f k : put_pre l f k ->
    (fst (lower_put g l f k) = Ok tt <-> spec_put_enabled g (abs g l) f k = true).
  Proof.
    intros H. destruct (lower_put_outcome l f k H) as [(En & l' & E & _)|(En & E)]; rewrite E, En; cbn [fst].
    - tauto.
    - split; discriminate.
  Qed.

  (* effect of a successful free; failures are Err Memory and leave the state unchanged *)
  Theorem lower_put_ok l f k l' : put_pre l f k -> lower_put g l f k = (Ok tt, l') ->
    abs g l' = spec_put g (abs g l) f k /\ LowerInv g l'.
  Proof.
    intros H E. destruct (lower_put_outcome l f k H) as [(_ & l2 & E2 & (Inv2 & A2) & _)|(_ & E2)]; rewrite E2 in E.
    - injection E as <-. split; assumption.
    - discriminate.
  Qed.

  Theorem lower_put_err l f k e l' : put_pre l f k -> lower_put g l f k = (Err e, l') ->
    e = EMemory /\ l' = l /\ spec_put_enabled g (abs g l) f k = false.
  Proof.
    intros H E. destruct (lower_put_outcome l f k H) as [(_ & l2 & E2 & _)|(En & E2)]; rewrite E2 in E.
    - discriminate.
    - injection E as <- <-. auto.
  Qed.

  (* no panic site (SIndex 8..13, SIncFailed, SExceedingRetries) is reachable *)
  Theorem lower_put_no_panic l f k : put_pre l f k -> forall s l', lower_put g l f k <> (Panic s, l').
  Proof.
    intros H s l' E. destruct (lower_put_outcome l f k H) as [(_ & l2 & E2 & _)|(_ & E2)]; rewrite E2 in E; discriminate.
  Qed.

  Theorem lower_put_inv l f k : put_pre l f k -> LowerInv g (snd (lower_put g l f k)).
  Proof.
    intros H. pose proof H as (Inv & _).
    destruct (lower_put_outcome l f k H) as [(_ & l2 & E2 & (Inv2 & _) & _)|(_ & E2)]; rewrite E2; assumption.
  Qed.

  (* everything at once, in the shape of the `lf_put` field of `lower_facts` (LowerFacts.v);
     `if t =? f / TF g then pow2 k else 0` is `delta t (f / TF g) (pow2 k)` *)
  Theorem lower_put_facts l f k r l' : LowerInv g l -> (k <= tord g)%nat ->
    aligned f k = true -> f + pow2 k <= frames l -> lower_put g l f k = (r, l') ->
    match r with
    | Ok _ => spec_put_enabled g (abs g l) f k = true /\
              abs g l' = spec_put g (abs g l) f k /\ LowerInv g l' /\ frames l' = frames l /\
              (forall t, tree_free g l' t = tree_free g l t + (if t =? f / TF g then pow2 k else 0))
    | Err e => e = EMemory /\ l' = l /\ spec_put_enabled g (abs g l) f k = false
    | Panic _ => False
    end.
  Proof.
    intros Inv Hk Ha Hr E.
    destruct (lower_put_outcome l f k (conj Inv (conj Ha (conj Hr Hk)))) as
      [(En & l2 & E2 & (Inv2 & A2) & F2 & T2)|(En & E2)]; rewrite E2 in E.
    - injection E as <- <-. auto.
    - injection E as <- <-. auto.
  Qed.
End Put.

(* non-vacuity: concrete runs (HUGE_ORDER 9, 4 huge frames per tree, 5000 frames:
   9 whole huge frames and a partial tenth one) *)
Definition g9 : geom := {| hord := 9; tlog := 2 |}.
Lemma g9_wf : wf_geom g9.
Proof. unfold wf_geom, g9; cbn; lia. Qed.

Example put_pre_ex : put_pre g9 (reserve_all g9 5000) 4608 3 /\ put_pre g9 (reserve_all g9 5000) 1024 10.
Proof.
  split; (split; [apply lower_invb_sound; vm_compute; reflexivity|]); vm_compute; repeat split; try discriminate; lia.
Qed.

(* small free in the partial last huge frame (counter entry) *)
Example put_ex_small :
  let l := reserve_all g9 5000 in let r := lower_put g9 l 4608 3 in
  fst r = Ok tt /\ spec_put_enabled g9 (abs g9 l) 4608 3 = true /\
  abs g9 (snd r) = spec_put g9 (abs g9 l) 4608 3 /\ lower_invb g9 (snd r) = true.
Proof. vm_compute. repeat split. Qed.

(* small free inside a whole huge frame: the marker is split *)
Example put_ex_split :
  let l := reserve_all g9 5000 in let r := lower_put g9 l 520 3 in
  fst r = Ok tt /\ ent (snd r) 1 = Some 8 /\ N.testbit (o_whole (abs g9 (snd r))) 1 = false /\
  abs g9 (snd r) = spec_put g9 (abs g9 l) 520 3 /\ lower_invb g9 (snd r) = true.
Proof. vm_compute. repeat split. Qed.

(* huge orders: two whole huge frames; refused when one of them is no longer whole; double free refused *)
Example put_ex_huge :
  let l := reserve_all g9 5000 in let r := lower_put g9 l 1024 10 in
  fst r = Ok tt /\ abs g9 (snd r) = spec_put g9 (abs g9 l) 1024 10 /\ lower_invb g9 (snd r) = true /\
  lower_put g9 (snd r) 1024 9 = (Err EMemory, snd r) /\ spec_put_enabled g9 (abs g9 (snd r)) 1024 9 = false /\
  lower_put g9 (snd r) 1030 0 = (Err EMemory, snd r) /\ spec_put_enabled g9 (abs g9 (snd r)) 1030 0 = false /\
  fst (lower_put g9 (snd (lower_put g9 l 520 3)) 0 10) = Err EMemory.
Proof. vm_compute. repeat split. Qed.

Print Assumptions lower_put_outcome.
Print Assumptions lower_put_ok_iff.
Print Assumptions lower_put_ok.
Print Assumptions lower_put_err.
Print Assumptions lower_put_no_panic.
Print Assumptions lower_put_inv.
Print Assumptions lower_put_facts.
