(* Bitfield-level facts shared by the get, put, initialisation and recover proofs of the lower
   allocator, on the bitfield read as one number (`rows_bits`): `bf_toggle` for either expected
   value flips exactly one aligned block that was uniform, and the constant bitfields, `bf_fill`,
   `bf_set` have the obvious bits. *)
From Coq Require Import PeanoNat ZArith ZifyN ZifyBool.
From LLF Require Import Base BitLemmas Row RowProofs Bitfield Lower Spec AbsLemmas.
Local Open Scope N_scope.

Section Geo.
  Variable g : geom.
  Hypothesis WF : wf_geom g.

  Lemma bp_TF_pos : 0 < TF g.
  Proof. apply TF_pos. Qed.

  Lemma bp_HF_lt_MARK : HF g < MARK.
  Proof. apply HF_lt_MARK, WF. Qed.

  Lemma bp_THUGE_nat : THUGE g = N.of_nat (thuge_nat g).
  Proof. apply THUGE_nat. Qed.

  Lemma bp_pow2_HF k : (k <= hord g)%nat -> HF g = pow2 k * pow2 (hord g - k).
  Proof. intros H. rewrite HF_pow2, (pow2_split k (hord g) H). apply N.mul_comm. Qed.

  Lemma bp_pow2_le_HF k : (k <= hord g)%nat -> pow2 k <= HF g.
  Proof. apply pow2_le_HF. Qed.

  Lemma bp_pow2_lt_HF k : (k < hord g)%nat -> 2 * pow2 k <= HF g.
  Proof. intros H. rewrite <- pow2_S. apply pow2_le_HF, H. Qed.
End Geo.

Section BF.
  Variable g : geom.
  Hypothesis WF : wf_geom g.

  Lemma bp_rows_ok_lt rows : rows_ok g rows -> rows_bits rows < 2 ^ HF g.
  Proof. apply rows_bits_lt_HF, WF. Qed.
End BF.

(* list plumbing *)
Lemma bp_Forall_nth {A} (P : A -> Prop) l :
  (forall j x, nth_error l j = Some x -> P x) -> Forall P l.
Proof.
  intros H. apply Forall_forall. intros x Hx. apply In_nth_error in Hx. destruct Hx as (j & Hj). eauto.
Qed.

Lemma bp_Forall_nth_inv {A} (P : A -> Prop) l j x : Forall P l -> nth_error l j = Some x -> P x.
Proof. intros H E. rewrite Forall_forall in H. apply H. eapply nth_error_In; eassumption. Qed.

Lemma bp_nth_error_upd {A} (l : list A) i j x :
  nth_error (upd l i x) j = if Nat.eqb i j then (if Nat.ltb j (length l) then Some x else None) else nth_error l j.
Proof.
  destruct (Nat.eqb_spec i j) as [->|Hne].
  - destruct (Nat.ltb_spec j (length l)) as [Hl|Hl].
    + apply nth_error_upd_same; assumption.
    + rewrite upd_oob by assumption. apply nth_error_None; assumption.
  - apply nth_error_upd_other; assumption.
Qed.

Lemma bp_nth_error_ext {A} (l1 l2 : list A) : (forall j, nth_error l1 j = nth_error l2 j) -> l1 = l2.
Proof.
  revert l2; induction l1 as [|a l1 IH]; intros [|b l2] H.
  - reflexivity.
  - specialize (H 0%nat); discriminate.
  - specialize (H 0%nat); discriminate.
  - pose proof (H 0%nat) as H0. cbn in H0. injection H0 as ->. f_equal. apply IH. intros j. exact (H (S j)).
Qed.

Lemma bp_nth_error_repeat {A} (a : A) n j : nth_error (repeat a n) j = if (j <? n)%nat then Some a else None.
Proof.
  revert j; induction n as [|n IH]; intros [|j]; cbn [repeat nth_error]; try reflexivity.
  rewrite IH. destruct (Nat.ltb_spec j n), (Nat.ltb_spec (S j) (S n)); try reflexivity; lia.
Qed.

Lemma bp_Forall_repeat {A} (P : A -> Prop) a n : P a -> Forall P (repeat a n).
Proof. intros H. induction n; cbn [repeat]; constructor; assumption. Qed.

Lemma MAX64_testbit b : b < 64 -> N.testbit MAX64 b = true.
Proof. intros H. rewrite MAX64_ones. apply N.ones_spec_low, H. Qed.

(* the rows `toggle_rows` compares with and writes: all bits equal to v *)
Lemma const_row_lt (v : bool) : (if v then MAX64 else 0) < W64.
Proof. destruct v; reflexivity. Qed.

Lemma const_row_testbit (v : bool) t : t < 64 -> N.testbit (if v then MAX64 else 0) t = v.
Proof. intros Ht. destruct v; [apply MAX64_testbit, Ht | apply N.bits_0]. Qed.

Lemma const_row_eq x (v : bool) : x < W64 -> (forall t, t < 64 -> N.testbit x t = v) -> x = if v then MAX64 else 0.
Proof.
  intros Hx H. apply N.bits_inj. intros t. destruct (N.lt_ge_cases t 64) as [Ht|Ht].
  - rewrite const_row_testbit, H by exact Ht. reflexivity.
  - rewrite (testbit_high x 64 t Hx Ht). symmetry. apply (testbit_high _ 64 t (const_row_lt v) Ht).
Qed.

Lemma land_lt_W64 a b : a < W64 -> N.land a b < W64.
Proof.
  intros Ha. rewrite W64_pow. apply lt_pow2_bits. intros i Hi. rewrite N.land_spec.
  rewrite (testbit_high a 64 i Ha Hi). reflexivity.
Qed.

(* the row `bf_toggle` writes when the expected value is b *)
Definition toggled (e s w : N) (b : bool) : N :=
  if b then N.land e (not64 (blk s w)) else N.lor e (blk s w).

(* one 64-bit toggle: the test reads "the block is uniformly b", the new row has it flipped *)
Lemma toggle_row_spec e s w (b : bool) : e < W64 -> s + w <= 64 ->
  ((if b then N.land e (blk s w) =? blk s w else N.land e (blk s w) =? 0) = true <->
   (forall t, s <= t < s + w -> N.testbit e t = b)) /\
  (toggled e s w b) < W64 /\
  (forall t, t < 64 -> N.testbit (toggled e s w b) t =
                       if (s <=? t) && (t <? s + w) then negb b else N.testbit e t).
Proof.
  intros He Hs. unfold toggled. destruct b; rewrite N.eqb_eq; (split; [|split]).
  - apply land_blk_full.
  - apply land_lt_W64, He.
  - intros t Ht. rewrite N.land_spec, not64_spec, blk_testbit. destruct (N.ltb_spec t 64); [|lia].
    destruct ((s <=? t) && (t <? s + w)); [apply andb_false_r | apply andb_true_r].
  - apply land_blk_zero.
  - rewrite W64_pow. apply lor_lt_pow2; [exact He | apply blk_lt, Hs].
  - intros t _. rewrite lor_blk_testbit.
    destruct ((s <=? t) && (t <? s + w)); [apply orb_true_r | apply orb_false_r].
Qed.

Lemma toggle_rows_cas (b : bool) : forall n rows r,
  toggle_rows rows r n b = cas_all rows r n (if b then MAX64 else 0) (if b then 0 else MAX64).
Proof.
  induction n as [|n IH]; intros rows r; cbn [toggle_rows cas_all]; [reflexivity|].
  destruct (nth_error rows r) as [v|]; [|reflexivity].
  destruct (v =? (if b then MAX64 else 0)); [apply IH|reflexivity].
Qed.

Lemma pow2_rows k : (6 <= k)%nat -> pow2 k = 64 * N.of_nat (Nat.pow 2 (k - 6)).
Proof. intros H. rewrite (pow2_split 6 k H), pow2_of_nat. change (pow2 6) with 64. apply N.mul_comm. Qed.

Section Rows.
  Variable g : geom.
  Hypothesis WF : wf_geom g.

  Lemma rows_ok_nth rows r e : rows_ok g rows -> nth_error rows r = Some e -> e < W64.
  Proof. intros (_ & Hf) He. exact (bp_Forall_nth_inv _ _ _ _ Hf He). Qed.

  Lemma row_exists rows r : rows_ok g rows -> r < ROWS g -> exists e, nth_error rows (nn r) = Some e.
  Proof.
    intros Hr Hlt. destruct (nth_error rows (nn r)) as [e|] eqn:E; [eauto|].
    apply nth_error_None in E. pose proof (rows_ok_length g WF rows Hr). unfold nn in *. lia.
  Qed.

  Lemma rows_bits_row rows r e i : rows_ok g rows -> nth_error rows (nn r) = Some e -> i / 64 = r ->
    N.testbit (rows_bits rows) i = N.testbit e (i mod 64).
  Proof. intros Hr He Hi. rewrite (rows_bits_testbit g _ Hr), Hi, He. reflexivity. Qed.

  Lemma rows_bits_upd_testbit rows r e v i :
    rows_ok g rows -> nth_error rows (nn r) = Some e -> v < W64 ->
    N.testbit (rows_bits (upd rows (nn r) v)) i =
    if i / 64 =? r then N.testbit v (i mod 64) else N.testbit (rows_bits rows) i.
  Proof.
    intros Hr He Hv. assert (Hlt : (nn r < length rows)%nat) by (apply nth_error_Some; congruence).
    rewrite (rows_bits_testbit g _ (rows_ok_upd g rows (nn r) v Hr Hv)), (rows_bits_testbit g _ Hr).
    destruct (N.eqb_spec (i / 64) r) as [->|E].
    - rewrite nth_error_upd_same by exact Hlt. reflexivity.
    - rewrite nth_error_upd_other by (intros E'; apply nn_inj in E'; congruence). reflexivity.
  Qed.

  (* a block inside row r reads the same on the row and on the bitfield *)
  Lemma row_block_bits rows r e s w (v : bool) :
    rows_ok g rows -> nth_error rows (nn r) = Some e -> s + w <= 64 ->
    (forall t, s <= t < s + w -> N.testbit e t = v) <->
    (forall i, 64 * r + s <= i < 64 * r + s + w -> N.testbit (rows_bits rows) i = v).
  Proof.
    intros Hr He Hs. split; intros H.
    - intros i Hi. assert (L : i - 64 * r < 64) by lia. replace i with (64 * r + (i - 64 * r)) by lia.
      rewrite (rows_bits_row rows r e _ Hr He (div_mul_add 64 r _ L)), (mod_mul_add 64 r _ L). apply H. lia.
    - intros t Ht. assert (L : t < 64) by lia. rewrite <- (H (64 * r + t)) by lia.
      rewrite (rows_bits_row rows r e _ Hr He (div_mul_add 64 r _ L)), (mod_mul_add 64 r _ L). reflexivity.
  Qed.

  (* row r replaced by its toggled version *)
  Lemma row_toggle_bits rows r e s w (b : bool) :
    rows_ok g rows -> nth_error rows (nn r) = Some e -> s + w <= 64 ->
    rows_ok g (upd rows (nn r) (toggled e s w b)) /\
    forall i, N.testbit (rows_bits (upd rows (nn r) (toggled e s w b))) i =
              if (64 * r + s <=? i) && (i <? 64 * r + s + w) then negb b else N.testbit (rows_bits rows) i.
  Proof.
    intros Hr He Hs.
    destruct (toggle_row_spec e s w b (rows_ok_nth rows _ e Hr He) Hs) as (_ & Hlt & Hnew).
    split; [apply rows_ok_upd; assumption|].
    intros i. rewrite (rows_bits_upd_testbit rows r e _ i Hr He Hlt), (in_cell 64 r s w i nz64 Hs).
    destruct (N.eqb_spec (i / 64) r) as [Ei|Ei]; cbn [andb]; [|reflexivity].
    rewrite Hnew, (rows_bits_row rows r e i Hr He Ei) by (apply N.mod_lt, nz64). reflexivity.
  Qed.

  (* whole rows [r, r + n) *)
  Lemma rows_range_bits rows r n (v : bool) : rows_ok g rows -> (r + n <= length rows)%nat ->
    (forall j, (r <= j < r + n)%nat -> nth_error rows j = Some (if v then MAX64 else 0)) <->
    (forall i, 64 * N.of_nat r <= i < 64 * N.of_nat r + 64 * N.of_nat n -> N.testbit (rows_bits rows) i = v).
  Proof.
    intros Hr Hlen. split; intros H.
    - intros i Hi. pose proof (N.div_mod i 64 nz64) as D. pose proof (N.mod_lt i 64 nz64) as L.
      rewrite (rows_bits_testbit g _ Hr), (H (nn (i / 64))) by (unfold nn; lia).
      apply const_row_testbit, L.
    - intros j Hj. destruct (nth_error rows j) as [x|] eqn:E; [|apply nth_error_None in E; lia].
      f_equal. apply const_row_eq; [apply (rows_ok_nth rows j x Hr E)|]. intros t Ht.
      rewrite <- (H (64 * N.of_nat j + t)) by lia.
      rewrite (rows_bits_row rows (N.of_nat j) x _ Hr), (mod_mul_add 64 _ t Ht).
      + reflexivity.
      + unfold nn. rewrite Nat2N.id. exact E.
      + apply div_mul_add, Ht.
  Qed.

  Lemma rows_range_upd rows rows' r n (v : bool) : rows_ok g rows -> length rows' = length rows ->
    (forall j, nth_error rows' j =
               if (r <=? j)%nat && (j <? r + n)%nat then Some (if v then MAX64 else 0) else nth_error rows j) ->
    rows_ok g rows' /\
    forall i, N.testbit (rows_bits rows') i =
              if (64 * N.of_nat r <=? i) && (i <? 64 * N.of_nat r + 64 * N.of_nat n) then v
              else N.testbit (rows_bits rows) i.
  Proof.
    intros Hr Hlen Hn.
    assert (Hr' : rows_ok g rows').
    { split; [rewrite Hlen; apply Hr|]. apply bp_Forall_nth. intros j x Hj. rewrite Hn in Hj.
      destruct ((r <=? j)%nat && (j <? r + n)%nat); [injection Hj as <-; apply const_row_lt|].
      apply (rows_ok_nth rows j x Hr Hj). }
    split; [exact Hr'|]. intros i.
    pose proof (N.div_mod i 64 nz64) as D. pose proof (N.mod_lt i 64 nz64) as L.
    rewrite (rows_bits_testbit g _ Hr'), (rows_bits_testbit g _ Hr), Hn.
    destruct (Nat.leb_spec r (nn (i / 64))), (Nat.ltb_spec (nn (i / 64)) (r + n)),
      (N.leb_spec (64 * N.of_nat r) i), (N.ltb_spec i (64 * N.of_nat r + 64 * N.of_nat n));
      cbn [andb]; try reflexivity; try (exfalso; unfold nn in *; lia).
    apply const_row_testbit, L.
  Qed.

  (* position of frame i inside its bitfield: row (i/64) mod ROWS, bit i mod 64 *)
  Lemma bf_pos i : i mod HF g = 64 * ((i / 64) mod ROWS g) + i mod 64.
  Proof.
    pose proof (ROWS_pos g WF) as HR.
    assert (E1 : (i mod HF g) / 64 = (i / 64) mod ROWS g).
    { rewrite (HF_64 g WF). apply div_mod_mul; lia. }
    assert (E2 : (i mod HF g) mod 64 = i mod 64).
    { rewrite (HF_64 g WF). apply mod_mod_mul; lia. }
    rewrite <- E1, <- E2. apply N.div_mod, nz64.
  Qed.

  Lemma bf_row_lt i : (i / 64) mod ROWS g < ROWS g.
  Proof. apply N.mod_lt. pose proof (ROWS_pos g WF). lia. Qed.

  Lemma small_block_in_row i k : (k <= 6)%nat -> i mod pow2 k = 0 -> i mod 64 + pow2 k <= 64.
  Proof. apply (aligned_fit_pow2 k 6 i). Qed.

  (* geometry of a block of whole rows: order k > 6 *)
  Lemma big_block_rows i k : (6 < k)%nat -> (k <= hord g)%nat -> i mod pow2 k = 0 ->
    let di := (i / 64) mod ROWS g in
    let nr := Nat.pow 2 (k - 6) in
    i mod HF g = 64 * N.of_nat (nn di) /\ pow2 k = 64 * N.of_nat nr /\
    (nn di + nr <= rows_nat g)%nat.
  Proof.
    intros Hk6 Hk Hi di nr.
    assert (E64 : i mod 64 = 0).
    { change 64 with (pow2 6). apply (aligned_weaken i k 6); [lia|exact Hi]. }
    assert (Ep : pow2 k = 64 * N.of_nat nr) by (apply pow2_rows; lia).
    assert (Eo : i mod HF g = 64 * N.of_nat (nn di)).
    { rewrite bf_pos, E64. unfold nn. rewrite N2Nat.id. subst di. lia. }
    split; [exact Eo|]. split; [exact Ep|].
    pose proof (aligned_in_huge g i k Hk Hi) as Hfit. rewrite Eo, Ep, (HF_64 g WF), (ROWS_nat g WF) in Hfit.
    clearbody di nr. clear - Hfit. lia.
  Qed.

  (* the toggle succeeds exactly when the block is uniformly b, and flips it *)
  Definition toggle_post (b : bool) (rows : list N) (p w : N) (r : option (list N)) : Prop :=
    match r with
    | Some rows' =>
        rows_ok g rows' /\
        (forall i, p <= i < p + w -> N.testbit (rows_bits rows) i = b) /\
        (forall i, N.testbit (rows_bits rows') i =
                   if (p <=? i) && (i <? p + w) then negb b else N.testbit (rows_bits rows) i)
    | None => ~ (forall i, p <= i < p + w -> N.testbit (rows_bits rows) i = b)
    end.

  Lemma bf_toggle_spec rows f k b : rows_ok g rows -> (k <= hord g)%nat -> f mod pow2 k = 0 ->
    toggle_post b rows (f mod HF g) (pow2 k) (bf_toggle g rows f k b).
  Proof.
    intros Hr Hk Ha. unfold bf_toggle. destruct (Nat.leb_spec k 6) as [Hk6|Hk6]; cbv zeta.
    - (* one row *)
      pose proof (small_block_in_row f k Hk6 Ha) as Hfit. rewrite bf_pos. unfold row_at. rewrite mask64_blk.
      destruct (row_exists rows _ Hr (bf_row_lt f)) as (e & He). rewrite He.
      revert He Hfit. generalize ((f / 64) mod ROWS g) (f mod 64) (pow2 k). intros r s w He Hfit.
      destruct (toggle_row_spec e s w b (rows_ok_nth rows _ e Hr He) Hfit) as (Hc & _).
      pose proof (row_block_bits rows r e s w b Hr He Hfit) as RB.
      (* the model's two branches are one test and one write, both depending on b *)
      replace (if b then if N.land e (blk s w) =? blk s w then Some (upd rows (nn r) (N.land e (not64 (blk s w)))) else None
               else if N.land e (blk s w) =? 0 then Some (upd rows (nn r) (N.lor e (blk s w))) else None)
        with (if (if b then N.land e (blk s w) =? blk s w else N.land e (blk s w) =? 0)
              then Some (upd rows (nn r) (toggled e s w b)) else None)
        by (destruct b; reflexivity).
      destruct (if b then N.land e (blk s w) =? blk s w else N.land e (blk s w) =? 0); cbn [toggle_post].
      + destruct (row_toggle_bits rows r e s w b Hr He Hfit) as (Hok' & Hbits).
        split; [exact Hok'|]. split; [apply RB, Hc; reflexivity | exact Hbits].
      + intros Hall. pose proof (proj2 Hc (proj2 RB Hall)). discriminate.
    - (* whole rows *)
      destruct (big_block_rows f k Hk6 Hk Ha) as (Eo & Ep & Hfit). cbv zeta in Eo, Ep, Hfit.
      rewrite Eo, Ep, toggle_rows_cas. destruct Hr as (Hl & Hf). rewrite <- Hl in Hfit.
      assert (Hr : rows_ok g rows) by (split; assumption).
      revert Hfit. generalize (nn ((f / 64) mod ROWS g)) (Nat.pow 2 (k - 6)). intros di nr Hfit.
      pose proof (rows_range_bits rows di nr b Hr Hfit) as RB.
      destruct (cas_all rows di nr (if b then MAX64 else 0) (if b then 0 else MAX64)) as [rows'|] eqn:C;
        cbn [toggle_post].
      + apply cas_all_some in C. destruct C as (Hlen & Hold & Hnew).
        replace (if b then 0 else MAX64) with (if negb b then MAX64 else 0) in Hnew by (destruct b; reflexivity).
        destruct (rows_range_upd rows rows' di nr (negb b) Hr Hlen Hnew) as (Hok' & Hbits).
        split; [exact Hok'|]. split; [apply RB, Hold | exact Hbits].
      + apply cas_all_none in C. destruct C as (j & Hj & Hne). intros Hall. apply Hne, RB; assumption.
  Qed.
End Rows.

(* constant bitfields *)
Lemma bp_all_eq_repeat (rows : list N) v : Forall (fun r => r = v) rows -> rows = repeat v (length rows).
Proof. induction 1 as [|r rest -> _ IH]; cbn [length repeat]; [reflexivity | f_equal; exact IH]. Qed.

Lemma bp_rows_bits_repeat0 n : rows_bits (repeat 0 n) = 0.
Proof. apply rows_zero_bits, bp_Forall_repeat. reflexivity. Qed.

Lemma bp_rows_bits_repeat1 n : rows_bits (repeat MAX64 n) = N.ones (64 * N.of_nat n).
Proof.
  apply N.bits_inj. intros i. pose proof (N.div_mod i 64 nz64). pose proof (N.mod_lt i 64 nz64).
  rewrite rows_bits_testbit_gen by (apply bp_Forall_repeat; reflexivity).
  rewrite bp_nth_error_repeat. destruct (Nat.ltb_spec (nn (i / 64)) n).
  - rewrite N.ones_spec_low by (unfold nn in *; lia). apply MAX64_testbit. assumption.
  - rewrite N.ones_spec_high by (unfold nn in *; lia). reflexivity.
Qed.

Lemma bp_count_zeros_repeat1 n : bf_count_zeros (repeat MAX64 n) = 0.
Proof. induction n as [|n IH]; cbn [repeat bf_count_zeros fold_right]; [reflexivity|]. unfold bf_count_zeros in IH. rewrite IH. reflexivity. Qed.

Lemma bp_count_zeros_repeat0 n : bf_count_zeros (repeat 0 n) = 64 * N.of_nat n.
Proof.
  induction n as [|n IH]; cbn [repeat bf_count_zeros fold_right]; [reflexivity|].
  unfold bf_count_zeros in IH. rewrite IH. change (count_zeros64 0) with 64. lia.
Qed.

Lemma bp_fill_eq rows v : bf_fill rows v = repeat (if v then MAX64 else 0) (length rows).
Proof. unfold bf_fill. induction rows as [|r rest IH]; cbn [map length repeat]; [reflexivity | f_equal; exact IH]. Qed.

Lemma bp_toggle_rows_fill n : toggle_rows (repeat 0 n) 0 n false = Some (repeat MAX64 n).
Proof.
  rewrite toggle_rows_cas.
  destruct (cas_all_complete n (repeat 0 n) 0 0 MAX64) as (rows' & T).
  { intros j Hj. rewrite bp_nth_error_repeat. destruct (Nat.ltb_spec j n); [reflexivity | lia]. }
  cbv iota. rewrite T. f_equal. apply cas_all_some in T. destruct T as (_ & _ & Hn).
  apply bp_nth_error_ext. intros j. rewrite Hn, !bp_nth_error_repeat.
  destruct (Nat.leb_spec 0 j), (Nat.ltb_spec j (0 + n)), (Nat.ltb_spec j n); cbn [andb]; try reflexivity; lia.
Qed.

Section Fill.
  Variable g : geom.
  Hypothesis WF : wf_geom g.

  Lemma bp_rows_ok_repeat v : v < W64 -> rows_ok g (repeat v (rows_nat g)).
  Proof. intros Hv. split; [apply repeat_length | apply bp_Forall_repeat; exact Hv]. Qed.

  Lemma bp_rows_bits_full : rows_bits (repeat MAX64 (rows_nat g)) = N.ones (HF g).
  Proof. rewrite bp_rows_bits_repeat1, <- (HF_rows_nat g WF). reflexivity. Qed.

  (* partial_put_huge's `toggle(0, ORDER, false)` on the (all zero) bitfield of a whole huge frame *)
  Lemma bp_toggle_fill rows : rows_ok g rows -> Forall (fun r => r = 0) rows ->
    bf_toggle g rows 0 (hord g) false = Some (repeat MAX64 (rows_nat g)).
  Proof.
    intros (Hl & _) Hz. apply bp_all_eq_repeat in Hz. rewrite Hl in Hz. subst rows.
    unfold bf_toggle. destruct WF as (H6 & _). destruct (Nat.leb_spec (hord g) 6) as [Hle|Hgt].
    - assert (E : hord g = 6%nat) by lia. unfold rows_nat. rewrite E. reflexivity.
    - rewrite N.div_0_l by discriminate. rewrite N.mod_0_l by (pose proof (ROWS_pos g WF); lia).
      apply bp_toggle_rows_fill.
  Qed.
End Fill.

Lemma bp_set_row_lt v s e r x : x < W64 -> bf_set_row v s e r x < W64.
Proof.
  intros Hx. unfold bf_set_row.
  destruct (N.ltb_spec (N.max s (64 * r)) (N.min e (64 * r + 64))) as [H|H]; [|exact Hx].
  destruct v.
  - rewrite W64_pow. apply lor_lt_pow2; [exact Hx|]. rewrite mask64_blk. apply blk_lt. lia.
  - apply land_lt_W64. exact Hx.
Qed.

Lemma bp_set_row_testbit v s e r x t : t < 64 ->
  N.testbit (bf_set_row v s e r x) t =
  if (s <=? 64 * r + t) && (64 * r + t <? e) then v else N.testbit x t.
Proof.
  intros Ht. unfold bf_set_row.
  destruct (N.ltb_spec (N.max s (64 * r)) (N.min e (64 * r + 64))) as [H|H].
  - assert (Hm : N.testbit (mask64 (N.min e (64 * r + 64) - N.max s (64 * r)) (N.max s (64 * r) - 64 * r)) t
                 = (s <=? 64 * r + t) && (64 * r + t <? e)).
    { rewrite mask64_blk, blk_testbit.
      destruct (N.leb_spec (N.max s (64 * r) - 64 * r) t),
        (N.ltb_spec t (N.max s (64 * r) - 64 * r + (N.min e (64 * r + 64) - N.max s (64 * r)))),
        (N.leb_spec s (64 * r + t)), (N.ltb_spec (64 * r + t) e); cbn [andb]; try reflexivity; exfalso; lia. }
    destruct v.
    + rewrite N.lor_spec, Hm. destruct ((s <=? 64 * r + t) && (64 * r + t <? e)); [apply orb_true_r | apply orb_false_r].
    + rewrite N.land_spec, not64_spec, Hm. destruct (N.ltb_spec t 64); [|lia].
      destruct ((s <=? 64 * r + t) && (64 * r + t <? e)); [apply andb_false_r | apply andb_true_r].
  - destruct (N.leb_spec s (64 * r + t)), (N.ltb_spec (64 * r + t) e); cbn [andb]; try reflexivity; exfalso; lia.
Qed.

Lemma bp_set_from_nth v s e : forall rows r j,
  nth_error (bf_set_from v s e r rows) j = option_map (bf_set_row v s e (r + N.of_nat j)) (nth_error rows j).
Proof.
  induction rows as [|x rest IH]; intros r [|j]; cbn [bf_set_from nth_error option_map]; try reflexivity.
  - rewrite N.add_0_r. reflexivity.
  - rewrite IH. replace (r + 1 + N.of_nat j) with (r + N.of_nat (S j)) by lia. reflexivity.
Qed.

Lemma bp_set_length rows s e v : length (bf_set rows s e v) = length rows.
Proof.
  unfold bf_set. generalize 0. induction rows as [|x rest IH]; intros r; cbn [bf_set_from length]; [reflexivity|].
  rewrite IH. reflexivity.
Qed.

Lemma bp_set_lt rows s e v : Forall (fun r => r < W64) rows -> Forall (fun r => r < W64) (bf_set rows s e v).
Proof.
  intros Hf. apply bp_Forall_nth. intros j x Hj. unfold bf_set in Hj. rewrite bp_set_from_nth in Hj.
  destruct (nth_error rows j) as [y|] eqn:Ey; [|discriminate]. injection Hj as <-.
  apply bp_set_row_lt. exact (bp_Forall_nth_inv _ _ _ _ Hf Ey).
Qed.

Lemma bp_set_testbit rows s e v i : Forall (fun r => r < W64) rows -> i < 64 * N.of_nat (length rows) ->
  N.testbit (rows_bits (bf_set rows s e v)) i =
  if (s <=? i) && (i <? e) then v else N.testbit (rows_bits rows) i.
Proof.
  intros Hf Hi. pose proof (N.div_mod i 64 nz64). pose proof (N.mod_lt i 64 nz64).
  rewrite !rows_bits_testbit_gen by (try apply bp_set_lt; assumption).
  unfold bf_set. rewrite bp_set_from_nth.
  destruct (nth_error rows (nn (i / 64))) as [x|] eqn:Ex.
  2:{ apply nth_error_None in Ex. unfold nn in Ex. lia. }
  cbn [option_map]. rewrite bp_set_row_testbit by assumption.
  replace (64 * (0 + N.of_nat (nn (i / 64))) + i mod 64) with i by (unfold nn; lia). reflexivity.
Qed.
