(* The two initialisation modes satisfy HeldInit: after free_all the client holds nothing, after reserve_all
   (Init::AllocAll) it holds every whole huge frame at HUGE_ORDER and every other managed frame at order 0. *)
From Coq Require Import PeanoNat.
From LLF Require Import Base BitLemmas Row RowProofs Bitfield Lower Spec AbsLemmas LowerMachine
  ConcBase ConcInvDef ConcInvGeom ConcInvStep ConcInvTac ConcInv.

Lemma bf_set_from_nth v s e : forall rows r0 j,
  nth_error (bf_set_from v s e r0 rows) j = option_map (bf_set_row v s e (r0 + N.of_nat j)) (nth_error rows j).
Proof.
  induction rows as [|x rest IH]; intros r0 j; [destruct j; reflexivity|].
  destruct j; cbn [bf_set_from nth_error option_map].
  - rewrite N.add_0_r. reflexivity.
  - rewrite IH. f_equal. f_equal. lia.
Qed.

Section Init.
  Variable g : geom.
  Hypothesis wf : wf_geom g.
  Notation HF := (HF g).
  Notation THUGE := (THUGE g).
  Notation ROWS := (ROWS g).

  Lemma nn_of_nat_lt h n : h < n -> (nn h < nn n)%nat. Proof. unfold nn. lia. Qed.

  (* h < nbf: either a whole bitfield or the partial last one *)
  Lemma nbf_cases fr h : h < nbf g fr -> h < fr / HF \/ (h = fr / HF /\ h * HF < fr).
  Proof.
    intros Hh. pose proof (nbf_lt_inv g fr h Hh) as Hlt. pose proof (HF_pos g) as HP.
    destruct (N.lt_ge_cases h (fr / HF)) as [?|Hge]; [left; assumption|right].
    pose proof (N.div_mod fr HF ltac:(lia)). pose proof (N.mod_lt fr HF ltac:(lia)).
    split; [|exact Hlt]. assert (h * HF < (fr / HF + 1) * HF) by lia. assert (h < fr / HF + 1) by nia. lia.
  Qed.

  Lemma free_all_ent fr h : h < ntab g fr * THUGE -> entv (boot (free_all g fr) [] 0) h = N.min (fr - h * HF) HF.
  Proof.
    intros Hh. unfold entv, rd_ent. cbn [ms_ents boot ents free_all]. unfold free_all_ents.
    rewrite nth_error_map_seq by (apply nn_of_nat_lt; exact Hh). unfold nn. rewrite N2Nat.id. reflexivity.
  Qed.

  Lemma free_all_bit fr h r i : h < nbf g fr -> r < ROWS -> i < 64 ->
    bit (boot (free_all g fr) [] 0) h r i = (fr <=? fidx g h r i).
  Proof.
    intros Hh Hr Hi. pose proof (HF_pos g) as HP. pose proof (HF_64 g wf) as E64.
    unfold bit, rowv, rd_row. cbn [ms_bfs boot bfs free_all]. unfold free_all_bfs.
    rewrite nth_error_map_seq by (apply nn_of_nat_lt; exact Hh). unfold nn at 1. rewrite N2Nat.id.
    assert (Hrn : (nn r < rows_nat g)%nat) by (rewrite (ROWS_nat g wf) in Hr; unfold nn; lia).
    destruct (nbf_cases fr h Hh) as [Hw|[Eh Hlt]].
    - destruct (N.ltb_spec h (fr / HF)); [|lia]. rewrite nth_error_repeat by exact Hrn. rewrite N.bits_0.
      pose proof (N.mul_div_le fr HF ltac:(lia)). pose proof (rowbit_lt g wf r i Hr Hi).
      assert ((h + 1) * HF <= fr / HF * HF) by nia. unfold fidx. lia.
    - destruct (N.ltb_spec h (fr / HF)); [lia|]. unfold bf_set.
      rewrite bf_set_from_nth, bf_set_from_nth, nth_error_repeat by exact Hrn. cbn [option_map].
      rewrite N.add_0_l. unfold nn. rewrite !N2Nat.id.
      set (e := fr - h * HF).
      assert (Einner : bf_set_row false 0 e r 0 = 0) by (unfold bf_set_row; destruct (_ <? _); [apply N.land_0_l|reflexivity]).
      rewrite Einner. unfold bf_set_row.
      destruct (N.ltb_spec (N.max e (64 * r)) (N.min HF (64 * r + 64))) as [Hl|Hl].
      + rewrite N.lor_0_l, testbit_mask64. unfold inb, fidx, e. lia.
      + rewrite N.bits_0. unfold fidx, e. lia.
  Qed.

  Theorem held_init_free_all fr : HeldInit g (free_all g fr) [].
  Proof.
    constructor.
    - constructor.
    - intros h r i Hh Hr Hi. cbn [frames free_all] in *.
      rewrite (free_all_bit fr h r i Hh Hr Hi).
      rewrite free_all_ent by (pose proof (nbf_le_ents g fr); lia).
      pose proof (HF_lt_MARK g wf). unfold isMark, oor, heldc. rewrite sumf_nil.
      destruct (N.eqb_spec (N.min (fr - h * HF) HF) MARK); [lia|]. cbn [b2n]. lia.
    - intros h _. reflexivity.
  Qed.

  Lemma reserve_all_ent fr h : h < ntab g fr * THUGE ->
    entv (boot (reserve_all g fr) (alloc_all_held g fr) 0) h = if h <? fr / HF then MARK else 0.
  Proof.
    intros Hh. unfold entv, rd_ent. cbn [ms_ents boot ents reserve_all]. unfold reserve_all_ents.
    rewrite nth_error_map_seq by (apply nn_of_nat_lt; exact Hh). unfold nn. rewrite N2Nat.id. reflexivity.
  Qed.
  Lemma reserve_all_ent_oob fr h : ntab g fr * THUGE <= h -> entv (boot (reserve_all g fr) (alloc_all_held g fr) 0) h = 0.
  Proof.
    intros Hh. unfold entv, rd_ent. cbn [ms_ents boot ents reserve_all]. unfold reserve_all_ents.
    destruct (nth_error _ (nn h)) eqn:E; [|reflexivity]. exfalso.
    apply nth_error_some_lt in E. rewrite map_length, seq_length in E. unfold nn in E. lia.
  Qed.
  Lemma reserve_all_bit fr h r i : h < nbf g fr -> r < ROWS -> i < 64 ->
    bit (boot (reserve_all g fr) (alloc_all_held g fr) 0) h r i = negb (h <? fr / HF).
  Proof.
    intros Hh Hr Hi. unfold bit, rowv, rd_row. cbn [ms_bfs boot bfs reserve_all]. unfold reserve_all_bfs.
    rewrite nth_error_map_seq by (apply nn_of_nat_lt; exact Hh). unfold nn at 1. rewrite N2Nat.id.
    assert (Hrn : (nn r < rows_nat g)%nat) by (rewrite (ROWS_nat g wf) in Hr; unfold nn; lia).
    destruct (h <? fr / HF); rewrite nth_error_repeat by exact Hrn; [apply N.bits_0|].
    rewrite testbit_MAX64. apply N.ltb_lt. exact Hi.
  Qed.

  (* the two parts of alloc_all_held as sums over index ranges *)
  Lemma sumf_map_seq (F : (N * nat) -> N) (G : N -> N * nat) n :
    sumf F (map (fun j => G (N.of_nat j)) (seq 0 (nn n))) = ssum n (fun j => F (G j)).
  Proof. unfold ssum, nseq. rewrite sumf_map, sumf_map. reflexivity. Qed.

  Lemma alloc_all_heldc fr x :
    heldc x (alloc_all_held g fr)
    = ssum (fr / HF) (fun h => b2n (inb (h * HF) HF x)) + ssum (fr mod HF) (fun j => b2n (inb (fr / HF * HF + j) 1 x)).
  Proof.
    unfold heldc, alloc_all_held. rewrite sumf_app.
    rewrite (sumf_map_seq (fun b => b2n (cover b x)) (fun h => (h * HF, hord g))).
    rewrite (sumf_map_seq (fun b => b2n (cover b x)) (fun j => (fr / HF * HF + j, 0%nat))).
    reflexivity.
  Qed.
  Lemma alloc_all_hugec fr h :
    hugec g h (alloc_all_held g fr) = ssum (fr / HF) (fun h' => b2n (inb (h' * HF) HF (h * HF))).
  Proof.
    unfold hugec, alloc_all_held. rewrite sumf_app.
    rewrite (sumf_map_seq (hugeb g h) (fun h => (h * HF, hord g))).
    rewrite (sumf_map_seq (hugeb g h) (fun j => (fr / HF * HF + j, 0%nat))).
    rewrite (ssum_ext _ (fun j => hugeb g h (fr / HF * HF + j, 0%nat)) (fun _ => 0)).
    2:{ intros j _. apply hugeb_small. destruct wf. lia. }
    rewrite ssum_const, N.mul_0_r, N.add_0_r. apply ssum_ext. intros h' _.
    unfold hugeb, cover. cbn [fst snd]. rewrite Nat.leb_refl. reflexivity.
  Qed.

  Theorem held_init_reserve_all fr : HeldInit g (reserve_all g fr) (alloc_all_held g fr).
  Proof.
    pose proof (HF_pos g) as HP. pose proof (N.div_mod fr HF ltac:(lia)) as Edm. pose proof (N.mod_lt fr HF ltac:(lia)) as Lm.
    constructor; cbn [frames reserve_all].
    - unfold alloc_all_held. apply Forall_app. split; apply Forall_forall; intros b Hb; apply in_map_iff in Hb;
        destruct Hb as (j & <- & Hj); apply in_seq in Hj; unfold blk_ok; cbn [fst snd]; apply andb_true_iff; split.
      + apply N.eqb_eq. rewrite <- HF_pow2. apply N.mod_mul. lia.
      + apply N.leb_le. rewrite <- HF_pow2. unfold nn in Hj. assert (N.of_nat j + 1 <= fr / HF) by lia.
        assert ((N.of_nat j + 1) * HF <= fr / HF * HF) by (apply N.mul_le_mono_r; assumption). lia.
      + apply N.eqb_eq. apply N.mod_1_r.
      + apply N.leb_le. change (pow2 0) with 1. unfold nn in Hj. lia.
    - intros h r i Hh Hr Hi.
      rewrite (reserve_all_bit fr h r i Hh Hr Hi), reserve_all_ent by (pose proof (nbf_le_ents g fr); lia).
      rewrite alloc_all_heldc. pose proof (rowbit_lt g wf r i Hr Hi) as Hb. unfold fidx, oor.
      destruct (nbf_cases fr h Hh) as [Hw|[Eh Hlt]].
      + destruct (N.ltb_spec h (fr / HF)); [|lia]. unfold isMark. rewrite N.eqb_refl. cbn [negb b2n].
        rewrite (ssum_ext _ _ (fun h' => b2n (h' =? h))).
        2:{ intros h' _. rewrite <- N.add_assoc. replace (h' * HF) with (h' * HF + 0) by lia.
            rewrite (inb_in_huge g h' 0 HF h (r * 64 + i)) by lia. unfold inb. lia. }
        rewrite ssum_eqb. rewrite (ssum_ext _ (fun j => b2n (inb (fr / HF * HF + j) 1 (h * HF + r * 64 + i))) (fun _ => 0)).
        2:{ intros j _. assert ((h + 1) * HF <= fr / HF * HF) by (apply N.mul_le_mono_r; lia). unfold inb. lia. }
        rewrite ssum_const. assert ((h + 1) * HF <= fr / HF * HF) by (apply N.mul_le_mono_r; lia). lia.
      + destruct (N.ltb_spec h (fr / HF)); [lia|]. unfold isMark, MARK. cbn [negb b2n].
        rewrite (ssum_ext _ (fun h' => b2n (inb (h' * HF) HF (h * HF + r * 64 + i))) (fun _ => 0)).
        2:{ intros h' Hh'. replace (h' * HF) with (h' * HF + 0) by lia. rewrite <- N.add_assoc.
            rewrite (inb_in_huge g h' 0 HF h (r * 64 + i)) by lia. lia. }
        rewrite ssum_const. rewrite <- Eh.
        rewrite (ssum_ext _ _ (fun j => b2n (j =? r * 64 + i))) by (intros j _; unfold inb; lia).
        rewrite ssum_eqb. subst h. lia.
    - intros h He. rewrite alloc_all_hugec.
      assert (Hge : fr / HF <= h).
      { destruct (N.lt_ge_cases h (fr / HF)) as [Hlt|?]; [|assumption]. exfalso. apply He.
        rewrite reserve_all_ent; [destruct (N.ltb_spec h (fr / HF)); [reflexivity|lia]|].
        pose proof (nbf_le_ents g fr). assert (h < nbf g fr); [|lia]. apply (N.lt_le_trans _ (fr / HF)); [exact Hlt|].
        apply (le_nbf g). pose proof (N.mul_div_le fr HF ltac:(lia)). lia. }
      rewrite (ssum_ext _ _ (fun _ => 0)); [rewrite ssum_const; lia|].
      intros h' Hh'. pose proof (inb_in_huge g h' 0 HF h 0 ltac:(lia) HP) as Ei. rewrite !N.add_0_r in Ei. rewrite Ei. lia.
  Qed.
End Init.
