(* C20 over the MODELLED REAL ALLOCATOR: the replay loop of eval/src/bin/replay.rs (Replay.v, with the repair of
   D11) running on the sequential model of llfree-rs (Upper.v) instead of the abstract interval allocator.

   `lstep` / `lrun` / `lreplay` : the loop.  State = (upper, table, orphans, counters).  An event carries, besides
       (alloc, pfn, order), the class and the slot index of the request that the real binary builds from the
       event's core / gfp flags through its classing (`request(order, gfp, core, pid)`): the SAME request is used for
       the get of an allocation event and the put of a free event, as in replay.rs.  Allocation events call
       `llfree_get g policy u None rq` (`.unwrap()`: an Err or a panic ends the run = None), free events call
       `llfree_put g policy u (F + (pfn - a)) rq`.  The table bookkeeping is the same `tab_step` as in Replay.v.
   `Rel ls A`   : the simulation relation between a state of this loop and a state of the abstract loop of
       Replay.v with the same table / orphans / counters and allocator state A (a list of intervals):
       UpperInv of the allocator, unchanged configuration shape, ReplayProofs.Inv of the abstract state,
       allocd A x = bit x of o_alloc (abs g (low u)) for every x, popcount o_alloc = alen A, and
       `whole_tracked`: every huge frame of a tracked block of order >= hord is allocated whole (o_whole) - what
       makes a free of a part of order >= hord of it enabled.
   `lstep_sim`  : every step of this loop is a step of the abstract loop under an oracle satisfying `choose_ok`
       (for an allocation: `pick`, the oracle that names the block llfree_get returned), and Rel is preserved.
       The oracle is chosen per step: a fixed `choose : astate -> nat -> option N` cannot name the real
       allocator's choice, which depends on reservations that the ownership state does not determine.
   Theorems (restated in Properties/C20.v under the names C20_llfree_...): `llfree_frees_traced_block`, `llfree_free_never_fails`,
       `llfree_unknown_free`, `llfree_reachable`, `llfree_final_count`, `llfree_final_count_new` (from the state
       built by `llfree_new ... IFreeAll`), `llfree_step_simulated`, `llfree_run_simulated` (whole runs, `run_with`: one oracle per event); example `llfree_replay_example`. *)
From LLF Require Import Base BitLemmas Row Bitfield Lower Spec Upper UpperInvDef AbsLemmas LowerInitProofs
  LowerFactsProofs UpperPrims UpperPutProofs UpperGetProofs Policies PolicyFacts Handoff GlueProofs GlueHistory.
From LLF Require Import Replay ReplayProofs.
Require Import ZifyBool PeanoNat.

Record levent := mkLev { le_ev : event; le_class : N; le_local : option N }.
Definition le_req (le : levent) : request :=
  {| r_order := e_order (le_ev le); r_class := le_class le; r_local := le_local le |}.

Record lstate := mkL {
  l_u : upper;                       (* the allocator *)
  l_tab : table;                     (* present entries of `allocated` *)
  l_orph : list block;               (* ghost: blocks whose present entry was overwritten *)
  l_failed : N;                      (* "Free failed" log lines *)
  l_unknown : N;                     (* free_unkown *)
  l_reallocs : N }.                  (* reallocs *)

Definition linit (u : upper) : lstate := mkL u [] [] 0 0 0.

Section LReplay.
  Variable g : geom.
  Variable policy : N -> N -> N -> pol.
  Variable max_pfn : N.              (* length of `allocated` = frames of the allocator *)

  (* one loop iteration; None = the real loop panics (`.unwrap()` of a failed get, index out of bounds) *)
  Definition lstep (s : lstate) (le : levent) : option (lstate * obs) :=
    let e := le_ev le in
    if e_alloc e then
      match llfree_get g policy (l_u s) None (le_req le) with
      | (Ok (f, _), u') =>
          match tab_step max_pfn (l_tab s, l_orph s) e f with
          | Some (T', orph', TAlloc re) =>
              Some (mkL u' T' orph' (l_failed s) (l_unknown s) (l_reallocs s + if re then 1 else 0),
                    OAlloc f (e_order e))
          | _ => None
          end
      | _ => None
      end
    else
      match tab_step max_pfn (l_tab s, l_orph s) e 0 with
      | Some (T', orph', TUnknown) =>
          Some (mkL (l_u s) T' orph' (l_failed s) (l_unknown s + 1) (l_reallocs s), OUnknown)
      | Some (T', orph', TFree a F K) =>
          let f := F + (e_pfn e - a) in
          match llfree_put g policy (l_u s) f (le_req le) with
          | (Ok _, u') => Some (mkL u' T' orph' (l_failed s) (l_unknown s) (l_reallocs s), OPut f (e_order e) true)
          | (Err _, u') => Some (mkL u' T' orph' (l_failed s + 1) (l_unknown s) (l_reallocs s), OPut f (e_order e) false)
          | (Panic _, _) => None
          end
      | _ => None
      end.

  Fixpoint lrun (s : lstate) (evs : list levent) : option lstate :=
    match evs with
    | [] => Some s
    | e :: r => match lstep s e with Some (s', _) => lrun s' r | None => None end
    end.

  (* the calls made to the allocator, in order *)
  Fixpoint lrun_log (s : lstate) (evs : list levent) : option (list obs) :=
    match evs with
    | [] => Some []
    | e :: r =>
        match lstep s e with
        | Some (s', o) => match lrun_log s' r with Some l => Some (o :: l) | None => None end
        | None => None
        end
    end.

  Definition lreplay (u : upper) (evs : list levent) : option lstate := lrun (linit u) evs.

  (* `stats.free_frames` (the exact count), failed frees, free_unkown, reallocs *)
  Definition lresult (s : lstate) : N * N * N * N :=
    (Lower.free_frames (llfree_stats g (l_u s)), l_failed s, l_unknown s, l_reallocs s).
End LReplay.

(* the oracle naming one block: returns f for order k0 when f is aligned, in range and overlaps no interval *)
Definition pick (max_pfn f : N) (k0 : nat) (st : astate) (k : nat) : option N :=
  if Nat.eqb k k0 && (f mod 2 ^ N.of_nat k0 =? 0) && (f + 2 ^ N.of_nat k0 <=? max_pfn)
     && negb (existsb (overlap f (f + 2 ^ N.of_nat k0)) st)
  then Some f else None.

Lemma pick_ok max_pfn f k0 : choose_ok max_pfn (pick max_pfn f k0).
Proof.
  intros st k f' H. unfold pick in H.
  destruct (Nat.eqb k k0) eqn:E1; [|discriminate]. apply Nat.eqb_eq in E1. subst k0. cbn [andb] in H.
  destruct (f mod 2 ^ N.of_nat k =? 0) eqn:E2; [|discriminate]. cbn [andb] in H.
  destruct (f + 2 ^ N.of_nat k <=? max_pfn) eqn:E3; [|discriminate]. cbn [andb] in H.
  destruct (existsb (overlap f (f + 2 ^ N.of_nat k)) st) eqn:E4; [discriminate|]. injection H as <-.
  split; [lia|]. split; [lia|]. intros x Hx.
  destruct (allocd st x) eqn:A; [|reflexivity]. exfalso.
  unfold allocd in A. apply existsb_exists in A. destruct A as (i & Hin & Hi).
  assert (existsb (overlap f (f + 2 ^ N.of_nat k)) st = true); [|congruence].
  apply existsb_exists. exists i. split; [assumption|]. unfold overlap, inI in *. lia.
Qed.

Lemma pick_some max_pfn f k st :
  f mod 2 ^ N.of_nat k = 0 -> f + 2 ^ N.of_nat k <= max_pfn -> Forall ne st ->
  (forall x, f <= x < f + 2 ^ N.of_nat k -> allocd st x = false) -> pick max_pfn f k st k = Some f.
Proof.
  intros H1 H2 Hne Hfree. unfold pick. rewrite Nat.eqb_refl.
  replace (f mod 2 ^ N.of_nat k =? 0) with true by lia.
  replace (f + 2 ^ N.of_nat k <=? max_pfn) with true by lia. cbn [andb].
  destruct (existsb (overlap f (f + 2 ^ N.of_nat k)) st) eqn:E; [|reflexivity]. exfalso.
  apply existsb_exists in E. destruct E as (i & Hin & Hi).
  rewrite Forall_forall in Hne. specialize (Hne i Hin). unfold ne in Hne.
  pose proof (two_pow_pos k) as Hp.
  assert (A : allocd st (N.max (fst i) f) = true).
  { unfold allocd. apply existsb_exists. exists i. split; [assumption|]. unfold inI, overlap in *. lia. }
  rewrite Hfree in A; [discriminate|]. unfold overlap in Hi. lia.
Qed.

(* a block aligned to H whose size is a multiple of H consists of whole H-frames: x lies in it iff its H-frame does *)
Lemma blk_div_iff H F S x : 0 < H -> F mod H = 0 -> S mod H = 0 ->
  (F <= x < F + S <-> F / H <= x / H < F / H + S / H).
Proof.
  intros HH HF HS. apply N.div_exact in HF; [|lia]. apply N.div_exact in HS; [|lia].
  pose proof (in_cells H (F / H) (S / H) x ltac:(lia)) as E. rewrite <- HF, <- HS in E.
  rewrite <- (N.leb_le F), <- (N.ltb_lt x), <- (N.leb_le (F / H)), <- (N.ltb_lt (x / H)), <- !andb_true_iff, E.
  reflexivity.
Qed.

(* whether q is one of the part keys a + j*sz, j < n *)
Lemma part_key_dec a sz n q : 0 < sz ->
  (exists j, j < n /\ q = a + j * sz) \/ (forall j, j < n -> q <> a + j * sz).
Proof.
  intros Hs.
  assert (G : forall j, q = a + j * sz -> a <= q /\ (q - a) mod sz = 0 /\ (q - a) / sz = j).
  { intros j ->. replace (a + j * sz - a) with (j * sz) by lia.
    rewrite N.mod_mul, N.div_mul by lia. repeat split; lia. }
  destruct (N.le_gt_cases a q) as [Ha|Ha]; [|right; intros j _ E; apply G in E; lia].
  destruct (N.eq_dec ((q - a) mod sz) 0) as [Hm|Hm]; [|right; intros j _ E; apply G in E; lia].
  destruct (N.lt_ge_cases ((q - a) / sz) n) as [Hn|Hn]; [|right; intros j Hj E; apply G in E; lia].
  left. exists ((q - a) / sz). split; [assumption|].
  pose proof (N.div_mod (q - a) sz ltac:(lia)). lia.
Qed.

(* a frame of a tracked block is allocated *)
Lemma tracked_allocd max_pfn s q b y :
  Inv max_pfn s -> tget (r_tab s) q = Some b -> inb y b = true -> allocd (r_alloc s) y = true.
Proof.
  intros HI Hg Hy. apply icnt_allocd. rewrite <- (I_own _ _ HI y). unfold M. cbn [fst snd].
  pose proof (msum_tget (pt y) _ _ _ Hg) as L. unfold pt at 1 in L. rewrite Hy in L. cbn [b2n] in L. lia.
Qed.

(* removing a subset: popcount *)
Lemma popcount_ldiff_blk a f n : (forall i, f <= i < f + n -> N.testbit a i = true) ->
  popcount a = popcount (N.ldiff a (blk f n)) + n.
Proof.
  intros H.
  assert (E : a = N.lor (N.ldiff a (blk f n)) (blk f n)).
  { apply N.bits_inj. intros i. rewrite N.lor_spec, N.ldiff_spec, blk_testbit.
    destruct ((f <=? i) && (i <? f + n)) eqn:B; cbn [negb].
    - rewrite H by lia. reflexivity.
    - rewrite andb_true_r, orb_false_r. reflexivity. }
  assert (D : N.land (N.ldiff a (blk f n)) (blk f n) = 0).
  { apply N.bits_inj. intros i. rewrite N.land_spec, N.ldiff_spec, N.bits_0.
    destruct (N.testbit a i), (N.testbit (blk f n) i); reflexivity. }
  rewrite E at 1. rewrite (popcount_lor_disjoint _ _ D), popcount_blk. reflexivity.
Qed.

Lemma huge_blk_iff g F K x : (hord g <= K)%nat -> F mod 2 ^ N.of_nat K = 0 ->
  (F <= x < F + 2 ^ N.of_nat K <-> F / HF g <= x / HF g < F / HF g + pow2 (K - hord g)).
Proof.
  intros HK Hal.
  assert (E : 2 ^ N.of_nat K = pow2 (K - hord g) * HF g) by exact (pow2_split (hord g) K HK).
  rewrite <- (N.div_mul (pow2 (K - hord g)) (HF g) (HF_nz g)), <- E.
  apply blk_div_iff; [apply HF_pos|exact (mod_pow2_le F (hord g) K HK Hal)|exact (pow2_mod (hord g) K HK)].
Qed.

(* every huge frame of a tracked block of order >= hord is allocated whole *)
Definition whole_tracked (g : geom) (o : ospec) (T : table) : Prop :=
  forall p F K, tget T p = Some (F, K) -> (hord g <= K)%nat ->
    forall x, F <= x < F + 2 ^ N.of_nat K -> N.testbit (o_whole o) (x / HF g) = true.

(* an allocation event: the entry p |-> (f, k) is written, the allocator marks the huge frames of the block *)
Lemma whole_tracked_get g o T T' p f k : f mod 2 ^ N.of_nat k = 0 ->
  tget T' p = Some (f, k) -> (forall q, q <> p -> tget T' q = tget T q) ->
  whole_tracked g o T -> whole_tracked g (spec_get g o f k) T'.
Proof.
  intros Hal Tg To HW q F K Hg HK x Hx. rewrite spec_get_whole_testbit.
  destruct (N.eq_dec q p) as [->|Hq].
  - rewrite Tg in Hg. injection Hg as <- <-. apply (huge_blk_iff g f k x HK Hal) in Hx.
    replace (Nat.leb (hord g) k) with true by (symmetry; apply Nat.leb_le; exact HK). lia.
  - rewrite (To q Hq) in Hg. rewrite (HW q F K Hg HK x Hx). reflexivity.
Qed.

(* a part of order >= hord of a tracked block may be freed *)
Lemma whole_tracked_all_whole g o T a F K f k : tget T a = Some (F, K) -> (hord g <= k)%nat ->
  f mod 2 ^ N.of_nat k = 0 -> F <= f -> f + 2 ^ N.of_nat k <= F + 2 ^ N.of_nat K -> (k <= K)%nat ->
  whole_tracked g o T -> all_whole g o f k = true.
Proof.
  intros Hg Hk Hal H1 H2 HkK HW. apply all_whole_spec. intros h Hh.
  rewrite <- (N.div_mul h (HF g) (HF_nz g)) in Hh |- *.
  apply (huge_blk_iff g f k _ Hk Hal) in Hh. apply (HW a F K Hg); lia.
Qed.

(* a put: the huge frames it clears belong to no block that is tracked afterwards, because such a block does not
   meet the freed one *)
Lemma whole_tracked_put g o T f k : f mod 2 ^ N.of_nat k = 0 ->
  (forall q F K, tget T q = Some (F, K) -> F mod 2 ^ N.of_nat K = 0) ->
  (forall q F K y, tget T q = Some (F, K) -> f <= y < f + 2 ^ N.of_nat k -> F <= y < F + 2 ^ N.of_nat K -> False) ->
  whole_tracked g o T -> whole_tracked g (spec_put g o f k) T.
Proof.
  intros Hal Hwf No HW q F K Hg HK x Hx. rewrite spec_put_whole_testbit, (HW q F K Hg HK x Hx). cbn [andb].
  apply negb_true_iff. pose proof (two_pow_pos k) as Hpos.
  destruct (Nat.leb (hord g) k) eqn:Hk.
  - apply Nat.leb_le in Hk.
    destruct ((f / HF g <=? x / HF g) && (x / HF g <? f / HF g + pow2 (k - hord g))) eqn:In; [exfalso|reflexivity].
    apply (No q F K x Hg); [|exact Hx]. apply (huge_blk_iff g f k x Hk Hal). lia.
  - destruct (x / HF g =? f / HF g) eqn:In; [exfalso|reflexivity].
    apply (No q F K f Hg); [lia|]. apply (huge_blk_iff g F K f HK (Hwf q F K Hg)).
    apply (huge_blk_iff g F K x HK (Hwf q F K Hg)) in Hx. replace (f / HF g) with (x / HF g) by lia. exact Hx.
Qed.

(* the repaired abstract loop of Replay.v (the same `Replay.step`) with one oracle per event *)
Fixpoint run_with (max_pfn : N) (chs : list (astate -> nat -> option N)) (s : rstate) (evs : list event)
  : option rstate :=
  match evs, chs with
  | [], _ => Some s
  | e :: r, ch :: chs' =>
      match step max_pfn ch true s e with Some (s', _) => run_with max_pfn chs' s' r | None => None end
  | _ :: _, [] => None
  end.

(* with the same oracle for every event it is Replay.run *)
Lemma run_with_repeat max_pfn ch : forall evs s,
  run_with max_pfn (repeat ch (length evs)) s evs = run max_pfn ch true s evs.
Proof.
  induction evs as [|e evs IH]; intros s; cbn [length repeat run_with run]; [reflexivity|].
  destruct (step max_pfn ch true s e) as [[s' o]|]; [apply IH|reflexivity].
Qed.

(* its table bookkeeping is that of the trace specification, whatever the oracles *)
Lemma run_with_sim max_pfn : forall evs chs s t s', Sim s t -> run_with max_pfn chs s evs = Some s' ->
  exists t', spec_run max_pfn t evs = Some t' /\ Sim s' t'.
Proof.
  induction evs as [|e evs IH]; intros [|ch chs] s t s' HS; cbn [run_with spec_run]; try discriminate.
  1,2: intros H; injection H as <-; eauto.
  destruct (step max_pfn ch true s e) as [[s1 o]|] eqn:E; [|discriminate].
    destruct (step_sim _ _ _ _ _ _ _ _ HS E) as (t1 & E1 & HS1). rewrite E1. apply IH. assumption.
Qed.

Section Bridge.
  Variable g : geom.
  Variable policy : N -> N -> N -> pol.
  Variable max_pfn : N.
  Hypothesis WF : wf_geom g.
  Hypothesis PR : pol_refl_match policy.
  Hypothesis PT : pol_demote_trans policy.
  Variable u0 : upper.               (* the allocator before the first event *)
  Variable off0 : list N.            (* its ghost (all zero for `ustate_new u0`) *)
  Hypothesis Hfr : frames (low u0) = max_pfn.
  Hypothesis H64 : max_pfn < W64.

  Notation lstep := (lstep g policy max_pfn).
  Notation lrun := (lrun g policy max_pfn).
  Notation oa u := (o_alloc (abs g (low u))).
  Notation gx u := {| us := u; off := off0 |}.

  (* an event as a kernel trace has it (ev_ok), of an order the allocator accepts, with a valid request:
     the class is configured and the slot index, if any, is below the class's slot count *)
  Definition lev_ok (le : levent) : Prop :=
    ev_ok max_pfn (le_ev le) /\ (e_order (le_ev le) <= tord g)%nat /\
    class_slots u0 (le_class le) <> None /\ valid_req u0 (le_req le).

  (* the abstract replay state with allocator state A and the bookkeeping of ls *)
  Definition absst (ls : lstate) (A : astate) : rstate :=
    mkR A (l_tab ls) (l_orph ls) (l_failed ls) (l_unknown ls) (l_reallocs ls).

  Record Rel (ls : lstate) (A : astate) : Prop := mkRel {
    R_inv : UpperInv g policy (gx (l_u ls));
    R_shape : full_shape (l_u ls) = full_shape u0;
    R_abs : Inv max_pfn (absst ls A);
    R_link : forall x, allocd A x = N.testbit (oa (l_u ls)) x;
    R_pop : popcount (oa (l_u ls)) = alen A;
    R_whole : whole_tracked g (abs g (low (l_u ls))) (l_tab ls) }.

  Lemma shape_frames u : full_shape u = full_shape u0 -> frames (low u) = max_pfn.
  Proof. unfold full_shape. intros H. rewrite <- Hfr. congruence. Qed.

  Lemma valid_at u le : full_shape u = full_shape u0 -> lev_ok le ->
    valid_req u (le_req le) /\ class_slots u (le_class le) <> None.
  Proof.
    intros S (_ & _ & Hc & Hv). split.
    - unfold valid_req in *. destruct (r_local (le_req le)); [|exact I]. eapply idx_ok_shape; eauto.
    - rewrite class_slots_of_len in *. rewrite (class_len_of_shape u0 u _ S). exact Hc.
  Qed.

  Lemma check_ok u f rq :
    (r_order rq <= tord g)%nat -> f + pow2 (r_order rq) <= frames (low u) -> frames (low u) < W64 ->
    f mod pow2 (r_order rq) = 0 -> class_slots u (r_class rq) <> None -> check g u f rq = Ok tt.
  Proof.
    intros H1 H2 H3 H4 H5. unfold check.
    replace (Nat.leb (r_order rq) (tord g)) with true by (symmetry; apply Nat.leb_le; exact H1). cbn [negb].
    replace ((f + pow2 (r_order rq) <? W64) && (f + pow2 (r_order rq) <=? frames (low u))) with true by lia.
    cbn [negb]. replace (f mod pow2 (r_order rq) =? 0) with true by lia. cbn [negb].
    unfold class_locals. destruct (class_slots u (r_class rq)); [reflexivity|contradiction].
  Qed.

  Lemma lift_get u rq r u' : llfree_get g policy u None rq = (r, u') ->
    ghost_lift (fun u => llfree_get g policy u None rq) (gx u) = (r, gx u').
  Proof. intros E. unfold ghost_lift. cbn [us off]. rewrite E. reflexivity. Qed.
  Lemma lift_put u f rq r u' : llfree_put g policy u f rq = (r, u') ->
    ghost_lift (fun u => llfree_put g policy u f rq) (gx u) = (r, gx u').
  Proof. intros E. unfold ghost_lift. cbn [us off]. rewrite E. reflexivity. Qed.

  Lemma get_shape u rq r u' : llfree_get g policy u None rq = (r, u') -> full_shape u' = full_shape u.
  Proof.
    intros E. pose proof (gstep_shape g policy (gx u) (OGet None rq)) as S. cbn [gstep] in S.
    rewrite (lift_get _ _ _ _ E) in S. exact S.
  Qed.
  Lemma put_shape u f rq r u' : llfree_put g policy u f rq = (r, u') -> full_shape u' = full_shape u.
  Proof.
    intros E. pose proof (gstep_shape g policy (gx u) (Handoff.OPut f rq)) as S. cbn [gstep] in S.
    rewrite (lift_put _ _ _ _ _ E) in S. exact S.
  Qed.

  Lemma Rel_init : UpperInv g policy (gx u0) -> oa u0 = 0 -> Rel (linit u0) [].
  Proof.
    intros HI H0. constructor; cbn [linit l_u l_tab l_orph].
    - exact HI.
    - reflexivity.
    - exact (Inv_init max_pfn).
    - intros x. rewrite H0, N.bits_0. reflexivity.
    - rewrite H0. reflexivity.
    - intros p F K H. discriminate.
  Qed.

  Lemma lstep_alloc ls A le ls' o : Rel ls A -> lev_ok le -> e_alloc (le_ev le) = true ->
    lstep ls le = Some (ls', o) ->
    exists f c,
      let k := e_order (le_ev le) in
      llfree_get g policy (l_u ls) None (le_req le) = (Ok (f, c), l_u ls') /\
      o = OAlloc f k /\
      step max_pfn (pick max_pfn f k) true (absst ls A) (le_ev le) = Some (absst ls' ((f, f + 2 ^ N.of_nat k) :: A), o) /\
      Rel ls' ((f, f + 2 ^ N.of_nat k) :: A) /\
      spec_get_enabled (abs g (low (l_u ls))) f k = true /\
      abs g (low (l_u ls')) = spec_get g (abs g (low (l_u ls))) f k.
  Proof.
    intros HR Hev Ha Hs. destruct HR as [HI HS HA HL HP HW].
    destruct (valid_at _ _ HS Hev) as (Hv & Hc). pose proof (shape_frames _ HS) as Hf.
    pose proof Hev as (Hev1 & Hord & _).
    unfold ReplayLLFree.lstep in Hs. cbv zeta in Hs. rewrite Ha in Hs.
    destruct (llfree_get g policy (l_u ls) None (le_req le)) as [r u'] eqn:G.
    destruct r as [[f c]|e|st]; try discriminate.
    destruct (tab_step max_pfn (l_tab ls, l_orph ls) (le_ev le) f) as [[[T' orph'] [re| |a0 F0 K0]]|] eqn:TS; try discriminate.
    injection Hs as <- <-. cbn [l_u].
    destruct (get_step g policy WF PR PT _ _ _ _ _ HI Hv (lift_get _ _ _ _ G)) as (_ & HI' & GS).
    unfold get_step_ok in GS. cbn [us off le_req r_order] in GS. destruct GS as (_ & En & Eabs & _).
    set (k := e_order (le_ev le)) in *.
    pose proof En as En'. apply spec_get_enabled_spec in En'. cbn [abs o_frames] in En'. rewrite Hf in En'.
    unfold pow2 in En'. destruct En' as (Eal & Ern & Efree).
    assert (PS : pick max_pfn f k A k = Some f).
    { apply pick_some; [exact Eal|exact Ern|exact (I_ne _ _ HA)|]. intros x Hx. rewrite HL. apply Efree. exact Hx. }
    assert (ST : step max_pfn (pick max_pfn f k) true (absst ls A) (le_ev le) =
                 Some (absst (mkL u' T' orph' (l_failed ls) (l_unknown ls) (l_reallocs ls + (if re then 1 else 0)))
                             ((f, f + 2 ^ N.of_nat k) :: A), OAlloc f k)).
    { unfold step. rewrite Ha. unfold aget. cbn [absst r_alloc r_tab r_orph r_failed r_unknown r_reallocs].
      fold k. rewrite PS, TS. reflexivity. }
    exists f, c. cbv zeta. split; [reflexivity|]. split; [reflexivity|]. split; [exact ST|].
    destruct (step_alloc max_pfn _ (pick_ok max_pfn f k) true _ _ _ _ HA Hev1 Ha ST)
      as (HA' & f' & Eo & _ & _ & Tg & To & _).
    injection Eo as Eo. subst f'.
    cbn [absst r_tab l_tab] in Tg, To. fold k in Tg.
    split; [|split; [exact En|exact Eabs]].
    constructor; cbn [l_u l_tab l_orph].
    - exact HI'.
    - rewrite (get_shape _ _ _ _ G). exact HS.
    - exact HA'.
    - intros x. rewrite Eabs, spec_get_alloc_testbit, <- HL. cbn [allocd existsb]. unfold inI. cbn [fst snd].
      unfold pow2. fold (allocd A x). apply orb_comm.
    - rewrite Eabs. cbn [spec_get o_alloc].
      rewrite popcount_lor_disjoint, popcount_blk.
      + cbn [alen fold_right fst snd]. fold (alen A). rewrite HP. unfold pow2. lia.
      + apply land_blk_zero. intros i Hi. apply Efree. unfold pow2 in Hi. exact Hi.
    - rewrite Eabs. exact (whole_tracked_get g _ _ T' _ f k Eal Tg To HW).
  Qed.

  Lemma lstep_free ls A le a F K : Rel ls A -> lev_ok le -> e_alloc (le_ev le) = false ->
    find_alloc max_pfn (look (l_tab ls)) (e_pfn (le_ev le)) (e_order (le_ev le)) = Some (Some a) ->
    tget (l_tab ls) a = Some (F, K) ->
    let e := le_ev le in let k := e_order e in let sz := 2 ^ N.of_nat k in let f := F + (e_pfn e - a) in
    exists u' T' orph' A',
      let ls' := mkL u' T' orph' (l_failed ls) (l_unknown ls) (l_reallocs ls) in
      llfree_put g policy (l_u ls) f (le_req le) = (Ok tt, u') /\
      lstep ls le = Some (ls', OPut f k true) /\
      step max_pfn (first_fit max_pfn) true (absst ls A) e = Some (absst ls' A', OPut f k true) /\
      Rel ls' A' /\
      spec_put_enabled g (abs g (low (l_u ls))) f k = true /\
      abs g (low u') = spec_put g (abs g (low (l_u ls))) f k /\
      (k <= K)%nat /\ a <= e_pfn e /\ e_pfn e + sz <= a + 2 ^ N.of_nat K /\
      f mod sz = 0 /\ f + sz <= F + 2 ^ N.of_nat K /\
      alen A' + sz = alen A /\
      tget T' (e_pfn e) = None /\
      (forall j, j < 2 ^ N.of_nat (K - k) -> a + j * sz <> e_pfn e -> tget T' (a + j * sz) = Some (F + j * sz, k)) /\
      (forall q, (forall j, j < 2 ^ N.of_nat (K - k) -> q <> a + j * sz) -> tget T' q = tget (l_tab ls) q).
  Proof.
    intros HR Hev Ha Hfa Hg e k sz f. destruct HR as [HI HS HA HL HP HW].
    destruct (valid_at _ _ HS Hev) as (Hv & Hc). pose proof (shape_frames _ HS) as Hf.
    pose proof Hev as (Hev1 & Hord & _).
    destruct (step_free max_pfn (first_fit max_pfn) (absst ls A) e a F K HA Hev1 Ha Hfa Hg)
      as (s' & Hs & HA' & H1 & H2 & H3 & H4 & H5 & H6 & H7 & H8 & H9 & H10 & H11 & _ & _).
    fold e k sz f in Hs, H1, H2, H3, H4, H5, H6, H7, H8, H9, H10, H11.
    cbn [absst r_alloc r_tab] in H6, H7, H8, H10, H11.
    destruct (I_twf _ _ HA a (F, K) Hg) as (WF1 & WF2 & _). unfold bsize in WF1, WF2. cbn [fst snd] in WF1, WF2.
    (* shape of s' *)
    pose proof Hs as Hs0. unfold step in Hs0. fold e in Ha. rewrite Ha in Hs0.
    cbn [absst r_alloc r_tab r_orph r_failed r_unknown r_reallocs] in Hs0.
    destruct (tab_step max_pfn (l_tab ls, l_orph ls) e 0) as [[[T' orph'] [re| |a0 F0 K0]]|] eqn:TS; try discriminate.
    cbv zeta in Hs0. fold k in Hs0.
    destruct (aput max_pfn A (F0 + (e_pfn e - a0)) k) as [st'|] eqn:AP; [|discriminate].
    injection Hs0 as Es Ef. subst s'. cbn [r_alloc r_tab] in H7, H8, H9, H10, H11.
    (* the put *)
    assert (Hpos : 0 < sz) by apply two_pow_pos.
    destruct (llfree_put g policy (l_u ls) f (le_req le)) as [r u'] eqn:P.
    assert (CK : check g (l_u ls) f (le_req le) = Ok tt).
    { apply check_ok; cbn [le_req r_order r_class]; [exact Hord| | |exact H4|exact Hc]; rewrite Hf; [|exact H64].
      unfold pow2. fold e k sz. clear - H5 WF2. lia. }
    destruct (put_step g policy WF _ _ _ _ _ HI Hv (lift_put _ _ _ _ _ P)) as (_ & HI' & PSO).
    unfold put_step_ok in PSO. cbn [us off] in PSO. rewrite CK in PSO. cbn [le_req r_order] in PSO. fold e k in PSO.
    destruct PSO as (_ & Hiff & Habs & _).
    assert (EN : spec_put_enabled g (abs g (low (l_u ls))) f k = true).
    { unfold spec_put_enabled. apply andb_true_intro. split.
      - apply all_alloc_spec. intros i Hi. rewrite <- HL. apply H6. unfold pow2 in Hi. exact Hi.
      - destruct (Nat.leb (hord g) k) eqn:HK; [|reflexivity]. apply Nat.leb_le in HK.
        apply (whole_tracked_all_whole g _ (l_tab ls) a F K f k Hg HK H4); [apply N.le_add_r|exact H5|exact H1|exact HW]. }
    apply Hiff in EN as Er. subst r. specialize (Habs eq_refl).
    exists u', T', orph', st'. cbv zeta.
    split; [reflexivity|].
    split.
    { unfold ReplayLLFree.lstep. cbv zeta. fold e. rewrite Ha, TS. fold k. rewrite Ef, P. reflexivity. }
    split; [exact Hs|].
    assert (Eal : forall x, allocd st' x = allocd A x && negb ((f <=? x) && (x <? f + sz))).
    { intros x. rewrite H7. apply allocd_aremove. }
    split.
    { constructor; cbn [l_u l_tab l_orph].
      - exact HI'.
      - rewrite (put_shape _ _ _ _ _ P). exact HS.
      - exact HA'.
      - intros x. rewrite Habs, spec_put_alloc_testbit, <- HL, Eal. unfold pow2. reflexivity.
      - rewrite Habs. cbn [spec_put o_alloc].
        pose proof (popcount_ldiff_blk (oa (l_u ls)) f (pow2 k)) as PC.
        rewrite PC in HP by (intros i Hi; rewrite <- HL; apply H6; unfold pow2 in Hi; exact Hi).
        unfold pow2 in HP |- *. clear - HP H8. subst sz. lia.
      - rewrite Habs. apply whole_tracked_put; [exact H4| | |].
        + intros q F1 K1 Hg1. exact (proj1 (I_twf _ _ HA' q (F1, K1) Hg1)).
        + (* a common frame y would still be allocated *)
          intros q F1 K1 y Hg1 Hy1 Hy2.
          assert (T : allocd st' y = true).
          { apply (tracked_allocd max_pfn _ q (F1, K1) y HA' Hg1). unfold inb, bsize. cbn [fst snd]. clear - Hy2. lia. }
          rewrite Eal in T. clear - T Hy1. lia.
        + (* a block tracked afterwards is an old one or a part of the split one *)
          intros q F1 K1 Hg1 HK1 x Hx.
          destruct (part_key_dec a sz (2 ^ N.of_nat (K - k)) q Hpos) as [(j & Hj & ->)|Hno].
          * destruct (N.eq_dec (a + j * sz) (e_pfn e)) as [Eq|Nq]; [rewrite Eq, H9 in Hg1; discriminate|].
            rewrite (H10 j Hj Nq) in Hg1. injection Hg1 as <- <-.
            assert (HKK : (hord g <= K)%nat) by (clear - HK1 H1; lia).
            apply (HW a F K Hg HKK).
            pose proof (part_le j _ sz Hj) as PL. unfold sz in PL at 3. rewrite <- (two_pow_split k K H1) in PL.
            fold sz in Hx. clear - Hx PL. lia.
          * rewrite (H11 q Hno) in Hg1. exact (HW q F1 K1 Hg1 HK1 x Hx). }
    split; [exact EN|]. split; [exact Habs|].
    repeat split; assumption.
  Qed.

  Lemma lstep_unknown ls le : e_alloc (le_ev le) = false ->
    find_alloc max_pfn (look (l_tab ls)) (e_pfn (le_ev le)) (e_order (le_ev le)) = Some None ->
    lstep ls le = Some (mkL (l_u ls) (l_tab ls) (l_orph ls) (l_failed ls) (l_unknown ls + 1) (l_reallocs ls), OUnknown).
  Proof.
    intros Ha Hf. unfold ReplayLLFree.lstep, tab_step. cbv zeta. rewrite Ha. cbn [fst snd]. rewrite Hf. reflexivity.
  Qed.

  Lemma lstep_sim ls A le ls' o : Rel ls A -> lev_ok le -> lstep ls le = Some (ls', o) ->
    exists ch A', choose_ok max_pfn ch /\
      step max_pfn ch true (absst ls A) (le_ev le) = Some (absst ls' A', o) /\ Rel ls' A'.
  Proof.
    intros HR Hev Hs. destruct (e_alloc (le_ev le)) eqn:Ha.
    - destruct (lstep_alloc ls A le ls' o HR Hev Ha Hs) as (f & c & H). cbv zeta in H.
      destruct H as (_ & _ & ST & HR' & _).
      exists (pick max_pfn f (e_order (le_ev le))), ((f, f + 2 ^ N.of_nat (e_order (le_ev le))) :: A).
      split; [apply pick_ok|]. split; assumption.
    - pose proof Hev as (Hev1 & _).
      destruct (free_cases max_pfn (absst ls A) (le_ev le) (R_abs _ _ HR) Hev1) as [Hf|(a & F & K & Hf & Hg)];
        cbn [absst r_tab] in *.
      + rewrite (lstep_unknown ls le Ha Hf) in Hs. injection Hs as <- <-.
        exists (first_fit max_pfn), A. split; [apply first_fit_ok|].
        pose proof (step_unknown max_pfn (first_fit max_pfn) true (absst ls A) (le_ev le) Ha Hf) as SU.
        split; [exact SU|].
        destruct HR as [HI HS HA HL HP HW]. constructor; cbn [l_u l_tab l_orph]; try assumption.
        exact (step_Inv max_pfn _ (first_fit_ok max_pfn) _ _ _ _ HA Hev1 SU).
      + destruct (lstep_free ls A le a F K HR Hev Ha Hf Hg) as (u' & T' & orph' & A' & H). cbv zeta in H.
        destruct H as (_ & Hs' & ST & HR' & _). rewrite Hs' in Hs. injection Hs as <- <-.
        exists (first_fit max_pfn), A'. split; [apply first_fit_ok|]. split; assumption.
  Qed.

  Lemma lrun_sim_with : forall evs ls A ls', Rel ls A -> Forall lev_ok evs -> lrun ls evs = Some ls' ->
    exists chs A', Forall (choose_ok max_pfn) chs /\ length chs = length evs /\
      run_with max_pfn chs (absst ls A) (map le_ev evs) = Some (absst ls' A') /\ Rel ls' A'.
  Proof.
    induction evs as [|le evs IH]; intros ls A ls' HR Hev; cbn [ReplayLLFree.lrun map].
    - intros H. injection H as <-. exists [], A. splits; auto.
    - inversion Hev as [|? ? Hle Hr]; subst.
      destruct (lstep ls le) as [[ls1 o]|] eqn:E; [|discriminate]. intros Hrun.
      destruct (lstep_sim ls A le ls1 o HR Hle E) as (ch & A1 & Hch & ST & HR1).
      destruct (IH ls1 A1 ls' HR1 Hr Hrun) as (chs & A' & H1 & H2 & H3 & H4).
      exists (ch :: chs), A'. cbn [run_with length]. rewrite ST. splits; auto.
  Qed.

  Lemma lrun_sim : forall evs ls A t ls', Rel ls A -> Sim (absst ls A) t -> Forall lev_ok evs ->
    lrun ls evs = Some ls' ->
    exists A' t', Rel ls' A' /\ spec_run max_pfn t (map le_ev evs) = Some t' /\ Sim (absst ls' A') t'.
  Proof.
    intros evs ls A t ls' HR HSim Hev Hrun.
    destruct (lrun_sim_with evs ls A ls' HR Hev Hrun) as (chs & A' & _ & _ & Hw & HR').
    destruct (run_with_sim _ _ _ _ _ _ HSim Hw) as (t' & Ht & HS'). eauto.
  Qed.

  Lemma Sim_init : Sim (absst (linit u0) []) (mkS [] [] 0 0).
  Proof. constructor; reflexivity. Qed.

  Hypothesis HI0 : UpperInv g policy (gx u0).
  Hypothesis Hempty : oa u0 = 0.        (* nothing allocated before the first event *)

  Notation lreplay := (lreplay g policy max_pfn).
  Notation stats_free u := (Lower.free_frames (llfree_stats g u)).

  Lemma reach_Rel pre ls : Forall lev_ok pre -> lreplay u0 pre = Some ls ->
    exists A t, Rel ls A /\ trace_spec max_pfn (map le_ev pre) = Some t /\ Sim (absst ls A) t.
  Proof. intros Hpre Hrun. exact (lrun_sim pre _ [] _ ls (Rel_init HI0 Hempty) Sim_init Hpre Hrun). Qed.

  Lemma stats_alen ls A : Rel ls A -> stats_free (l_u ls) = max_pfn - alen A /\ alen A <= max_pfn.
  Proof.
    intros [HI HS HA HL HP HW].
    destruct (stats_step g policy WF _ HI) as (E & _). cbn [us] in E. rewrite E.
    unfold exact_free. cbn [abs o_frames]. rewrite (shape_frames _ HS). fold (oa (l_u ls)). rewrite HP.
    split; [reflexivity|]. exact (alen_le_max max_pfn A (I_cnt1 _ _ HA) (I_rng _ _ HA)).
  Qed.

  (* what holds at every reachable state: the allocator invariant, and the allocated frames are exactly the
     disjoint union of the tracked and the orphaned blocks *)
  Theorem llfree_reachable pre ls : Forall lev_ok pre -> lreplay u0 pre = Some ls ->
    UpperInv g policy (gx (l_u ls)) /\ frames (low (l_u ls)) = max_pfn /\ l_failed ls = 0 /\
    (forall x, N.testbit (oa (l_u ls)) x = true <->
               exists b, In b (map snd (l_tab ls) ++ l_orph ls) /\ inb x b = true) /\
    (forall x, (length (filter (inb x) (map snd (l_tab ls) ++ l_orph ls)) <= 1)%nat) /\
    stats_free (l_u ls) + (tsum (l_tab ls) + bsum (l_orph ls)) = max_pfn.
  Proof.
    intros Hpre Hrun. destruct (reach_Rel pre ls Hpre Hrun) as (A & t & HR & _ & _).
    destruct (stats_alen ls A HR) as (Est & Hle).
    destruct HR as [HI HS HA HL HP HW]. destruct HA as [Hu Hw Hc Hne Hr Hown Hlen Hf].
    cbn [absst r_alloc r_tab r_orph r_failed] in *.
    split; [exact HI|]. split; [exact (shape_frames _ HS)|]. split; [exact Hf|].
    assert (Hown' : forall x, msum (pt x) (map snd (l_tab ls) ++ l_orph ls) = icnt x A).
    { intros x. rewrite <- Hown. unfold M. cbn [fst snd]. apply msum_app. }
    split; [|split].
    - intros x. rewrite <- HL, icnt_allocd, <- Hown'. apply pt_exists.
    - intros x. specialize (Hown' x). specialize (Hc x). rewrite pt_filter in Hown'. lia.
    - unfold held in Hlen. cbn [absst r_tab r_orph] in Hlen. lia.
  Qed.

  (* Every free event (pfn, k) found inside a tracked allocation a |-> (F, K), at any reachable state: the loop
     calls llfree_put(F + (pfn - a), k) - the traced part -, the REAL allocator model returns Ok, its ownership
     state changes by exactly spec_put (those 2^k frames, all allocated before, become free, every other frame is
     unchanged), the exact free count grows by 2^k, the named part is no longer tracked and every other part j of
     the allocation is tracked as (F + j*2^k, k). *)
  Theorem llfree_frees_traced_block pre ls le : Forall lev_ok pre -> lreplay u0 pre = Some ls ->
    lev_ok le -> e_alloc (le_ev le) = false ->
    forall a F K, find_alloc max_pfn (look (l_tab ls)) (e_pfn (le_ev le)) (e_order (le_ev le)) = Some (Some a) ->
      tget (l_tab ls) a = Some (F, K) ->
      let e := le_ev le in let k := e_order e in let sz := 2 ^ N.of_nat k in let f := F + (e_pfn e - a) in
      exists u' ls',
        llfree_put g policy (l_u ls) f (le_req le) = (Ok tt, u') /\
        lstep ls le = Some (ls', OPut f k true) /\ l_u ls' = u' /\
        (k <= K)%nat /\ a <= e_pfn e /\ e_pfn e + sz <= a + 2 ^ N.of_nat K /\
        spec_put_enabled g (abs g (low (l_u ls))) f k = true /\
        abs g (low u') = spec_put g (abs g (low (l_u ls))) f k /\
        (forall x, f <= x < f + sz -> N.testbit (oa (l_u ls)) x = true) /\
        (forall x, N.testbit (oa u') x = N.testbit (oa (l_u ls)) x && negb ((f <=? x) && (x <? f + sz))) /\
        stats_free u' = stats_free (l_u ls) + sz /\
        UpperInv g policy (gx u') /\
        tget (l_tab ls') (e_pfn e) = None /\
        (forall j, j < 2 ^ N.of_nat (K - k) -> a + j * sz <> e_pfn e ->
                   tget (l_tab ls') (a + j * sz) = Some (F + j * sz, k)) /\
        (forall q, (forall j, j < 2 ^ N.of_nat (K - k) -> q <> a + j * sz) -> tget (l_tab ls') q = tget (l_tab ls) q) /\
        l_failed ls' = 0 /\ l_unknown ls' = l_unknown ls /\ l_reallocs ls' = l_reallocs ls.
  Proof.
    intros Hpre Hrun Hev Ha a F K Hf Hg e k sz f.
    destruct (reach_Rel pre ls Hpre Hrun) as (A & t & HR & _ & _).
    destruct (lstep_free ls A le a F K HR Hev Ha Hf Hg) as (u' & T' & orph' & A' & H). cbv zeta in H.
    fold e k sz f in H.
    destruct H as (P & Hs & _ & HR' & EN & Habs & H1 & H2 & H3 & H4 & H5 & H6 & H7 & H8 & H9).
    exists u', (mkL u' T' orph' (l_failed ls) (l_unknown ls) (l_reallocs ls)). cbn [l_u l_tab l_failed l_unknown l_reallocs].
    destruct (stats_alen _ _ HR) as (S1 & L1). destruct (stats_alen _ _ HR') as (S2 & L2). cbn [l_u] in S2.
    splits; try assumption; try reflexivity.
    - intros x Hx. unfold spec_put_enabled in EN. apply andb_prop in EN. destruct EN as (EN & _).
      rewrite all_alloc_spec in EN. apply EN. unfold pow2. exact Hx.
    - intros x. rewrite Habs, spec_put_alloc_testbit. reflexivity.
    - lia.
    - exact (R_inv _ _ HR').
    - pose proof (I_failed _ _ (R_abs _ _ HR')) as Hfl. exact Hfl.
  Qed.

  (* A free event never panics and never fails: it is an unknown free (which only increments free_unkown and
     leaves the allocator alone) or a successful put. *)
  Theorem llfree_free_never_fails pre ls le : Forall lev_ok pre -> lreplay u0 pre = Some ls ->
    lev_ok le -> e_alloc (le_ev le) = false ->
    exists ls' o, lstep ls le = Some (ls', o) /\ l_failed ls' = 0 /\
      (o = OUnknown \/ exists f, o = OPut f (e_order (le_ev le)) true).
  Proof.
    intros Hpre Hrun Hev Ha. destruct (reach_Rel pre ls Hpre Hrun) as (A & t & HR & _ & _).
    pose proof Hev as (Hev1 & _).
    destruct (free_cases max_pfn (absst ls A) (le_ev le) (R_abs _ _ HR) Hev1) as [Hf|(a & F & K & Hf & Hg)];
      cbn [absst r_tab] in *.
    - rewrite (lstep_unknown ls le Ha Hf). eexists _, _. split; [reflexivity|]. cbn [l_failed].
      split; [exact (I_failed _ _ (R_abs _ _ HR))|left; reflexivity].
    - destruct (lstep_free ls A le a F K HR Hev Ha Hf Hg) as (u' & T' & orph' & A' & H). cbv zeta in H.
      destruct H as (_ & Hs & _ & HR' & _). rewrite Hs. eexists _, _. split; [reflexivity|].
      split; [exact (I_failed _ _ (R_abs _ _ HR'))|right; eauto].
  Qed.

  Theorem llfree_unknown_free ls le : e_alloc (le_ev le) = false ->
    find_alloc max_pfn (look (l_tab ls)) (e_pfn (le_ev le)) (e_order (le_ev le)) = Some None ->
    exists ls', lstep ls le = Some (ls', OUnknown) /\
      l_u ls' = l_u ls /\ l_tab ls' = l_tab ls /\ l_orph ls' = l_orph ls /\
      l_failed ls' = l_failed ls /\ l_unknown ls' = l_unknown ls + 1 /\ l_reallocs ls' = l_reallocs ls.
  Proof. intros Ha Hf. rewrite (lstep_unknown ls le Ha Hf). eexists. split; [reflexivity|]. cbn. repeat split. Qed.

  (* At the end of any trace: `stats().free_frames` of the real allocator model is max_pfn minus what the trace
     holds - the tracked blocks plus the orphaned blocks, both functions of the trace alone (trace_spec) -, no
     free failed, the counters agree. *)
  Theorem llfree_final_count evs ls : Forall lev_ok evs -> lreplay u0 evs = Some ls ->
    exists t, trace_spec max_pfn (map le_ev evs) = Some t /\
      let tracked := tsum (s_tab t) in let orphaned := bsum (s_orph t) in
      trace_held max_pfn (map le_ev evs) = Some (tracked + orphaned) /\
      tracked + orphaned <= max_pfn /\
      stats_free (l_u ls) = max_pfn - (tracked + orphaned) /\
      exact_free (abs g (low (l_u ls))) = max_pfn - (tracked + orphaned) /\
      l_failed ls = 0 /\ l_unknown ls = s_unknown t /\ l_reallocs ls = s_reallocs t /\
      tsum (l_tab ls) = tracked /\ bsum (l_orph ls) = orphaned /\
      UpperInv g policy (gx (l_u ls)).
  Proof.
    intros Hev Hrun. destruct (reach_Rel evs ls Hev Hrun) as (A & t & HR & Ht & HSim).
    exists t. split; [exact Ht|]. intros tracked orphaned.
    destruct (stats_alen ls A HR) as (Est & Hle).
    pose proof (stats_step g policy WF _ (R_inv _ _ HR)) as (Eex & _). cbn [us] in Eex.
    destruct HSim as [S1 S2 S3 S4]. cbn [absst r_tab r_orph r_unknown r_reallocs] in *.
    pose proof (R_inv _ _ HR) as HI.
    destruct (R_abs _ _ HR) as [_ _ _ _ _ _ Hlen Hf]. unfold held in Hlen. cbn [absst r_alloc r_tab r_orph r_failed] in *.
    assert (E1 : tsum (l_tab ls) = tracked) by (apply tsum_proj; assumption).
    assert (E2 : bsum (l_orph ls) = orphaned) by (apply bsum_osim; assumption).
    rewrite E1, E2 in Hlen.
    splits; try assumption.
    - unfold trace_held. rewrite Ht. reflexivity.
    - lia.
    - lia.
    - rewrite <- Eex. lia.
  Qed.

  (* the simulation, stated for reachable states *)
  Theorem llfree_step_simulated pre ls le ls' o : Forall lev_ok pre -> lreplay u0 pre = Some ls ->
    lev_ok le -> lstep ls le = Some (ls', o) ->
    exists A A' ch, choose_ok max_pfn ch /\
      step max_pfn ch true (absst ls A) (le_ev le) = Some (absst ls' A', o) /\
      Inv max_pfn (absst ls A) /\ Inv max_pfn (absst ls' A') /\
      (forall x, allocd A x = N.testbit (oa (l_u ls)) x) /\
      (forall x, allocd A' x = N.testbit (oa (l_u ls')) x).
  Proof.
    intros Hpre Hrun Hev Hs. destruct (reach_Rel pre ls Hpre Hrun) as (A & t & HR & _ & _).
    destruct (lstep_sim ls A le ls' o HR Hev Hs) as (ch & A' & Hch & ST & HR').
    exists A, A', ch. splits; auto; try apply R_abs; try apply R_link; assumption.
  Qed.

  (* the simulation of a whole run: the abstract loop, given for each event an oracle satisfying choose_ok,
     reaches the state with the same table / orphans / counters whose allocated set is the real model's *)
  Theorem llfree_run_simulated evs ls : Forall lev_ok evs -> lreplay u0 evs = Some ls ->
    exists chs A, Forall (choose_ok max_pfn) chs /\ length chs = length evs /\
      run_with max_pfn chs init (map le_ev evs) = Some (absst ls A) /\
      Inv max_pfn (absst ls A) /\
      (forall x, allocd A x = N.testbit (oa (l_u ls)) x) /\
      Replay.free_frames max_pfn A = stats_free (l_u ls).
  Proof.
    intros Hev Hrun.
    destruct (lrun_sim_with evs _ [] ls (Rel_init HI0 Hempty) Hev Hrun) as (chs & A & H1 & H2 & H3 & HR).
    exists chs, A. destruct (stats_alen ls A HR) as (Est & _).
    splits; auto; try apply R_abs; try apply R_link; try assumption.
  Qed.
End Bridge.

(* `llfree_new` in mode FreeAll (replay.rs line 99) yields a state satisfying the hypotheses of the theorems above:
   any classing with ids < 8 and a configured default class, a local buffer without reservations *)
Theorem llfree_new_start g policy : wf_geom g ->
  forall fr classing d lbuf tbuf sbuf,
    Forall (fun s => s_pres s = false) sbuf ->
    (forall c k, In (c, k) classing -> c < 8) ->
    (exists k, In (d, k) classing) ->
    exists u0, llfree_new g fr IFreeAll classing d lbuf tbuf sbuf = Ok u0 /\
      UpperInv g policy (ustate_new u0) /\ frames (low u0) = fr /\ o_alloc (abs g (low u0)) = 0.
Proof.
  intros WF fr classing d lbuf tbuf sbuf Hb Hc Hd.
  destruct (init_inv g WF policy fr IFreeAll classing d lbuf tbuf sbuf I Hb Hc Hd) as (u & E & HI & Hl & Hf & _).
  exists u. splits; auto. rewrite Hl. cbn [lower_new]. apply (free_all_alloc g WF).
Qed.

Theorem llfree_final_count_new g policy :
  wf_geom g -> pol_refl_match policy -> pol_demote_trans policy ->
  forall max_pfn classing d lbuf tbuf sbuf,
    max_pfn < W64 ->
    Forall (fun s => s_pres s = false) sbuf ->
    (forall c k, In (c, k) classing -> c < 8) ->
    (exists k, In (d, k) classing) ->
    exists u0, llfree_new g max_pfn IFreeAll classing d lbuf tbuf sbuf = Ok u0 /\
      forall evs ls, Forall (lev_ok g max_pfn u0) evs -> lreplay g policy max_pfn u0 evs = Some ls ->
        exists t, trace_spec max_pfn (map le_ev evs) = Some t /\
          let tracked := tsum (s_tab t) in let orphaned := bsum (s_orph t) in
          trace_held max_pfn (map le_ev evs) = Some (tracked + orphaned) /\
          tracked + orphaned <= max_pfn /\
          Lower.free_frames (llfree_stats g (l_u ls)) = max_pfn - (tracked + orphaned) /\
          exact_free (abs g (low (l_u ls))) = max_pfn - (tracked + orphaned) /\
          l_failed ls = 0 /\ l_unknown ls = s_unknown t /\ l_reallocs ls = s_reallocs t /\
          tsum (l_tab ls) = tracked /\ bsum (l_orph ls) = orphaned /\
          UpperInv g policy {| us := l_u ls; off := repeat 0 (length (trees u0)) |}.
Proof.
  intros WF PR PT max_pfn classing d lbuf tbuf sbuf H64 Hb Hc Hd.
  destruct (llfree_new_start g policy WF max_pfn classing d lbuf tbuf sbuf Hb Hc Hd) as (u0 & E & HI & Hf & H0).
  exists u0. split; [exact E|]. intros evs ls Hev Hrun.
  exact (llfree_final_count g policy max_pfn WF PR PT u0 _ Hf H64 HI H0 evs ls Hev Hrun).
Qed.

(* the hypotheses on the policy hold for the built-in policies (Simple, Movable, Zeroed, ZeroSlot) *)
Theorem builtin_policy_hyps p TFv : builtin_policy p TFv -> pol_refl_match p /\ pol_demote_trans p.
Proof. intros H. destruct (builtin_facts _ _ H) as (A & _ & B & _). split; assumption. Qed.

(* the hypothesis on events, as a boolean *)
Definition lev_okb (g : geom) (max_pfn : N) (u0 : upper) (le : levent) : bool :=
  ev_okb max_pfn (le_ev le) && Nat.leb (e_order (le_ev le)) (tord g) &&
  match class_slots u0 (le_class le) with
  | None => false
  | Some l => match le_local le with Some j => j <? N.of_nat (length l) | None => true end
  end.

Lemma lev_okb_ok g max_pfn u0 le : lev_okb g max_pfn u0 le = true -> lev_ok g max_pfn u0 le.
Proof.
  unfold lev_okb, lev_ok. intros H. apply andb_prop in H. destruct H as (H & H3).
  apply andb_prop in H. destruct H as (H1 & H2).
  split; [apply ev_okb_ok; exact H1|]. split; [apply Nat.leb_le; exact H2|].
  destruct (class_slots u0 (le_class le)) as [l|] eqn:E; [|discriminate].
  split; [discriminate|]. unfold valid_req, idx_ok. cbn [le_req r_local r_class].
  destruct (le_local le) as [j|]; [|exact I]. intros l' E'. rewrite E in E'. injection E' as <-. lia.
Qed.

(* geometry 7/1 (huge frame = 128 frames, tree = 256 frames), 1024 frames, classes 0 and 1 with one slot each,
   the Simple policy.  The trace allocates a whole tree (order 8 > hord), frees its upper huge frame (a part of
   order hord: the covered huge frame must be allocated whole), then 64 frames inside the remaining huge frame
   (a part of order < hord: splits the huge frame); an order-0 block is allocated at pfn 0 and re-allocated at
   order 2 (the first block is orphaned), the upper half of it is freed; the last free names an unknown block.
   The trace still holds 64 + 2 tracked and 1 orphaned frames. *)
Definition ex_g : geom := {| hord := 7; tlog := 1 |}.
Definition ex_pol := pol_simple 256.
Definition ex_u0 : upper :=
  match llfree_new ex_g 1024 IFreeAll [(0, 1); (1, 1)] 1 (free_all ex_g 1024) [] (repeat slot_none 2) with
  | Ok u => u
  | _ => {| low := free_all ex_g 0; trees := []; locals := []; dflt := 0 |}
  end.
Definition ex_trace : list levent :=
  [mkLev (mkEv true 256 8) 1 (Some 0); mkLev (mkEv false 384 7) 1 (Some 0); mkLev (mkEv false 320 6) 0 None;
   mkLev (mkEv true 0 0) 0 (Some 0); mkLev (mkEv true 0 2) 0 (Some 0); mkLev (mkEv false 2 1) 1 None;
   mkLev (mkEv false 900 0) 1 None].

Example llfree_replay_example :
  wf_geom ex_g /\ pol_refl_match ex_pol /\ pol_demote_trans ex_pol /\
  llfree_new ex_g 1024 IFreeAll [(0, 1); (1, 1)] 1 (free_all ex_g 1024) [] (repeat slot_none 2) = Ok ex_u0 /\
  Forall (lev_ok ex_g 1024 ex_u0) ex_trace /\
  lrun_log ex_g ex_pol 1024 (linit ex_u0) ex_trace =
    Some [OAlloc 0 8; OPut 128 7 true; OPut 64 6 true; OAlloc 768 0; OAlloc 772 2; OPut 774 1 true; OUnknown] /\
  option_map (lresult ex_g) (lreplay ex_g ex_pol 1024 ex_u0 ex_trace) = Some (957, 0, 1, 1) /\
  trace_held 1024 (map le_ev ex_trace) = Some 67.
Proof.
  split; [unfold wf_geom, ex_g; cbn; lia|].
  split; [apply pol_simple_facts|]. split; [apply pol_simple_facts|].
  split; [vm_compute; reflexivity|].
  split; [repeat (apply Forall_cons; [apply lev_okb_ok; vm_compute; reflexivity|]); apply Forall_nil|].
  split; [vm_compute; reflexivity|]. split; vm_compute; reflexivity.
Qed.
