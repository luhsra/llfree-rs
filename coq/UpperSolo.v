(* A call run ALONE on the small-step machine M2 (UpperMachine.v) computes the big-step function of the
   sequential model (Upper.v): same result, same final memory, other threads untouched, ghost held list updated
   as `ufinish` does; on `Panic x` the thread stops in `UPanic x c` (same site; the memory is not claimed).
   This file: the call kinds put, drain, change_tree, and the glue from the thread-level simulation
   (UpperSoloLemmas.v) to the fuel-bounded solo run of `ustep` (`usolo_of_sim`).  get is in UpperSoloGet.v.
     usolo_put    : Shape g (low u)                       (one lower call, SoloRun.v)
     usolo_drain  : no hypothesis
     usolo_change : TreesFit g u  (ntrees * THUGE <= |ents|: the huge-entry table covers every tree entry)
   Method: continuation-passing simulation.  For every function F of the code with entry action `enter_F u args k`:
   if the thread is about to process that action with return-chain depth d (`At d u (enter_F ..) cf`), then running
   alone it reaches (`Reach`) the configuration that delivers F's big-step result to the continuation k
   (`Delivers`: `At d' u' (ARet v k)`, or the panic state).  One lemma per primitive (UpperSoloLemmas.v) and per
   control construct. *)
From Coq Require Import PeanoNat ZifyBool.
From LLF Require Import Base BitLemmas Row RowProofs Bitfield Lower Spec AbsLemmas Sorted Upper LowerMachine
  UpperInvDef LowerFacts LowerFactsProofs UpperPrims SoloRunLemmas SoloRun Progress UpperMachine UpperScan UpperSoloLemmas.
From LLF Require UpperProgress.

(* conversion checks (`exact`, `Qed`) must not unfold `settle` with fuel 64 *)
Local Strategy 1000 [settle].

Section Calls.
  Variable g : geom.
  Variable policy : N -> N -> N -> pol.
  Hypothesis WF : wf_geom g.
  Notation TF := (TF g).
  Notation At := (At g policy).
  Notation Reach := (Reach g policy).
  Notation Delivers := (Delivers g policy).
  Notation res_ok := UpperProgress.res_ok.

  Lemma check_ok u fr r x : check g u fr r = Ok x ->
    Nat.leb (r_order r) (tord g) = true /\ fr + pow2 (r_order r) <= frames (low u) /\ fr mod pow2 (r_order r) = 0 /\
    class_locals u (r_class r) <> None.
  Proof.
    unfold check.
    destruct (Nat.leb (r_order r) (tord g)); cbn [negb]; [|discriminate].
    destruct ((fr + pow2 (r_order r) <? W64) && (fr + pow2 (r_order r) <=? frames (low u))) eqn:E1; cbn [negb]; [|discriminate].
    destruct (fr mod pow2 (r_order r) =? 0) eqn:E2; cbn [negb]; [|discriminate].
    destruct (class_locals u (r_class r)); [|discriminate].
    intros _. apply andb_true_iff in E1. destruct E1 as [_ E1]. apply N.leb_le in E1. apply N.eqb_eq in E2.
    repeat split; try assumption. discriminate.
  Qed.

  Lemma tree_put_no_err d t free e : tree_put g policy d t free <> Err e.
  Proof. unfold tree_put. destruct (TF <? t_free t + free); discriminate. Qed.
  Lemma slot_put_no_err s tree free e : slot_put g s tree free <> Some (Err e).
  Proof.
    unfold slot_put. destruct (s_pres s && (row_tree g (s_row s) =? tree)); [|discriminate].
    destruct (s_free s + free <=? TF); discriminate.
  Qed.
  Lemma tree_unreserve_no_err d t free class e : tree_unreserve_add g policy d t free class <> Some (Err e).
  Proof.
    unfold tree_unreserve_add. destruct (t_res t); [|discriminate]. intros H. injection H as H.
    destruct (policy class (t_class t) free); try discriminate H; eapply tree_put_no_err; exact H.
  Qed.

  (* the outcome of a whole call *)
  Definition unit_res (x : res unit * upper) : res (N * N) * upper :=
    match x with (Ok _, u') => (Ok (0, 0), u') | (Err e, u') => (Err e, u') | (Panic s, u') => (Panic s, u') end.
  Definition Final (x : res (N * N) * upper) (c' : CF) : Prop :=
    match x with
    | (Panic s, _) => Crashed s c'
    | (r, u') => c' = (u', SDone r)
    end.
  (* `unit` results travel as Ok (0, 0) *)
  Definition uval (_ : unit) : N * N := (0, 0).

  Lemma Delivers_final d (I : upper -> Prop) x c' : Delivers (fun y => y) d [] I x c' -> Final x c'.
  Proof.
    destruct x as [[y|e|s] u']; cbn [Delivers UpperSoloLemmas.Delivers Lands out_res fst snd Final];
      try (intros [H _]; apply At_done in H; exact H). exact (fun H => H).
  Qed.
  Lemma Delivers_final_unit d (I : upper -> Prop) x c' : Delivers uval d [] I x c' -> Final (unit_res x) c'.
  Proof.
    destruct x as [[y|e|s] u']; cbn [Delivers UpperSoloLemmas.Delivers Lands out_res fst snd Final unit_res];
      try (intros [H _]; apply At_done in H; exact H). exact (fun H => H).
  Qed.

  (* Trees::put and Trees::unreserve alone, whatever frame f waits for the outcome *)
  Lemma tput_sim u i free f k d cf : At d u (enter_tput u i free (f :: k)) cf ->
    Reach cf (fun c' => match trees_put g policy u i free with
                        | (Ok _, u') => exists t t', u' = set_tree u i t' /\ At 1 u' (resume g policy u' (VT true t t') f k) c'
                        | (Err _, _) => False
                        | (Panic s, _) => Crashed s c'
                        end).
  Proof.
    intros HA. unfold enter_tput in HA. use_tu HA Q. apply Reach_here. unfold trees_put.
    destruct (tree_at u i) as [t|]; [|exact Q].
    destruct (tree_put g policy (dflt u) t free) as [t'|e|s] eqn:E.
    - exists t, t'. split; [reflexivity|]. apply At_ret in Q; [exact Q | unfold SETTLE; lia].
    - exfalso. eapply tree_put_no_err; exact E.
    - exact Q.
  Qed.
  (* `.expect(..)`: every frame that waits for an unreserve panics when the update did not apply *)
  Lemma tunres_sim u i free class f k d cf :
    (forall u' t, resume g policy u' (VT false t t) f k = APanic SUnreserveFailed) ->
    At d u (enter_tu u i (FUnres free class) (f :: k)) cf ->
    Reach cf (fun c' => match trees_unreserve g policy u i free class with
                        | (Ok _, u') => exists t t', u' = set_tree u i t' /\ At 1 u' (resume g policy u' (VT true t t') f k) c'
                        | (Err _, _) => False
                        | (Panic s, _) => Crashed s c'
                        end).
  Proof.
    intros Hf HA. use_tu HA Q. apply Reach_here. unfold trees_unreserve.
    destruct (tree_at u i) as [t|]; [|exact Q].
    destruct (tree_unreserve_add g policy (dflt u) t free class) as [[t'|e|x]|] eqn:E.
    - exists t, t'. split; [reflexivity|]. apply At_ret in Q; [exact Q | unfold SETTLE; lia].
    - exfalso. eapply tree_unreserve_no_err; exact E.
    - exact Q.
    - apply At_ret in Q; [|unfold SETTLE; lia]. rewrite Hf in Q. apply At_panic in Q. exact Q.
  Qed.

  (* trees.put(..), then return r0 (frame KRetR); trees.unreserve(..).expect(..), then return r0 (frame KUnres) *)
  Lemma ret_r_val (r0 : res (N * N)) k : res_ok r0 = true -> ret_r r0 k = ARet (VR r0) k.
  Proof. destruct r0; [reflexivity | reflexivity | discriminate]. Qed.
  Lemma then_ret_sim (I : upper -> Prop) (x : res unit * upper) r0 k c' : res_ok r0 = true -> I (snd x) ->
    match x with
    | (Ok _, u') => At 1 u' (ret_r r0 k) c'
    | (Err _, _) => False
    | (Panic s, _) => Crashed s c'
    end -> Delivers (fun y => y) 1 k I (lift x (fun _ u' => (r0, u'))) c'.
  Proof.
    intros Hr HI. destruct x as [[y|e|s] u']; cbn [lift snd] in *; [|intros []|exact (fun H => H)].
    rewrite (ret_r_val r0 k Hr). intros H. destruct r0; [split; assumption | split; assumption | discriminate Hr].
  Qed.
  Lemma tput_ret_sim (I : upper -> Prop) u i free r0 k d cf : res_ok r0 = true -> I (snd (trees_put g policy u i free)) ->
    At d u (enter_tput u i free (KRetR r0 :: k)) cf ->
    Reach cf (Delivers (fun y => y) 1 k I (lift (trees_put g policy u i free) (fun _ u' => (r0, u')))).
  Proof.
    intros Hr HI HA. eapply Reach_weaken; [exact (tput_sim _ _ _ _ _ _ _ HA)|]. intros c' H.
    apply then_ret_sim; [exact Hr | exact HI |].
    destruct (trees_put g policy u i free) as [[y|e|s] u']; [destruct H as (t & t' & _ & H)|..]; exact H.
  Qed.
  Lemma tunres_ret_sim (I : upper -> Prop) u i free class r0 k d cf : res_ok r0 = true -> I (snd (trees_unreserve g policy u i free class)) ->
    At d u (enter_tu u i (FUnres free class) (KUnres r0 :: k)) cf ->
    Reach cf (Delivers (fun y => y) 1 k I (lift (trees_unreserve g policy u i free class) (fun _ u' => (r0, u')))).
  Proof.
    intros Hr HI HA. eapply Reach_weaken; [exact (tunres_sim u i free class (KUnres r0) k d cf (fun _ _ => eq_refl) HA)|]. intros c' H.
    apply then_ret_sim; [exact Hr | exact HI |].
    destruct (trees_unreserve g policy u i free class) as [[y|e|s] u']; [destruct H as (t & t' & _ & H)|..]; exact H.
  Qed.

  Lemma put_sim u frame r cf : Shape g (low u) -> At 0 u (enter_put g u frame r []) cf ->
    Reach cf (Final (unit_res (llfree_put g policy u frame r))).
  Proof.
    intros Sh HA. unfold enter_put in HA. unfold llfree_put.
    destruct (check g u frame r) as [x|e|s] eqn:Ec.
    3: { exfalso. eapply UpperProgress.check_no_panic; exact Ec. }
    2: { apply Reach_here. apply At_done in HA. exact HA. }
    destruct (check_ok _ _ _ _ Ec) as (Ho & Hr & Ha & Hc).
    eapply Reach_bind; [apply (low_sim g policy WF u (CPut frame (r_order r)) [KPut1 frame r] 0 cf Sh); [|exact HA]|].
    { unfold call_ok. cbn [c_order mk ms_frames]. rewrite Ho. cbn [andb].
      apply andb_true_iff. split; [apply N.eqb_eq; exact Ha | apply N.leb_le; exact Hr]. }
    intros c1 Q1. cbn [big] in Q1.
    destruct (lower_put g (low u) frame (r_order r)) as [[y|e|s] l']; cbn [fst snd low_out Lands] in Q1.
    3: { apply Reach_here. exact Q1. }
    2: { destruct Q1 as [Q1 _]. ret_step Q1. apply Reach_here. apply At_done in Q1. exact Q1. }
    (* the lower put succeeded *)
    destruct Q1 as [Q1 _]. ret_step Q1. set (u1 := with_low u l') in *.
    assert (HT : forall cf, At 1 u1 (enter_tput u1 (frame / TF) (pow2 (r_order r)) [KRetR (Ok (0, 0))]) cf ->
                 Reach cf (Final (unit_res (trees_put g policy u1 (frame / TF) (pow2 (r_order r)))))).
    { intros cf' H. eapply Reach_weaken; [exact (tput_ret_sim (fun _ => True) _ _ _ (Ok (0, 0)) _ _ _ eq_refl I H)|].
      intros c'. apply Delivers_final. }
    destruct (r_local r) as [local|]; [|apply HT; exact Q1].
    unfold locals_put. apply slot_enter in Q1.
    destruct (class_slots u1 (r_class r)) as [l|]; [|apply HT; exact Q1].
    destruct (nth_error l (nn local)) as [s|]; [|apply Reach_here; exact Q1].
    apply (Reach_bind _ _ _ _ _ Q1). intros c2 Q2. unfold su_post in Q2. cbn [sf_apply] in Q2.
    destruct (slot_put g s (frame / TF) (pow2 (r_order r))) as [[s'|e2|x2]|] eqn:Esp.
    - ret_step Q2. apply Reach_here. apply At_done in Q2. exact Q2.
    - exfalso. eapply slot_put_no_err; exact Esp.
    - apply Reach_here. exact Q2.
    - ret_step Q2. apply HT. exact Q2.
  Qed.

  Lemma dr_next_end u c j k : 8 <= c -> dr_next u c j k = ARet (VR (Ok (0, 0))) k.
  Proof. intros H. unfold dr_next. rewrite drain_scan_gscan, gscan_end by exact H. reflexivity. Qed.
  Lemma dr_next_hit u c j k : c < 8 -> (nn j < slots_len u c)%nat ->
    dr_next u c j k = ADo (PSW c j slot_none) (KDr1 c j :: k).
  Proof. intros Hc Hj. unfold dr_next. rewrite drain_scan_gscan, gscan_hit by assumption. reflexivity. Qed.
  Lemma dr_next_skip u c j k : c < 8 -> (slots_len u c <= nn j)%nat -> dr_next u c j k = dr_next u (c + 1) 0 k.
  Proof.
    intros Hc Hj. unfold dr_next. rewrite !drain_scan_gscan, gscan_skip_fuel by (assumption || lia). reflexivity.
  Qed.

  Lemma slots_len_set_slot u c j s c' : slots_len (set_slot u c j s) c' = slots_len u c'.
  Proof.
    unfold slots_len. destruct (N.eq_dec c' c) as [->|Hne].
    - destruct (class_slots u c) as [l|] eqn:E.
      + rewrite (class_slots_set_slot_same u c j s l E). apply upd_length.
      + unfold set_slot. rewrite E, E. reflexivity.
    - rewrite class_slots_set_slot_other by exact Hne. reflexivity.
  Qed.

  (* what a drain delivers to k *)
  Notation DrPost d k := (Delivers uval (Nat.max d 1) k (fun _ => True)).

  Lemma drain_slots_sim k c n : c < 8 -> c + 1 + N.of_nat n = 8 ->
    (forall u d cf, At d u (dr_next u (c + 1) 0 k) cf -> Reach cf (DrPost d k (drain_classes g policy u (c + 1) n))) ->
    forall m u j d cf, slots_len u c = (nn j + m)%nat -> At d u (dr_next u c j k) cf ->
      Reach cf (DrPost d k (lift (drain_slots g policy u c j m) (fun _ u1 => drain_classes g policy u1 (c + 1) n))).
  Proof.
    intros Hc Hn Hout. induction m as [|m IH]; intros u j d cf Hl HA.
    - cbn [drain_slots lift]. rewrite dr_next_skip in HA by lia. apply Hout. exact HA.
    - rewrite dr_next_hit in HA by lia. use_sw HA Q.
      cbn [drain_slots]. unfold slots_len in Hl. unfold slot_at in Q.
      destruct (class_slots u c) as [l|] eqn:Ecs; [|lia].
      destruct (nth_error l (nn j)) as [s|] eqn:En; [|apply nth_error_None in En; lia].
      ret_step Q. set (u1 := set_slot u c j slot_none) in *.
      assert (Hl1 : slots_len u1 c = (nn (j + 1) + m)%nat).
      { unfold u1. rewrite slots_len_set_slot. unfold slots_len. rewrite Ecs. unfold nn in *. lia. }
      (* the rest of the class, entered after a primitive *)
      assert (Hrest : forall u2 c2, slots_len u2 c = slots_len u1 c -> At 1 u2 (dr_next u2 c (j + 1) k) c2 ->
                Reach c2 (DrPost d k (lift (drain_slots g policy u2 c (j + 1) m) (fun _ u3 => drain_classes g policy u3 (c + 1) n)))).
      { intros u2 c2 E H. eapply Delivers_mono; [|apply (IH u2 (j + 1) 1%nat c2); [congruence | exact H]]. lia. }
      destruct (s_pres s); [|apply Hrest; [reflexivity | exact Q]].
      eapply Reach_bind; [exact (tunres_sim _ _ _ _ (KDr2 c j) k _ _ (fun _ _ => eq_refl) Q)|]. intros c2 Q2.
      destruct (trees_unreserve g policy u1 (row_tree g (s_row s)) (s_free s) c) as [[y|e|x] u2]; cbn [lift].
      + destruct Q2 as (t & t' & -> & Q2). cbn [resume] in Q2. apply Hrest; [reflexivity | exact Q2].
      + destruct Q2.
      + apply Reach_here. exact Q2.
  Qed.

  Lemma drain_classes_sim k n : forall c u d cf, c + N.of_nat n = 8 -> At d u (dr_next u c 0 k) cf ->
    Reach cf (DrPost d k (drain_classes g policy u c n)).
  Proof.
    induction n as [|n IH]; intros c u d cf Hc HA.
    - cbn [drain_classes]. rewrite dr_next_end in HA by lia. apply Reach_here.
      split; [eapply At_mono; [exact HA | lia] | exact I].
    - cbn [drain_classes]. assert (E : c + 1 + N.of_nat n = 8) by lia.
      apply (drain_slots_sim k c n ltac:(lia) E); [| |exact HA].
      + intros u' d' cf' HA'. exact (IH (c + 1) u' d' cf' E HA').
      + unfold slots_len. destruct (class_slots u c); cbn; lia.
  Qed.

  Lemma drain_sim u cf : At 0 u (dr_next u 0 0 []) cf -> Reach cf (Final (unit_res (llfree_drain g policy u))).
  Proof.
    intros HA. unfold llfree_drain.
    eapply Reach_weaken; [apply (drain_classes_sim [] 8 0 u 0%nat cf); [reflexivity | exact HA]|].
    intros c'. apply Delivers_final_unit.
  Qed.

  (* change_tree: the huge-entry table covers every tree entry *)
  Definition TreesFit (u : upper) : Prop := ntrees u * THUGE g <= N.of_nat (length (ents (low u))).

  Lemma ptf_loop_sum u i n : forall j a, (nn j + S n = thuge_nat g)%nat ->
    (nn (i * THUGE g) + thuge_nat g <= length (ents (low u)))%nat ->
    ptf_loop g u i j a (S n) =
      Some (a + fold_right (fun e acc => e_free e + acc) 0 (firstn (S n) (skipn (nn (i * THUGE g + j)) (ents (low u))))).
  Proof.
    pose proof (THUGE_nat g) as HT.
    induction n as [|n IH]; intros j a Hj Hlen.
    - cbn [ptf_loop]. destruct (nth_error (ents (low u)) (nn (i * THUGE g + j))) as [e|] eqn:Ee.
      2: { apply nth_error_None in Ee. unfold nn in *. lia. }
      replace (j + 1 <? THUGE g) with false by (symmetry; apply N.ltb_ge; unfold nn in *; lia).
      rewrite (skipn_nth_cons _ _ _ Ee). cbn [firstn fold_right]. f_equal. lia.
    - remember (S n) as m. cbn [ptf_loop]. destruct (nth_error (ents (low u)) (nn (i * THUGE g + j))) as [e|] eqn:Ee.
      2: { apply nth_error_None in Ee. unfold nn in *. lia. }
      replace (j + 1 <? THUGE g) with true by (symmetry; apply N.ltb_lt; unfold nn in *; lia).
      subst m. rewrite IH by (unfold nn in *; lia).
      rewrite (skipn_nth_cons _ _ _ Ee). cbn [firstn fold_right].
      replace (nn (i * THUGE g + (j + 1))) with (S (nn (i * THUGE g + j))) by (unfold nn; lia).
      f_equal. lia.
  Qed.

  Lemma stats_at_tree u i : TreesFit u -> i < ntrees u ->
    exists s, lower_stats_at g (low u) (i * TF) (tord g) = Ok s /\
              ptf_loop g u i 0 0 (thuge_nat g) = Some (free_frames s).
  Proof.
    intros Hfit Hi. unfold TreesFit in Hfit. pose proof (THUGE_nat g) as HT. pose proof (THUGE_pos g) as HTp.
    pose proof (TF_pos g) as HTF. destruct WF as (W6 & _).
    assert (Hlen : (nn (i * THUGE g) + thuge_nat g <= length (ents (low u)))%nat).
    { unfold nn. assert ((i + 1) * THUGE g <= ntrees u * THUGE g) by (apply N.mul_le_mono_r; lia). lia. }
    unfold lower_stats_at. rewrite N.div_mul by lia.
    replace (has_tree g (low u) i) with true.
    2: { symmetry. unfold has_tree. apply N.leb_le.
         assert ((i + 1) * THUGE g <= ntrees u * THUGE g) by (apply N.mul_le_mono_r; lia). lia. }
    cbn [negb].
    replace (Nat.eqb (tord g) 0) with false by (symmetry; apply Nat.eqb_neq; unfold tord; lia).
    destruct (thuge_nat g) as [|n] eqn:En; [lia|].
    pose proof (ptf_loop_sum u i n 0 0) as Hs. rewrite En in Hs.
    rewrite N.add_0_r in Hs. rewrite Hs by (unfold nn in *; lia). clear Hs.
    destruct (Nat.eqb (tord g) (hord g)) eqn:Eh.
    - (* TREE_HUGE = 1 *)
      apply Nat.eqb_eq in Eh. unfold tord in Eh.
      assert (Htl : tlog g = 0%nat) by lia.
      assert (HT1 : THUGE g = 1) by (unfold THUGE; rewrite Htl; reflexivity).
      assert (n = 0%nat) by lia. subst n.
      replace (i * TF / HF g) with i.
      2: { unfold Bitfield.TF. rewrite HT1. rewrite N.mul_1_l. symmetry. apply N.div_mul. pose proof (HF_pos g). lia. }
      unfold ent. rewrite HT1, N.mul_1_r in *.
      destruct (nth_error (ents (low u)) (nn i)) as [e|] eqn:Ee.
      2: { apply nth_error_None in Ee. unfold nn in *. lia. }
      eexists. split; [reflexivity|]. cbn [free_frames]. rewrite (skipn_nth_cons _ _ _ Ee). cbn [firstn fold_right]. f_equal; lia.
    - rewrite Nat.eqb_refl. eexists. split; [reflexivity|]. cbn [free_frames]. f_equal; lia.
  Qed.

  Lemma apply_change_fetch t class free ch f1 f2 : needs_fetch (FChange class free ch) t = false ->
    tree_apply_change t class free ch f1 = tree_apply_change t class free ch f2.
  Proof.
    cbn [needs_fetch]. unfold change_cond, tree_apply_change. intros H.
    destruct (negb (t_res t) && match class with Some k => k =? t_class t | None => true end && (free <=? t_free t)); [|reflexivity].
    cbn [andb] in H. destruct (c_op ch) as [[|]|]; try reflexivity. rewrite H. reflexivity.
  Qed.

  Lemma trees_change_at_fit u i mclass mfree ch : TreesFit u ->
    TreesFit (snd (trees_change_at g u i mclass mfree ch)) /\ ntrees (snd (trees_change_at g u i mclass mfree ch)) = ntrees u.
  Proof.
    intros Hfit. unfold trees_change_at. destruct (tree_at u i) as [t|]; [|split; [exact Hfit | reflexivity]].
    assert (E : forall t', TreesFit (set_tree u i t') /\ ntrees (set_tree u i t') = ntrees u).
    { intros t'. unfold TreesFit, ntrees, set_tree, with_trees. cbn [trees low]. rewrite upd_length. split; [exact Hfit | reflexivity]. }
    destruct (lower_stats_at g (low u) (i * TF) (tord g)) as [s| |];
      repeat match goal with
      | |- context [match c_op ch with _ => _ end] => destruct (c_op ch) as [[|]|]
      | |- context [match tree_apply_change ?a ?b ?c ?d ?e with _ => _ end] => destruct (tree_apply_change a b c d e)
      end; cbn [snd]; try apply E; split; try exact Hfit; reflexivity.
  Qed.

  (* an existing entry: one update with the closure of change_at (frame KCh) *)
  Lemma change_at_sim u i t mclass mfree ch k d cf : TreesFit u -> tree_at u i = Some t ->
    At d u (enter_access u (AcChange mclass mfree ch) i k) cf ->
    Reach cf (Delivers uval 1 k TreesFit (trees_change_at g u i mclass mfree ch)).
  Proof.
    intros Hfit Et HA. cbn [enter_access] in HA. rewrite (tree_ok_some u i t Et) in HA.
    pose proof (trees_change_at_fit u i mclass mfree ch Hfit) as [Hfit' _]. unfold trees_change_at in *. rewrite Et in *.
    assert (Hi : i < ntrees u) by (apply N.ltb_lt; exact (tree_ok_some u i t Et)).
    destruct (stats_at_tree u i Hfit Hi) as (st & Est & Eptf). rewrite Est in *.
    eapply Reach_bind; [exact (ptl_sim g policy u i _ t _ d cf Et HA)|]. intros c1 Q1.
    (* the closure does not look at `fetch` unless it asked for it *)
    assert (Q : tu_land g policy u i (FChange mclass mfree ch) t (KCh :: k) (free_frames st) c1).
    { unfold tu_post, fetch_of in Q1. destruct (needs_fetch (FChange mclass mfree ch) t) eqn:Enf.
      - rewrite Eptf in Q1. exact Q1.
      - unfold tu_land in *. cbn [tf_apply] in *. rewrite (apply_change_fetch t mclass mfree ch (free_frames st) 0 Enf). exact Q1. }
    clear Q1. unfold tu_land in Q. cbn [tf_apply] in Q. apply Reach_here.
    destruct (tree_apply_change t mclass mfree ch (free_frames st)) as [t'|]; cbn [option_map snd] in *;
      ret_step Q; (split; [exact Q | exact Hfit']).
  Qed.

  (* d < SETTLE: an entry that does not exist is answered by a return at the entry depth *)
  Lemma change_search_sim mclass mfree ch k n : forall u i d cf, TreesFit u -> (d < SETTLE)%nat ->
    At d u (se_next u (AcChange mclass mfree ch) i n k) cf ->
    Reach cf (Delivers uval (Nat.max d 2 + 1) k TreesFit
                (search_loop (fun u i => trees_change_at g u i mclass mfree ch) u 0 i n)).
  Proof.
    induction n as [|n IH]; intros u i d cf Hfit Hd HA; cbn [se_next] in HA; cbn [search_loop].
    - apply Reach_here. split; [eapply At_mono; [exact HA | lia] | exact Hfit].
    - set (idx := walk_idx 0 (ntrees u) i) in *. destruct (tree_at u idx) as [t|] eqn:Et.
      + eapply Reach_bind; [exact (change_at_sim _ _ _ _ _ _ _ _ _ Hfit Et HA)|]. intros c1 Q1.
        apply (retry_sim g policy uval (KSe (AcChange mclass mfree ch) (i + 1) n) k
                 (fun u' => se_next u' (AcChange mclass mfree ch) (i + 1) n k)
                 (fun u' => search_loop (fun u i => trees_change_at g u i mclass mfree ch) u' 0 (i + 1) n)
                 TreesFit 1 _ _ c1 (fun _ _ => eq_refl)); [lia | unfold SETTLE; lia | | exact Q1].
        intros u1 c2 Hfit1 Q2. eapply Delivers_mono; [|apply (IH u1 (i + 1) 2%nat c2 Hfit1); [unfold SETTLE; lia | exact Q2]]. lia.
      + cbn [enter_access] in HA. rewrite (tree_ok_none u idx Et) in HA. ret_step HA.
        unfold trees_change_at. rewrite Et. apply Reach_here. split; [eapply At_mono; [exact HA | lia] | exact Hfit].
  Qed.

  Lemma change_sim u m ch cf : TreesFit u -> At 0 u (enter_change u m ch []) cf ->
    Reach cf (Final (unit_res (llfree_change_tree g u m ch))).
  Proof.
    intros Hfit HA. unfold enter_change in HA. unfold llfree_change_tree, trees_change.
    destruct (m_id m) as [i|].
    - destruct (tree_at u i) as [t|] eqn:Et.
      + eapply Reach_weaken; [exact (change_at_sim _ _ _ _ _ _ _ _ _ Hfit Et HA)|]. intros c'. apply Delivers_final_unit.
      + cbn [enter_access] in HA. rewrite (tree_ok_none u i Et) in HA. unfold trees_change_at. rewrite Et.
        apply Reach_here. apply At_done in HA. exact HA.
    - destruct (ntrees u =? 0).
      + apply Reach_here. apply At_done in HA. exact HA.
      + eapply Reach_weaken; [exact (change_search_sim _ _ _ _ _ _ _ 0%nat _ Hfit ltac:(unfold SETTLE; lia) HA)|].
        intros c'. apply Delivers_final_unit.
  Qed.

  (* from the simulation of a call to the solo run of `ustep` *)
  Definition take_held (c : ucall) (H H' : list (N * nat)) : Prop :=
    match c with UPut f r => client_take H f (r_order r) = Some H' | _ => H' = H end.

  Definition solo_result (u : upper) (P : list uthr) (H' : list (N * nat)) (t : nat) (c : ucall) (s' : m2state) : Prop :=
    match ubig g policy u c with
    | (Panic x, _) => m2_pool s' = upd P t (UPanic x c)
    | (r, u') => s' = ufinish {| m2_up := u'; m2_pool := P; m2_held := H' |} t c r
    end.

  (* the run takes at least one step: the one that starts the call *)
  Lemma usolo_of_sim_pos u P H H' t last c : nth_error P t = Some (UIdle last) -> take_held c H H' ->
    (forall cf, At 0 u (enter_call g u c) cf -> Reach cf (Final (ubig g policy u c))) ->
    exists n, solo_result u P H' t c (usolo_fuel g policy (S n) {| m2_up := u; m2_pool := P; m2_held := H |} t c).
  Proof.
    intros Hth Hh Hsim. pose proof (ConcBase.nth_error_some_lt _ _ _ Hth) as Ht.
    set (x0 := settle g policy SETTLE u (enter_call g u c)).
    assert (E1 : fst (ustep g policy {| m2_up := u; m2_pool := P; m2_held := H |} t c) = ust P t c u H' x0).
    { unfold ustep. cbn [m2_pool m2_up m2_held]. rewrite Hth. unfold ust.
      destruct c as [fr rq|fr rq| |m ch]; cbn [take_held] in Hh; try (subst H'; reflexivity).
      rewrite Hh. reflexivity. }
    destruct (Hsim (u, x0) (At_0 g policy u _)) as (cf' & R & Hfit).
    assert (Hfin : is_final (snd cf') = true).
    { unfold Final in Hfit. destruct (ubig g policy u c) as [[r|e|x] u']; [subst cf'; reflexivity | subst cf'; reflexivity |].
      destruct Hfit as (u'' & ->). reflexivity. }
    assert (Hres : forall s', s' = ust P t c (fst cf') H' (snd cf') -> solo_result u P H' t c s').
    { intros s' ->. unfold solo_result. unfold Final in Hfit.
      destruct (ubig g policy u c) as [[r|e|x] u']; [subst cf'; reflexivity | subst cf'; reflexivity |].
      destruct Hfit as (u'' & ->). reflexivity. }
    destruct (is_final x0) eqn:Ef.
    - pose proof (sruns_final g policy (u, x0) cf' R Ef) as ->.
      exists 0%nat. apply Hres. cbn [usolo_fuel]. rewrite E1, (ust_thread P t c Ht). cbn [fst snd].
      destruct x0; [discriminate Ef | reflexivity | reflexivity].
    - destruct (sruns_fuel g policy P t c Ht H' (u, x0) cf' R Hfin Ef) as (n & Hn). cbn [fst snd] in Hn.
      exists n. apply Hres. cbn [usolo_fuel]. rewrite E1, (ust_thread P t c Ht).
      destruct x0; [exact Hn | discriminate Ef | discriminate Ef].
  Qed.
  Lemma usolo_of_sim u P H H' t last c : nth_error P t = Some (UIdle last) -> take_held c H H' ->
    (forall cf, At 0 u (enter_call g u c) cf -> Reach cf (Final (ubig g policy u c))) ->
    exists fuel, solo_result u P H' t c (usolo_fuel g policy fuel {| m2_up := u; m2_pool := P; m2_held := H |} t c).
  Proof. intros Hth Hh Hsim. destruct (usolo_of_sim_pos u P H H' t last c Hth Hh Hsim) as (n & Hn). exists (S n). exact Hn. Qed.

  Theorem usolo_put u P H H' t last frame r : Shape g (low u) -> nth_error P t = Some (UIdle last) ->
    client_take H frame (r_order r) = Some H' ->
    exists fuel, solo_result u P H' t (UPut frame r)
                   (usolo_fuel g policy fuel {| m2_up := u; m2_pool := P; m2_held := H |} t (UPut frame r)).
  Proof.
    intros Sh Hth Hh. eapply usolo_of_sim; [exact Hth | exact Hh |].
    intros cf HA. cbn [enter_call] in HA. pose proof (put_sim u frame r cf Sh HA) as HR.
    cbn [ubig]. unfold unit_res in HR. destruct (llfree_put g policy u frame r) as [[x|e|s] u']; exact HR.
  Qed.

  Theorem usolo_drain u P H t last : nth_error P t = Some (UIdle last) ->
    exists fuel, solo_result u P H t UDrain (usolo_fuel g policy fuel {| m2_up := u; m2_pool := P; m2_held := H |} t UDrain).
  Proof.
    intros Hth. eapply usolo_of_sim; [exact Hth | reflexivity |].
    intros cf HA. cbn [enter_call] in HA. pose proof (drain_sim u cf HA) as HR.
    cbn [ubig]. unfold unit_res in HR. destruct (llfree_drain g policy u) as [[x|e|s] u']; exact HR.
  Qed.

  Theorem usolo_change u P H t last m ch : TreesFit u -> nth_error P t = Some (UIdle last) ->
    exists fuel, solo_result u P H t (UChange m ch)
                   (usolo_fuel g policy fuel {| m2_up := u; m2_pool := P; m2_held := H |} t (UChange m ch)).
  Proof.
    intros Hfit Hth. eapply usolo_of_sim; [exact Hth | reflexivity |].
    intros cf HA. cbn [enter_call] in HA. pose proof (change_sim u m ch cf Hfit HA) as HR.
    cbn [ubig]. unfold unit_res in HR. destruct (llfree_change_tree g u m ch) as [[x|e|s] u']; exact HR.
  Qed.
End Calls.
