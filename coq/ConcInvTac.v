(* Step shapes: a step only moves the pc / writes one entry / writes one row (possibly changing the held
   list), with the obligations reduced to the affected huge frame and stated on the ghost record of the thread
   (`geq`: ghosts up to empty intervals); and the tactics used by the per-pc lemmas. *)
From Coq Require Import PeanoNat.
From LLF Require Import Base BitLemmas Row RowProofs Bitfield Lower Spec AbsLemmas LowerMachine ConcBase ConcInvDef ConcInvGeom ConcInvStep.

(* expose the ghost functions of concrete pcs *)
Ltac gsimp :=
  unfold fr, tr, pend, trcount, needsC, hfr;
  cbn [ghost_of gpc gtoggle gpend gtr gown ghuge gput gsplit gh0 g_h own_lo own_n tr_lo tr_n p_n nd hu].
(* case analysis on every `if` in the goal *)
Ltac destr_if :=
  repeat match goal with
         | |- context [if ?b then _ else _] => destruct b eqn:?
         end.

Section Shapes.
  Variable g : geom.
  Hypothesis wf : wf_geom g.
  Notation HF := (HF g).
  Notation THUGE := (THUGE g).
  Notation ROWS := (ROWS g).

  (* the ghost part of `same_at`, with a possibly different held list *)
  Record gsameH (s : mstate) (held' : list (N * nat)) (x0 x' : thr) (h : N) : Prop := {
    GH_fr : forall r i, r < ROWS -> i < 64 ->
            heldc (fidx g h r i) held' + fr g h r i x' = heldc (fidx g h r i) (ms_held s) + fr g h r i x0;
    GH_tr : forall r, tr g h r x' = tr g h r x0;
    GH_pend : pend g h x' = pend g h x0;
    GH_trc : trcount g h x' = trcount g h x0;
    GH_nd : entv s h = MARK -> needsC g h x' <= needsC g h x0;
    GH_hfr : hugec g h held' + hfr g h x' <= hugec g h (ms_held s) + hfr g h x0
  }.
  Record gsame (s : mstate) (x0 x' : thr) (h : N) : Prop := {
    GS_fr : forall r i, r < ROWS -> i < 64 -> fr g h r i x' = fr g h r i x0;
    GS_tr : forall r, tr g h r x' = tr g h r x0;
    GS_pend : pend g h x' = pend g h x0;
    GS_trc : trcount g h x' = trcount g h x0;
    GS_nd : entv s h = MARK -> needsC g h x' <= needsC g h x0;
    GS_hfr : hfr g h x' = hfr g h x0
  }.
  Lemma gsame_H s x0 x' h : gsame s x0 x' h -> gsameH s (ms_held s) x0 x' h.
  Proof. intros [A B C D E F]. constructor; auto; intros; rewrite ?A, ?F by assumption; lia. Qed.

  Definition mk_thr (s : mstate) (t : nat) (x' : thr) (held' : list (N * nat)) : mstate :=
    set_held (set_thr s t x') held'.

  (* Only the thread changes. inv_thr: the held list may change with it (a put takes its block, carved by
     client_take); inv_plain: the held list stays; inv_same (below): moreover the ghost stays, up to geq. *)
  Lemma inv_thr s t x0 x' held' :
    Inv g s -> nth_error (ms_pool s) t = Some x0 ->
    (forall h, gsameH s held' x0 x' h) ->
    isBad x' = 0 -> local_b g (ms_frames s) x' = true ->
    Forall (fun b => blk_ok (ms_frames s) b = true) held' ->
    Inv g (mk_thr s t x' held').
  Proof.
    intros I Ht Hs Hb Hl Hh.
    apply (inv_step g s (mk_thr s t x' held') t x0 x' I Ht); try reflexivity; try assumption.
    - apply I.
    - intros h. apply (same_step g s _ t x0 x' h I Ht). destruct (Hs h). constructor; auto.
  Qed.
  Lemma inv_plain s t x0 x' :
    Inv g s -> nth_error (ms_pool s) t = Some x0 ->
    (forall h, gsame s x0 x' h) ->
    isBad x' = 0 -> local_b g (ms_frames s) x' = true ->
    Inv g (set_thr s t x').
  Proof.
    intros I Ht Hs Hb Hl. change (Inv g (mk_thr s t x' (ms_held s))).
    apply (inv_thr s t x0 x' (ms_held s) I Ht); try assumption; [|apply I].
    intros h. apply gsame_H, Hs.
  Qed.

  (* The summands of the invariant see a thread only through its ghost, and they do not see where an empty
     interval starts or which huge frame an idle record names.  Each field of geq is literally the body of one
     summand (fr, hfr, tr, trcount, pend, needsC) at G and at G', so geq is the kernel of the map from ghosts to
     summands: unfolding a summand and rewriting with the field closes any goal that compares summands
     (gsame_geq, and in the same way quiet_geq, pending_geq, tr_grow_geq below). *)
  Record geq (G G' : ghost) : Prop := {
    Q_own : forall f, inb (own_lo G) (own_n G) f = inb (own_lo G') (own_n G') f;
    Q_hu : forall f, hu G && inb (own_lo G) (own_n G) f = hu G' && inb (own_lo G') (own_n G') f;
    Q_tr : forall h r, (h =? g_h G) && inb (tr_lo G) (tr_n G) r = (h =? g_h G') && inb (tr_lo G') (tr_n G') r;
    Q_trc : forall h, (if h =? g_h G then tr_n G else 0) = (if h =? g_h G' then tr_n G' else 0);
    Q_pend : forall h, (if h =? g_h G then p_n G else 0) = (if h =? g_h G' then p_n G' else 0);
    Q_nd : forall h, (h =? g_h G) && nd G = (h =? g_h G') && nd G'
  }.
  Lemma geq_refl G : geq G G.
  Proof. constructor; reflexivity. Qed.
  Lemma geq_sym G G' : geq G G' -> geq G' G.
  Proof. intros [A B C D E F]. constructor; intros; symmetry; auto. Qed.
  Lemma geq_trans G1 G2 G3 : geq G1 G2 -> geq G2 G3 -> geq G1 G3.
  Proof. intros [A B C D E F] [A' B' C' D' E' F']. constructor; intros; etransitivity; eauto. Qed.
  Lemma geq_eq G G' : G = G' -> geq G G'.
  Proof. intros ->. apply geq_refl. Qed.

  Lemma gsame_geq s x0 x' : geq (ghost_of g x0) (ghost_of g x') -> forall h, gsame s x0 x' h.
  Proof.
    intros [A B C D E F] h. constructor; intros; unfold fr, tr, pend, trcount, needsC, hfr; cbv zeta;
      rewrite ?B, ?A, ?C, ?D, ?E, ?F; reflexivity.
  Qed.

  (* the summands of a thread whose ghost is known up to geq *)
  Lemma fr_geq x G h r i : geq (ghost_of g x) G -> fr g h r i x = b2n (inb (own_lo G) (own_n G) (fidx g h r i)).
  Proof. intros E. unfold fr. cbv zeta. rewrite (Q_own _ _ E). reflexivity. Qed.
  Lemma hfr_geq x G h : geq (ghost_of g x) G -> hfr g h x = b2n (hu G && inb (own_lo G) (own_n G) (h * HF)).
  Proof. intros E. unfold hfr. cbv zeta. rewrite (Q_hu _ _ E). reflexivity. Qed.
  Lemma tr_geq x G h r : geq (ghost_of g x) G -> tr g h r x = b2n ((h =? g_h G) && inb (tr_lo G) (tr_n G) r).
  Proof. intros E. unfold tr. cbv zeta. rewrite (Q_tr _ _ E). reflexivity. Qed.
  Lemma trcount_geq x G h : geq (ghost_of g x) G -> trcount g h x = if h =? g_h G then tr_n G else 0.
  Proof. intros E. apply (Q_trc _ _ E). Qed.
  Lemma pend_geq x G h : geq (ghost_of g x) G -> pend g h x = if h =? g_h G then p_n G else 0.
  Proof. intros E. apply (Q_pend _ _ E). Qed.
  Lemma needsC_geq x G h : geq (ghost_of g x) G -> needsC g h x = b2n ((h =? g_h G) && nd G).
  Proof. intros E. unfold needsC. cbv zeta. rewrite (Q_nd _ _ E). reflexivity. Qed.

  (* a thread with nothing: every summand is zero *)
  Record quiet (x : thr) : Prop := {
    QT_fr : forall h r i, fr g h r i x = 0;
    QT_tr : forall h r, tr g h r x = 0;
    QT_trc : forall h, trcount g h x = 0;
    QT_hfr : forall h, hfr g h x = 0;
    QT_pend : forall h, pend g h x = 0;
    QT_nd : forall h, needsC g h x = 0
  }.
  Lemma quiet_geq x : geq (ghost_of g x) gh0 -> quiet x.
  Proof.
    intros [A B C D E F]. constructor; intros; unfold fr, tr, pend, trcount, needsC, hfr; cbv zeta;
      rewrite ?B, ?A, ?C, ?D, ?E, ?F; cbn; rewrite ?inb_empty, ?andb_false_r; try reflexivity; destruct (h =? 0); reflexivity.
  Qed.
  Lemma quiet_idle l : quiet (TIdle l).
  Proof. apply quiet_geq, geq_refl. Qed.

  (* a thread whose whole ghost is "n frames pending at h" *)
  Record pending_at (x0 : thr) (h n : N) : Prop := {
    PA_fr : forall h' r i, fr g h' r i x0 = 0;
    PA_tr : forall h' r, tr g h' r x0 = 0;
    PA_trc : forall h', trcount g h' x0 = 0;
    PA_hfr : forall h', hfr g h' x0 = 0;
    PA_pend : pend g h x0 = n;
    PA_pend_other : forall h', h' <> h -> pend g h' x0 = 0;
    PA_nd : needsC g h x0 = 1;
    PA_nd_other : forall h', h' <> h -> needsC g h' x0 = 0
  }.
  Lemma pending_geq x h n : geq (ghost_of g x) (gpend h n) -> pending_at x h n.
  Proof.
    intros [A B C D E F]. constructor; intros; unfold fr, tr, pend, trcount, needsC, hfr; cbv zeta;
      rewrite ?B, ?A, ?C, ?D, ?E, ?F; cbn; rewrite ?N.eqb_refl, ?inb_empty, ?andb_false_r; try reflexivity;
      try (destruct (h' =? h); reflexivity); (destruct (N.eqb_spec h' h); [contradiction|reflexivity]).
  Qed.

  (* no row in transit yet: only the pending amount counts; a splitter that has filled no row only owns *)
  Lemma geq_gtr0 h n lo : geq (gtr h n lo 0) (gpend h n).
  Proof. constructor; intros; cbn; try reflexivity. unfold inb. lia. Qed.
  Lemma geq_gsplit0 h f n : geq (gsplit h f n 0) (gown f n).
  Proof. constructor; intros; cbn; try reflexivity; try (unfold inb; lia). all: destruct (_ =? h), (_ =? 0); reflexivity. Qed.

  Lemma geq_idle G : own_n G = 0 -> tr_n G = 0 -> p_n G = 0 -> nd G = false -> geq G gh0.
  Proof.
    intros Eo Et Ep En. constructor; intros; rewrite ?Eo, ?Et, ?Ep, ?En; cbn; rewrite ?inb_empty, ?andb_false_r; try reflexivity;
      destruct (h =? g_h G), (h =? 0); reflexivity.
  Qed.

  Lemma inv_same s t x0 x' :
    Inv g s -> nth_error (ms_pool s) t = Some x0 -> geq (ghost_of g x0) (ghost_of g x') ->
    isBad x' = 0 -> local_b g (ms_frames s) x' = true -> Inv g (set_thr s t x').
  Proof. intros I Ht E. apply (inv_plain s t x0 x' I Ht), gsame_geq, E. Qed.

  Lemma local_of s t x : Inv g s -> nth_error (ms_pool s) t = Some x -> local_b g (ms_frames s) x = true.
  Proof. intros I Ht. exact (Forall_nth_error _ _ _ _ (I_L g s I) Ht). Qed.
  Lemma running_local s t c p : Inv g s -> nth_error (ms_pool s) t = Some (TRun c p) ->
    cwf g (ms_frames s) c = true /\ lpc g (ms_frames s) c p = true.
  Proof. intros I Ht. apply andb_true_iff. exact (local_of s t _ I Ht). Qed.

  Lemma finish_err s t c e : finish s t c (Err e) = set_thr s t (TIdle (Some (Err e))).
  Proof. destruct c; reflexivity. Qed.

  (* the thread moves on within its call and the ghost stays *)
  Lemma inv_goto s t c p p' :
    Inv g s -> nth_error (ms_pool s) t = Some (TRun c p) -> geq (gpc g c p) (gpc g c p') ->
    lpc g (ms_frames s) c p' = true -> Inv g (goto s t c p').
  Proof.
    intros I Ht E L. destruct (running_local s t c p I Ht) as [Hc _].
    apply (inv_same s t _ (TRun c p') I Ht E); [reflexivity|]. cbn [local_b]. rewrite Hc, L. reflexivity.
  Qed.
  Lemma inv_err s t c p e :
    Inv g s -> nth_error (ms_pool s) t = Some (TRun c p) -> geq (gpc g c p) gh0 -> Inv g (finish s t c (Err e)).
  Proof. intros I Ht E. rewrite finish_err. apply (inv_same s t _ (TIdle _) I Ht E); reflexivity. Qed.
  (* a load, or a compare-exchange that failed, decides from the value seen whether to (re)try *)
  Lemma inv_retry {A} s t c p (o : option A) p' fail :
    Inv g s -> nth_error (ms_pool s) t = Some (TRun c p) -> geq (gpc g c p) (gpc g c p') ->
    (isSome o = true -> lpc g (ms_frames s) c p' = true) -> (o = None -> Inv g fail) ->
    Inv g (match o with Some _ => goto s t c p' | None => fail end).
  Proof. intros I Ht E L F. destruct o; [apply (inv_goto s t c p p' I Ht E), L|apply F]; reflexivity. Qed.

  (* One entry (below: one row) of huge frame h0 is written. For h <> h0 the memory is as before and gsameH
     suffices; the caller proves step_at at h0 only. *)
  Definition mk_ent (s : mstate) (h0 e' : N) (t : nat) (x' : thr) (held' : list (N * nat)) : mstate :=
    set_held (set_thr (wr_ent s h0 e') t x') held'.

  Lemma mk_ent_entv s h0 e' t x' held' cur h : rd_ent s h0 = Some cur ->
    entv (mk_ent s h0 e' t x' held') h = if h =? h0 then e' else entv s h.
  Proof. intros H. apply (entv_wr_ent s h0 e' cur h H). Qed.
  Lemma mk_ent_bit s h0 e' t x' held' h r i : bit (mk_ent s h0 e' t x' held') h r i = bit s h r i.
  Proof. reflexivity. Qed.
  Lemma mk_ent_zeros s h0 e' t x' held' h : zeros (mk_ent s h0 e' t x' held') h = zeros s h.
  Proof. reflexivity. Qed.

  Lemma inv_ent s t x0 x' h0 cur e' held' :
    Inv g s -> nth_error (ms_pool s) t = Some x0 -> rd_ent s h0 = Some cur ->
    (forall h, h <> h0 -> gsameH s held' x0 x' h) ->
    step_at g s (mk_ent s h0 e' t x' held') x0 x' h0 ->
    isBad x' = 0 -> local_b g (ms_frames s) x' = true ->
    Forall (fun b => blk_ok (ms_frames s) b = true) held' ->
    Inv g (mk_ent s h0 e' t x' held').
  Proof.
    intros I Ht Hrd Hs H0 Hb Hl Hh.
    apply (inv_step g s (mk_ent s h0 e' t x' held') t x0 x' I Ht); try reflexivity; try assumption.
    - cbn. apply upd_length.
    - apply I.
    - intros h. destruct (N.eq_dec h h0) as [->|Hne]; [exact H0|].
      apply (same_step g s _ t x0 x' h I Ht). destruct (Hs h Hne). constructor; auto.
      rewrite (mk_ent_entv _ _ _ _ _ _ _ _ Hrd). destruct (N.eqb_spec h h0); [contradiction|reflexivity].
  Qed.

  (* a counter entry is updated and the difference moves to / from the thread's pending amount *)
  Lemma inv_counter s t x0 x' h cur e' :
    Inv g s -> nth_error (ms_pool s) t = Some x0 -> rd_ent s h = Some cur ->
    h < nbf g (ms_frames s) -> cur <> MARK -> e' <> MARK ->
    (forall h', h' <> h -> gsame s x0 x' h') ->
    (forall r i, fr g h r i x' = fr g h r i x0) -> (forall r, tr g h r x' = tr g h r x0) ->
    trcount g h x' = trcount g h x0 -> hfr g h x' = hfr g h x0 ->
    e' + pend g h x' = cur + pend g h x0 ->
    isBad x' = 0 -> local_b g (ms_frames s) x' = true ->
    Inv g (mk_ent s h e' t x' (ms_held s)).
  Proof.
    intros I Ht Hrd Hh Hc He' Hs Hfr Htr Htc Hhf Hp Hb Hl.
    pose proof (entv_rd s h cur Hrd) as Ec.
    apply (inv_ent s t x0 x' h cur e' (ms_held s) I Ht Hrd); try assumption; [| |apply I].
    - intros h' Hne. apply gsame_H, Hs, Hne.
    - constructor; intros;
        rewrite ?(mk_ent_entv _ _ _ _ _ _ _ _ Hrd), ?N.eqb_refl, ?mk_ent_bit, ?mk_ent_zeros in *; try contradiction; try lia.
      + cbn [ms_held mk_ent set_held]. rewrite Hfr, Htr, Ec. unfold isMark.
        destruct (N.eqb_spec e' MARK); [contradiction|]. destruct (N.eqb_spec cur MARK); [contradiction|]. lia.
      + pose proof (I_C g s I h Hh ltac:(rewrite Ec; exact Hc)) as C. rewrite Ec in C. rewrite Htc. lia.
      + cbn [ms_held mk_ent set_held]. pose proof (I_F g s I h ltac:(rewrite Ec; exact Hc)) as F.
        pose proof (sumf_ge (hfr g h) _ _ _ Ht). lia.
  Qed.

  Lemma e_dec_some v n v' : e_dec v n = Some v' -> v <> MARK /\ n <= v /\ v' = v - n.
  Proof. unfold e_dec, e_free, e_huge. destruct (N.eqb_spec v MARK); cbn [negb andb]; [discriminate|].
    destruct (N.leb_spec n v); [|discriminate]. intros E; inversion E. auto. Qed.
  Lemma e_dec_none v n : e_dec v n = None -> v = MARK \/ v < n.
  Proof. unfold e_dec, e_free, e_huge. destruct (N.eqb_spec v MARK); cbn [negb andb]; [auto|].
    destruct (N.leb_spec n v); [discriminate|auto]. Qed.
  Lemma e_inc_some v n v' : e_inc g v n = Some v' -> v <> MARK /\ v + n <= HF /\ v' = v + n.
  Proof. unfold e_inc, e_free, e_huge. destruct (N.eqb_spec v MARK); cbn [negb andb]; [discriminate|].
    destruct (N.leb_spec (v + n) HF); [|discriminate]. intros E; inversion E. auto. Qed.
  Lemma e_inc_none v n : e_inc g v n = None -> v = MARK \/ HF < v + n.
  Proof. unfold e_inc, e_free, e_huge. destruct (N.eqb_spec v MARK); cbn [negb andb]; [auto|].
    destruct (N.leb_spec (v + n) HF); [discriminate|auto]. Qed.

  Lemma ent_nz_lt s h : Inv g s -> entv s h <> 0 -> h < nbf g (ms_frames s).
  Proof. intros I H. destruct (N.lt_ge_cases h (nbf g (ms_frames s))) as [?|Hge]; [assumption|]. exfalso. apply H, (I_nobf g s I), Hge. Qed.

  (* the counter plus what a thread has pending never exceeds HF *)
  Lemma counter_bound s t x h : Inv g s -> nth_error (ms_pool s) t = Some x -> h < nbf g (ms_frames s) ->
    entv s h <> MARK -> entv s h + pend g h x + gfr g h x <= HF.
  Proof.
    intros I Ht Hh He. pose proof (K1 g wf s h I Hh He) as K.
    pose proof (sumf_ge (pend g h) _ t x Ht). pose proof (sumf_ge (gfr g h) _ t x Ht). lia.
  Qed.
  (* a thread that needs a counter sees one *)
  Lemma needs_counter s t x h : Inv g s -> nth_error (ms_pool s) t = Some x -> h < nbf g (ms_frames s) ->
    needsC g h x = 1 -> entv s h <> MARK.
  Proof. intros I Ht Hh Hn He. pose proof (I_D g s I h Hh He). pose proof (sumf_ge (needsC g h) _ _ _ Ht). lia. Qed.

  (* the undo increment of a pending amount cannot fail *)
  Lemma inc_possible s t x0 h n cur : Inv g s -> nth_error (ms_pool s) t = Some x0 -> h < nbf g (ms_frames s) ->
    geq (ghost_of g x0) (gpend h n) -> rd_ent s h = Some cur ->
    e_inc g cur n = Some (cur + n) /\ cur <> MARK /\ cur + n <= HF.
  Proof.
    intros I Ht Hh E Hrd. destruct (pending_geq _ _ _ E) as [_ _ _ _ Hp _ Hnd _]. pose proof (entv_rd s h cur Hrd) as Ec.
    pose proof (needs_counter s t x0 h I Ht Hh Hnd) as He. rewrite Ec in He.
    pose proof (counter_bound s t x0 h I Ht Hh ltac:(rewrite Ec; exact He)) as Kb. rewrite Ec, Hp in Kb.
    unfold e_inc, e_free, e_huge. destruct (N.eqb_spec cur MARK); [contradiction|]. cbn [negb andb].
    destruct (N.leb_spec (cur + n) HF); [auto|lia].
  Qed.

  (* the two halves of a counter update: n frames leave the counter and become the thread's pending amount,
     or come back *)
  Lemma inv_dec s t x0 x' h cur n :
    Inv g s -> nth_error (ms_pool s) t = Some x0 -> rd_ent s h = Some cur ->
    h < nbf g (ms_frames s) -> cur <> MARK -> n <= cur ->
    geq (ghost_of g x0) gh0 -> geq (ghost_of g x') (gpend h n) ->
    isBad x' = 0 -> local_b g (ms_frames s) x' = true ->
    Inv g (mk_ent s h (cur - n) t x' (ms_held s)).
  Proof.
    intros I Ht Hrd Hh Hc Hn E0 E1 Hb Hl.
    destruct (quiet_geq _ E0) as [Qf Qt Qc Qh Qp Qn]. destruct (pending_geq _ _ _ E1) as [Pf Pt Pc Ph Pp Pp' Pn Pn'].
    pose proof (counter_bound s t x0 h I Ht Hh) as Kb. rewrite (entv_rd s h cur Hrd) in Kb. specialize (Kb Hc).
    pose proof (HF_lt_MARK g wf).
    apply (inv_counter s t x0 x' h cur (cur - n) I Ht Hrd Hh Hc); try assumption; [lia|..];
      intros; try constructor; intros; rewrite ?Qf, ?Qt, ?Qc, ?Qh, ?Qp, ?Qn, ?Pf, ?Pt, ?Pc, ?Ph, ?Pp, ?Pp', ?Pn' by assumption;
      try reflexivity; lia.
  Qed.
  Lemma inv_inc s t x0 x' h cur n :
    Inv g s -> nth_error (ms_pool s) t = Some x0 -> rd_ent s h = Some cur ->
    h < nbf g (ms_frames s) -> cur <> MARK ->
    geq (ghost_of g x0) (gpend h n) -> geq (ghost_of g x') gh0 ->
    isBad x' = 0 -> local_b g (ms_frames s) x' = true ->
    Inv g (mk_ent s h (cur + n) t x' (ms_held s)).
  Proof.
    intros I Ht Hrd Hh Hc E0 E1 Hb Hl.
    destruct (quiet_geq _ E1) as [Qf Qt Qc Qh Qp Qn]. destruct (pending_geq _ _ _ E0) as [Pf Pt Pc Ph Pp Pp' Pn Pn'].
    pose proof (counter_bound s t x0 h I Ht Hh) as Kb. rewrite (entv_rd s h cur Hrd), Pp in Kb. specialize (Kb Hc).
    pose proof (HF_lt_MARK g wf).
    apply (inv_counter s t x0 x' h cur (cur + n) I Ht Hrd Hh Hc); try assumption; [lia|..];
      intros; try constructor; intros; rewrite ?Qf, ?Qt, ?Qc, ?Qh, ?Qp, ?Qn, ?Pf, ?Pt, ?Pc, ?Ph, ?Pp, ?Pp', ?Pn' by assumption;
      try reflexivity; lia.
  Qed.

  Definition mk_row (s : mstate) (h0 r0 v' : N) (t : nat) (x' : thr) (held' : list (N * nat)) : mstate :=
    set_held (set_thr (wr_row s h0 r0 v') t x') held'.

  Lemma mk_row_entv s h0 r0 v' t x' held' h : entv (mk_row s h0 r0 v' t x' held') h = entv s h.
  Proof. apply entv_wr_row. Qed.
  Lemma mk_row_rowv s h0 r0 v' t x' held' cur h r : rd_row s h0 r0 = Some cur ->
    rowv (mk_row s h0 r0 v' t x' held') h r = if (h =? h0) && (r =? r0) then v' else rowv s h r.
  Proof. intros H. apply (rowv_wr_row s h0 r0 v' cur h r H). Qed.
  Lemma mk_row_bit s h0 r0 v' t x' held' cur r i : rd_row s h0 r0 = Some cur ->
    bit (mk_row s h0 r0 v' t x' held') h0 r i = if r =? r0 then N.testbit v' i else bit s h0 r i.
  Proof. intros H. unfold bit. rewrite (mk_row_rowv _ _ _ _ _ _ _ _ _ _ H), N.eqb_refl. cbn [andb]. destruct (r =? r0); reflexivity. Qed.
  Lemma mk_row_zeros s h0 r0 v' t x' held' cur : rd_row s h0 r0 = Some cur ->
    zeros (mk_row s h0 r0 v' t x' held') h0 + cz cur = zeros s h0 + cz v'.
  Proof. intros H. apply (zeros_wr_row_same s h0 r0 v' cur H). Qed.

  Lemma inv_row s t x0 x' h0 r0 cur v' held' :
    Inv g s -> nth_error (ms_pool s) t = Some x0 -> rd_row s h0 r0 = Some cur -> v' < W64 ->
    (forall h, h <> h0 -> gsameH s held' x0 x' h) ->
    step_at g s (mk_row s h0 r0 v' t x' held') x0 x' h0 ->
    isBad x' = 0 -> local_b g (ms_frames s) x' = true ->
    Forall (fun b => blk_ok (ms_frames s) b = true) held' ->
    Inv g (mk_row s h0 r0 v' t x' held').
  Proof.
    intros I Ht Hrd Hv Hs H0 Hb Hl Hh.
    apply (inv_step g s (mk_row s h0 r0 v' t x' held') t x0 x' I Ht); try assumption.
    - apply frames_wr_row.
    - cbn. rewrite pool_wr_row. reflexivity.
    - cbn. apply bfs_len_wr_row.
    - cbn. rewrite ents_wr_row. reflexivity.
    - cbn. apply bfs_wr_row_rows; [exact Hv|apply I].
    - intros h. destruct (N.eq_dec h h0) as [->|Hne]; [exact H0|].
      apply (same_step g s _ t x0 x' h I Ht). destruct (Hs h Hne). constructor; auto.
      + apply mk_row_entv.
      + intros r. rewrite (mk_row_rowv _ _ _ _ _ _ _ _ _ _ Hrd). destruct (N.eqb_spec h h0); [contradiction|reflexivity].
      + apply zeros_wr_row_other. exact Hne.
  Qed.

  (* a row step whose change of ownership matches the change of the bits *)
  Lemma inv_row_delta s t x0 x' h0 r0 cur v' held' :
    Inv g s -> nth_error (ms_pool s) t = Some x0 -> rd_row s h0 r0 = Some cur -> v' < W64 ->
    h0 < nbf g (ms_frames s) ->
    (forall h, h <> h0 -> gsameH s held' x0 x' h) ->
    (forall r i, r < ROWS -> i < 64 ->
       b2n (if r =? r0 then N.testbit v' i else bit s h0 r i) + heldc (fidx g h0 r i) (ms_held s) + fr g h0 r i x0 + tr g h0 r x0
       = b2n (bit s h0 r i) + heldc (fidx g h0 r i) held' + fr g h0 r i x' + tr g h0 r x') ->
    (entv s h0 = MARK -> forall r i, r < ROWS -> i < 64 ->
       heldc (fidx g h0 r i) held' + fr g h0 r i x' = heldc (fidx g h0 r i) (ms_held s) + fr g h0 r i x0) ->
    (entv s h0 <> MARK -> pend g h0 x' + 64 * trcount g h0 x0 + cz cur = cz v' + 64 * trcount g h0 x' + pend g h0 x0) ->
    (entv s h0 = MARK -> needsC g h0 x' = 0) ->
    hugec g h0 held' + hfr g h0 x' = hugec g h0 (ms_held s) + hfr g h0 x0 ->
    isBad x' = 0 -> local_b g (ms_frames s) x' = true ->
    Forall (fun b => blk_ok (ms_frames s) b = true) held' ->
    Inv g (mk_row s h0 r0 v' t x' held').
  Proof.
    intros I Ht Hrd Hv Hh Hs HA HB HC HD Hhu Hb Hl Hhe.
    apply (inv_row s t x0 x' h0 r0 cur v' held' I Ht Hrd Hv Hs); try assumption.
    constructor; [intros _ r i Hr Hi|intros _ He r i Hr Hi|intros _ He|intros _ He|intros _ He|intros He|intros Hn];
      rewrite ?mk_row_entv, ?(mk_row_bit _ _ _ _ _ _ _ _ _ _ Hrd) in *; try lia.
    - cbn [ms_held mk_row set_held]. specialize (HA r i Hr Hi). lia.
    - cbn [ms_held mk_row set_held]. specialize (HB He r i Hr Hi). pose proof (I_B g s I h0 Hh He r i Hr Hi). lia.
    - specialize (HC He). pose proof (I_C g s I h0 Hh He). pose proof (mk_row_zeros s h0 r0 v' t x' held' cur Hrd). lia.
    - specialize (HD He). pose proof (I_D g s I h0 Hh He). pose proof (sumf_ge (needsC g h0) _ _ _ Ht). lia.
    - apply (I_G g s I h0 Hh He).
    - cbn [ms_held mk_row set_held]. pose proof (I_F g s I h0 He). pose proof (sumf_ge (hfr g h0) _ _ _ Ht). lia.
  Qed.

  Lemma heldc_cons b held x : heldc x (b :: held) = b2n (cover b x) + heldc x held.
  Proof. reflexivity. Qed.
  Lemma hugec_cons b held h : hugec g h (b :: held) = hugeb g h b + hugec g h held.
  Proof. reflexivity. Qed.
  Lemma hugeb_small h f k : (k < hord g)%nat -> hugeb g h (f, k) = 0.
  Proof. intros H. unfold hugeb. cbn [snd]. destruct (Nat.leb_spec (hord g) k); [lia|reflexivity]. Qed.

  (* the machine's continuations as one of mk_thr / mk_ent / mk_row *)
  Lemma finish_get_row s h r v' t c f : is_put c = false ->
    finish (wr_row s h r v') t c (Ok f) = mk_row s h r v' t (TIdle (Some (Ok f))) ((f, c_order c) :: ms_held s).
  Proof. intros H. destruct c; try discriminate; unfold finish, mk_row; cbn [ms_held set_thr c_order]; rewrite held_wr_row; reflexivity. Qed.
  Lemma finish_get_ent s h v' t c f : is_put c = false ->
    finish (wr_ent s h v') t c (Ok f) = mk_ent s h v' t (TIdle (Some (Ok f))) ((f, c_order c) :: ms_held s).
  Proof. intros H. destruct c; try discriminate; reflexivity. Qed.
  Lemma set_thr_row s h r v t x : set_thr (wr_row s h r v) t x = mk_row s h r v t x (ms_held s).
  Proof. unfold mk_row, set_held, set_thr. cbn [ms_frames ms_ents ms_bfs ms_pool ms_held]. rewrite held_wr_row. reflexivity. Qed.
  Lemma goto_row s h r v t c p : goto (wr_row s h r v) t c p = mk_row s h r v t (TRun c p) (ms_held s).
  Proof. apply set_thr_row. Qed.
  Lemma finish_put s t c r : is_put c = true -> finish s t c r = set_thr s t (TIdle (Some r)).
  Proof. intros H. destruct c; try discriminate. destruct r; reflexivity. Qed.

  (* the bits [off, off + 2^k) of row r of h are set and the block is handed out *)
  Lemma inv_alloc_block s t x0 h r cur v' off k res :
    Inv g s -> nth_error (ms_pool s) t = Some x0 -> rd_row s h r = Some cur -> v' < W64 ->
    h < nbf g (ms_frames s) -> r < ROWS -> (k < hord g)%nat -> (k <= 6)%nat -> off + pow2 k <= 64 -> off mod pow2 k = 0 ->
    (forall i, i < 64 -> N.testbit v' i = N.testbit cur i || inb off (pow2 k) i) ->
    (forall i, inb off (pow2 k) i = true -> N.testbit cur i = false) ->
    pending_at x0 h (pow2 k) ->
    Inv g (mk_row s h r v' t (TIdle (Some res)) ((h * HF + r * 64 + off, k) :: ms_held s)).
  Proof.
    intros I Ht Hrd Hv Hh Hr Hk Hk6 Hoff Hal Hset Hfree [Pfr Ptr Ptrc Phfr Pp Pp' Pnd Pnd'].
    destruct (quiet_idle (Some res)) as [Qf Qt Qc Qh Qp Qn].
    pose proof (rowv_rd s h r cur Hrd) as Erow.
    pose proof (needs_counter s t x0 h I Ht Hh Pnd) as He.
    assert (Hcov : forall h' r' i, r' < ROWS -> i < 64 ->
              cover (h * HF + r * 64 + off, k) (fidx g h' r' i) = (h' =? h) && ((r' =? r) && inb off (pow2 k) i)).
    { intros h' r' i Hr' Hi. unfold cover, fidx. cbn [fst snd].
      rewrite <- !N.add_assoc. rewrite (inb_in_huge g h (r * 64 + off) (pow2 k) h' (r' * 64 + i)).
      - rewrite (inb_in_row r off (pow2 k) r' i Hoff Hi). reflexivity.
      - pose proof (rowbit_lt g wf r 63 Hr ltac:(lia)). lia.
      - apply (rowbit_lt g wf); assumption. }
    apply (inv_row_delta s t x0 _ h r cur v' _ I Ht Hrd Hv Hh).
    - intros h' Hne. constructor; intros;
        rewrite ?Pfr, ?Ptr, ?Ptrc, ?Phfr, ?(Pp' _ Hne), ?(Pnd' _ Hne), ?Qf, ?Qt, ?Qc, ?Qh, ?Qp, ?Qn; try lia.
      + rewrite heldc_cons, Hcov by assumption. destruct (N.eqb_spec h' h); [contradiction|]. cbn. lia.
      + rewrite hugec_cons, hugeb_small by assumption. lia.
    - intros r' i Hr' Hi. rewrite Pfr, Ptr, Qf, Qt, heldc_cons, Hcov, N.eqb_refl by assumption. cbn [andb]. unfold bit.
      destruct (N.eqb_spec r' r) as [->|Hne]; cbn [andb].
      + rewrite Erow, (Hset i Hi). specialize (Hfree i). destruct (inb off (pow2 k) i) eqn:Ei.
        * rewrite Hfree by reflexivity. cbn. lia.
        * rewrite orb_false_r. cbn. lia.
      + cbn. lia.
    - intros Hm. contradiction.
    - intros _. rewrite Ptrc, Pp, Qp, Qc. pose proof (cz_set cur v' off (pow2 k) Hoff Hset Hfree). lia.
    - intros Hm. contradiction.
    - rewrite hugec_cons, hugeb_small, Phfr, Qh by assumption. lia.
    - reflexivity.
    - reflexivity.
    - constructor; [|apply I].
      unfold blk_ok. cbn [fst snd]. apply andb_true_iff. split.
      + apply N.eqb_eq. pose proof (pow2_nz k).
        apply mod_add_aligned; [assumption| |exact Hal].
        apply mod_add_aligned; [assumption| |]; apply mod_mul_aligned; try assumption.
        * apply HF_mod_pow2. lia.
        * change 64 with (pow2 6). apply pow2_mod, Hk6.
      + apply N.leb_le. pose proof (pow2_pos k).
        assert (Hi : off + pow2 k - 1 < 64) by lia.
        pose proof (I_A g s I h r (off + pow2 k - 1) Hh Hr Hi) as A.
        unfold bit in A. rewrite Erow, Hfree in A by (unfold inb; lia).
        unfold isMark, oor, fidx in A. destruct (N.eqb_spec (entv s h) MARK); [contradiction|]. cbn [b2n] in A.
        destruct (N.leb_spec (ms_frames s) (h * HF + r * 64 + (off + pow2 k - 1))); [cbn [b2n] in A; lia|]. lia.
  Qed.

  (* what ownership says about the bits *)
  Lemma transit_bit s t x0 h r i : Inv g s -> nth_error (ms_pool s) t = Some x0 ->
    h < nbf g (ms_frames s) -> r < ROWS -> i < 64 -> tr g h r x0 = 1 -> bit s h r i = true.
  Proof.
    intros I Ht Hh Hr Hi Htr. apply b2n_true. pose proof (I_A g s I h r i Hh Hr Hi) as A.
    pose proof (sumf_ge (tr g h r) _ _ _ Ht) as G. unfold isMark in A.
    destruct (N.eqb_spec (entv s h) MARK) as [He|He]; cbn [b2n] in A; [|lia].
    pose proof (I_B g s I h Hh He r i Hr Hi). lia.
  Qed.
  Lemma transit_row_full s t x0 h r cur : Inv g s -> nth_error (ms_pool s) t = Some x0 ->
    h < nbf g (ms_frames s) -> r < ROWS -> tr g h r x0 = 1 -> rd_row s h r = Some cur -> cur = MAX64.
  Proof.
    intros I Ht Hh Hr Htr Hrd. destruct (has_row g wf s h r I Hh Hr) as (v & Ev & Hv). rewrite Hrd in Ev. inversion Ev; subst v.
    apply row_all_set; [exact Hv|]. intros i Hi. pose proof (transit_bit s t x0 h r i I Ht Hh Hr Hi Htr) as B.
    unfold bit in B. rewrite (rowv_rd s h r cur Hrd) in B. exact B.
  Qed.
  Lemma owned_bit s t x0 h r i : Inv g s -> nth_error (ms_pool s) t = Some x0 ->
    h < nbf g (ms_frames s) -> r < ROWS -> i < 64 -> entv s h <> MARK -> fr g h r i x0 = 1 -> bit s h r i = true.
  Proof.
    intros I Ht Hh Hr Hi He Hfr. apply b2n_true. pose proof (I_A g s I h r i Hh Hr Hi) as A.
    pose proof (sumf_ge (fr g h r i) _ _ _ Ht) as G. unfold isMark in A.
    destruct (N.eqb_spec (entv s h) MARK); [contradiction|]. cbn [b2n] in A. lia.
  Qed.

  Lemma zero_bit_in_range s h r i : Inv g s -> h < nbf g (ms_frames s) -> r < ROWS -> i < 64 ->
    entv s h <> MARK -> bit s h r i = false -> fidx g h r i < ms_frames s.
  Proof.
    intros I Hh Hr Hi He Hb. pose proof (I_A g s I h r i Hh Hr Hi) as A. rewrite Hb in A. unfold isMark, oor in A.
    destruct (N.eqb_spec (entv s h) MARK); [contradiction|]. cbn [b2n] in A.
    destruct (N.leb_spec (ms_frames s) (fidx g h r i)); [cbn [b2n] in A; lia|assumption].
  Qed.

  (* a row enters / leaves the transit of the thread *)
  Record tr_grow (x0 x' : thr) (h r : N) : Prop := {
    TG_fr : forall h' r' i, fr g h' r' i x' = fr g h' r' i x0;
    TG_hfr : forall h', hfr g h' x' = hfr g h' x0;
    TG_pend : forall h', pend g h' x' = pend g h' x0;
    TG_nd : forall h', needsC g h' x' = needsC g h' x0;
    TG_tr : forall r', tr g h r' x' = tr g h r' x0 + b2n (r' =? r);
    TG_tr' : forall h' r', h' <> h -> tr g h' r' x' = tr g h' r' x0;
    TG_trc : trcount g h x' = trcount g h x0 + 1;
    TG_trc' : forall h', h' <> h -> trcount g h' x' = trcount g h' x0
  }.
  Definition grow (G : ghost) : ghost :=
    {| g_h := g_h G; own_lo := own_lo G; own_n := own_n G; tr_lo := tr_lo G; tr_n := tr_n G + 1; p_n := p_n G;
       nd := nd G; hu := hu G |}.
  Lemma tr_grow_geq x0 x' G : geq (ghost_of g x0) G -> geq (ghost_of g x') (grow G) ->
    tr_grow x0 x' (g_h G) (tr_lo G + tr_n G).
  Proof.
    intros [A B C D E F] [A' B' C' D' E' F']. constructor; intros; unfold fr, tr, pend, trcount, needsC, hfr; cbv zeta;
      rewrite ?B, ?B', ?A, ?A', ?C, ?C', ?D, ?D', ?E, ?E', ?F, ?F'; cbn [grow g_h own_lo own_n tr_lo tr_n p_n nd hu];
      rewrite ?N.eqb_refl; try reflexivity; try (unfold inb; lia); destruct (N.eqb_spec h' (g_h G)); try contradiction; reflexivity.
  Qed.
  Lemma tr_grow_ghost x0 x' :
    ghost_of g x' = {| g_h := g_h (ghost_of g x0); own_lo := own_lo (ghost_of g x0); own_n := own_n (ghost_of g x0);
                       tr_lo := tr_lo (ghost_of g x0); tr_n := tr_n (ghost_of g x0) + 1; p_n := p_n (ghost_of g x0);
                       nd := nd (ghost_of g x0); hu := hu (ghost_of g x0) |} ->
    tr_grow x0 x' (g_h (ghost_of g x0)) (tr_lo (ghost_of g x0) + tr_n (ghost_of g x0)).
  Proof. intros E. apply tr_grow_geq; [apply geq_refl|rewrite E; apply geq_refl]. Qed.

  (* the thread's compare-exchange fills the next row of its transit interval, or empties the last one *)
  Lemma inv_fill s t x0 x' G :
    Inv g s -> nth_error (ms_pool s) t = Some x0 -> geq (ghost_of g x0) G -> geq (ghost_of g x') (grow G) ->
    rd_row s (g_h G) (tr_lo G + tr_n G) = Some 0 -> g_h G < nbf g (ms_frames s) -> tr_lo G + tr_n G < ROWS ->
    isBad x' = 0 -> local_b g (ms_frames s) x' = true ->
    Inv g (mk_row s (g_h G) (tr_lo G + tr_n G) MAX64 t x' (ms_held s)).
  Proof.
    intros I Ht E0 E1 Hrd Hh Hr Hb Hl. destruct (tr_grow_geq x0 x' G E0 E1) as [Tfr Thfr Tp Tnd Ttr Ttr' Ttrc Ttrc'].
    set (h := g_h G) in *. set (r := tr_lo G + tr_n G) in *.
    pose proof (rowv_rd s h r 0 Hrd) as Erow.
    apply (inv_row_delta s t x0 x' h r 0 MAX64 _ I Ht Hrd); try assumption; try reflexivity; try (apply I).
    - intros h' Hne. constructor; intros; rewrite ?Tfr, ?Thfr, ?Tp, ?Tnd, ?(Ttr' _ _ Hne), ?(Ttrc' _ Hne); lia.
    - intros r' i Hr' Hi. rewrite Tfr, Ttr. unfold bit. destruct (N.eqb_spec r' r) as [->|Hne].
      + rewrite Erow, testbit_MAX64, N.bits_0. cbn. destruct (N.ltb_spec i 64); [cbn; lia|lia].
      + cbn. lia.
    - intros _ r' i _ _. rewrite Tfr. reflexivity.
    - intros _. rewrite Tp, Ttrc, cz_0, cz_MAX64. lia.
    - intros He. rewrite Tnd. pose proof (I_D g s I h Hh He). pose proof (sumf_ge (needsC g h) _ _ _ Ht). lia.
    - rewrite Thfr. reflexivity.
  Qed.

  Lemma inv_unfill s t x0 x' G cur :
    Inv g s -> nth_error (ms_pool s) t = Some x0 -> geq (ghost_of g x0) (grow G) -> geq (ghost_of g x') G ->
    rd_row s (g_h G) (tr_lo G + tr_n G) = Some cur -> g_h G < nbf g (ms_frames s) -> tr_lo G + tr_n G < ROWS ->
    isBad x' = 0 -> local_b g (ms_frames s) x' = true ->
    cur = MAX64 /\ Inv g (mk_row s (g_h G) (tr_lo G + tr_n G) 0 t x' (ms_held s)).
  Proof.
    intros I Ht E0 E1 Hrd Hh Hr Hb Hl. destruct (tr_grow_geq x' x0 G E1 E0) as [Tfr Thfr Tp Tnd Ttr Ttr' Ttrc Ttrc'].
    set (h := g_h G) in *. set (r := tr_lo G + tr_n G) in *.
    assert (Hcur : cur = MAX64).
    { apply (transit_row_full s t x0 h r cur I Ht Hh Hr); [|exact Hrd]. pose proof (Ttr r) as E. rewrite N.eqb_refl in E.
      unfold tr in *. cbn [b2n] in E. lia. }
    split; [exact Hcur|]. subst cur.
    pose proof (rowv_rd s h r MAX64 Hrd) as Erow.
    apply (inv_row_delta s t x0 x' h r MAX64 0 _ I Ht Hrd); try assumption; try reflexivity; try (apply I).
    - intros h' Hne. constructor; intros; rewrite <- ?Tfr, <- ?Thfr, <- ?Tp, <- ?Tnd, <- ?(Ttr' _ _ Hne), <- ?(Ttrc' _ Hne); lia.
    - intros r' i Hr' Hi. rewrite Tfr, Ttr. unfold bit. destruct (N.eqb_spec r' r) as [->|Hne].
      + rewrite Erow, testbit_MAX64, N.bits_0. cbn. destruct (N.ltb_spec i 64); [cbn; lia|lia].
      + cbn. lia.
    - intros _ r' i _ _. rewrite Tfr. reflexivity.
    - intros _. rewrite Tp, Ttrc, cz_0, cz_MAX64. lia.
    - intros He. rewrite <- Tnd. pose proof (I_D g s I h Hh He). pose proof (sumf_ge (needsC g h) _ _ _ Ht). lia.
    - rewrite Thfr. reflexivity.
  Qed.

  (* the last row of a multi-row block is filled and the block is handed out *)
  Lemma inv_alloc_rows s t x0 h lo q k res :
    Inv g s -> nth_error (ms_pool s) t = Some x0 -> rd_row s h (lo + q) = Some 0 ->
    h < nbf g (ms_frames s) -> lo + q < ROWS -> (k < hord g)%nat -> pow2 k = 64 * (q + 1) ->
    geq (ghost_of g x0) (gtr h (pow2 k) lo q) ->
    blk_ok (ms_frames s) (h * HF + lo * 64, k) = true ->
    Inv g (mk_row s h (lo + q) MAX64 t (TIdle (Some res)) ((h * HF + lo * 64, k) :: ms_held s)).
  Proof.
    intros I Ht Hrd Hh Hr Hk Hn E Hok. destruct (quiet_idle (Some res)) as [Qf Qt Qc Qh Qp Qn].
    pose proof (rowv_rd s h _ 0 Hrd) as Erow.
    assert (Hnd : needsC g h x0 = 1) by (rewrite (needsC_geq x0 _ h E); cbn; rewrite N.eqb_refl; reflexivity).
    pose proof (needs_counter s t x0 h I Ht Hh Hnd) as He.
    assert (Hcov : forall h' r' i, r' < ROWS -> i < 64 ->
              cover (h * HF + lo * 64, k) (fidx g h' r' i) = (h' =? h) && inb lo (q + 1) r').
    { intros h' r' i Hr' Hi. unfold cover, fidx. cbn [fst snd].
      rewrite <- !N.add_assoc, Hn. rewrite (inb_in_huge g h (lo * 64) (64 * (q + 1)) h' (r' * 64 + i)).
      - rewrite (inb_rows lo (q + 1) r' i Hi). reflexivity.
      - rewrite (HF_64 g wf). lia.
      - apply (rowbit_lt g wf); assumption. }
    apply (inv_row_delta s t x0 _ h (lo + q) 0 MAX64 _ I Ht Hrd); try assumption; try reflexivity.
    - intros h' Hne. constructor; intros; rewrite ?Qf, ?Qt, ?Qc, ?Qh, ?Qp, ?Qn,
        ?(fr_geq x0 _ _ _ _ E), ?(tr_geq x0 _ _ _ E), ?(pend_geq x0 _ _ E), ?(trcount_geq x0 _ _ E), ?(hfr_geq x0 _ _ E);
        cbn [g_h own_lo own_n tr_lo tr_n p_n hu gtr andb]; rewrite ?inb_empty; try lia.
      + rewrite heldc_cons, Hcov by assumption. destruct (N.eqb_spec h' h); [contradiction|]. cbn. lia.
      + destruct (N.eqb_spec h' h); [contradiction|reflexivity].
      + destruct (N.eqb_spec h' h); [contradiction|reflexivity].
      + rewrite hugec_cons, hugeb_small by assumption. lia.
    - intros r' i Hr' Hi. rewrite Qf, Qt, heldc_cons, Hcov, N.eqb_refl, (fr_geq x0 _ _ _ _ E), (tr_geq x0 _ _ _ E) by assumption.
      cbn [g_h own_lo own_n tr_lo tr_n gtr andb]. rewrite inb_empty, N.eqb_refl. unfold bit, inb.
      destruct (N.eqb_spec r' (lo + q)) as [->|Hne].
      + rewrite Erow, testbit_MAX64, N.bits_0. destruct (N.ltb_spec i 64); [cbn; lia|lia].
      + cbn. lia.
    - intros Hm. contradiction.
    - intros _. rewrite Qp, Qc, (pend_geq x0 _ _ E), (trcount_geq x0 _ _ E). cbn [g_h tr_n p_n gtr].
      rewrite N.eqb_refl, cz_0, cz_MAX64. lia.
    - intros Hm. contradiction.
    - rewrite hugec_cons, hugeb_small, Qh, (hfr_geq x0 _ _ E) by assumption. cbn. lia.
    - constructor; [exact Hok|apply I].
  Qed.

  Lemma owned_block s t x0 h r cur off w : Inv g s -> nth_error (ms_pool s) t = Some x0 -> rd_row s h r = Some cur ->
    h < nbf g (ms_frames s) -> r < ROWS -> off + w <= 64 -> needsC g h x0 = 1 ->
    (forall i, inb off w i = true -> fr g h r i x0 = 1) ->
    forall i, inb off w i = true -> N.testbit cur i = true.
  Proof.
    intros I Ht Hrd Hh Hr Hw Hnd Hfr i Hi. pose proof (needs_counter s t x0 h I Ht Hh Hnd) as He.
    assert (Hi64 : i < 64) by (unfold inb in Hi; lia).
    pose proof (owned_bit s t x0 h r i I Ht Hh Hr Hi64 He (Hfr i Hi)) as B. unfold bit in B. rewrite (rowv_rd s h r cur Hrd) in B. exact B.
  Qed.

  (* the thread clears bits [off, off+w) of row r that it owns; they become pending *)
  Lemma inv_release s t x0 x' h r cur v' off w :
    Inv g s -> nth_error (ms_pool s) t = Some x0 -> rd_row s h r = Some cur -> v' < W64 ->
    h < nbf g (ms_frames s) -> r < ROWS -> off + w <= 64 -> needsC g h x0 = 1 ->
    (forall i, i < 64 -> N.testbit v' i = N.testbit cur i && negb (inb off w i)) ->
    (forall r' i, r' < ROWS -> i < 64 -> fr g h r' i x0 = fr g h r' i x' + b2n ((r' =? r) && inb off w i)) ->
    (forall r', tr g h r' x' = tr g h r' x0) -> trcount g h x' = trcount g h x0 -> hfr g h x' = hfr g h x0 ->
    pend g h x' = pend g h x0 + w ->
    (forall h', h' <> h -> gsame s x0 x' h') ->
    isBad x' = 0 -> local_b g (ms_frames s) x' = true ->
    Inv g (mk_row s h r v' t x' (ms_held s)).
  Proof.
    intros I Ht Hrd Hv Hh Hr Hw Hnd Hclr Hfr Htr Htrc Hhfr Hp Hs Hb Hl.
    pose proof (rowv_rd s h r cur Hrd) as Erow.
    pose proof (needs_counter s t x0 h I Ht Hh Hnd) as He.
    assert (Hset : forall i, inb off w i = true -> N.testbit cur i = true).
    { apply (owned_block s t x0 h r cur off w I Ht Hrd Hh Hr Hw Hnd). intros i Hi.
      assert (Hi64 : i < 64) by (unfold inb in Hi; lia).
      pose proof (Hfr r i Hr Hi64) as E. rewrite N.eqb_refl, Hi in E. cbn in E. unfold fr in *. lia. }
    apply (inv_row_delta s t x0 x' h r cur v' _ I Ht Hrd); try assumption; try (apply I).
    - intros h' Hne. apply gsame_H, Hs, Hne.
    - intros r' i Hr' Hi. rewrite (Hfr r' i Hr' Hi), Htr. unfold bit. destruct (N.eqb_spec r' r) as [->|Hne]; cbn [andb].
      + rewrite Erow, (Hclr i Hi). specialize (Hset i). destruct (inb off w i).
        * rewrite Hset by reflexivity. cbn. lia.
        * rewrite andb_true_r. cbn. lia.
      + cbn. lia.
    - intros Hm. contradiction.
    - intros _. rewrite Hp, Htrc. pose proof (cz_clear cur v' off w Hw Hclr Hset). lia.
    - intros Hm. contradiction.
    - rewrite Hhfr. reflexivity.
  Qed.

  (* entry-level ownership covers whole huge frames *)
  Lemma hugeb_le_cover fr b h r i : blk_ok fr b = true -> r < ROWS -> i < 64 -> hugeb g h b <= b2n (cover b (fidx g h r i)).
  Proof.
    intros Hok Hr Hi. destruct b as [F K]. unfold hugeb, cover, blk_ok in *. cbn [fst snd] in *.
    destruct (Nat.leb_spec (hord g) K) as [HK|HK]; [|cbn; lia]. cbn [andb].
    assert (Hal : F mod pow2 K = 0) by lia.
    rewrite (pow2_split (hord g) K HK), <- HF_pow2 in *.
    pose proof (HF_pos g). pose proof (pow2_nz (K - hord g)).
    assert (EF : F = F / HF * HF).
    { pose proof (mod_of_multiple F HF (pow2 (K - hord g)) ltac:(lia) ltac:(lia)) as M.
      rewrite (N.mul_comm HF) in M. specialize (M Hal). pose proof (N.div_mod F HF ltac:(lia)). lia. }
    rewrite EF. pose proof (rowbit_lt g wf r i Hr Hi). unfold fidx. rewrite <- N.add_assoc.
    rewrite (inb_ents g (F / HF) (pow2 (K - hord g)) h (r * 64 + i)) by assumption.
    replace (h * HF) with (h * HF + 0) by lia. rewrite (inb_ents g (F / HF) (pow2 (K - hord g)) h 0) by lia. lia.
  Qed.
  Lemma hugec_le_heldc fr held h r i : Forall (fun b => blk_ok fr b = true) held -> r < ROWS -> i < 64 ->
    hugec g h held <= heldc (fidx g h r i) held.
  Proof. intros Hf Hr Hi. apply sumf_le_in. intros b Hb. apply (hugeb_le_cover fr); [|assumption|assumption].
    exact (proj1 (Forall_forall _ _) Hf b Hb). Qed.

  Lemma hu_aligned fr x : local_b g fr x = true -> hu (ghost_of g x) = true ->
    exists a cnt, own_lo (ghost_of g x) = a * HF /\ own_n (ghost_of g x) = cnt * HF.
  Proof.
    destruct x as [l|c p|s c]; cbn [local_b ghost_of]; [cbn; discriminate| |destruct s; cbn; discriminate].
    intros L Hu.
    destruct p; cbn [gpc lpc] in *; try (cbn in Hu; discriminate); try (destruct x; cbn in Hu; discriminate).
    - destruct (is_put c) eqn:Ep; cbn [own_lo own_n ghuge].
      + destruct (huge_call_aligned_geom g fr c) as [E1 E2]; try lia; [apply is_put_not_get; exact Ep|].
        exists (c_huge g c + q), (c_hnum g c - q). rewrite E1, E2, N.mul_sub_distr_r, N.mul_add_distr_r. split; reflexivity.
      + exists (group_h g c gi), q. split; reflexivity.
    - destruct (is_put c) eqn:Ep; cbn [own_lo own_n ghuge].
      + exfalso. lia.
      + exists (group_h g c gi), (q + 1). split; reflexivity.
  Qed.
  Lemma hfr_le_fr fm x h r i : local_b g fm x = true -> r < ROWS -> i < 64 -> hfr g h x <= fr g h r i x.
  Proof.
    intros L Hr Hi. unfold hfr, fr. destruct (hu (ghost_of g x)) eqn:Hu; [|cbn; lia]. cbn [andb].
    destruct (hu_aligned fm x L Hu) as (a & cnt & E1 & E2). rewrite E1, E2.
    pose proof (rowbit_lt g wf r i Hr Hi). unfold fidx. rewrite <- N.add_assoc.
    rewrite (inb_ents g a cnt h (r * 64 + i)) by assumption.
    replace (h * HF) with (h * HF + 0) at 1 by lia. pose proof (HF_pos g). rewrite (inb_ents g a cnt h 0) by lia. lia.
  Qed.

  (* entry-level ownership of the other threads is bounded by their frame-level ownership *)
  Lemma hfr_others s t x0 h r i : Inv g s -> nth_error (ms_pool s) t = Some x0 -> r < ROWS -> i < 64 ->
    sumf (hfr g h) (ms_pool s) + fr g h r i x0 <= sumf (fr g h r i) (ms_pool s) + hfr g h x0.
  Proof.
    intros I Ht Hr Hi.
    pose proof (sumf_upd (hfr g h) _ t (TIdle None) x0 Ht) as U1.
    pose proof (sumf_upd (fr g h r i) _ t (TIdle None) x0 Ht) as U2.
    assert (Hle : sumf (hfr g h) (upd (ms_pool s) t (TIdle None)) <= sumf (fr g h r i) (upd (ms_pool s) t (TIdle None))).
    { apply sumf_le_in. intros x Hx. apply (hfr_le_fr (ms_frames s)); try assumption.
      assert (Hf : Forall (fun x => local_b g (ms_frames s) x = true) (upd (ms_pool s) t (TIdle None))) by (apply Forall_upd; [apply I|reflexivity]).
      exact (proj1 (Forall_forall _ _) Hf x Hx). }
    rewrite (QT_hfr _ (quiet_idle None)) in U1. rewrite (QT_fr _ (quiet_idle None)) in U2. lia.
  Qed.

  (* the frames of a small block, counted inside its huge frame *)
  Lemma gfr_small fm c x : cwf g fm c = true -> small g c = true -> is_get c = false ->
    own_lo (ghost_of g x) = c_frame c -> own_n (ghost_of g x) = c_n c ->
    gfr g (c_huge g c) x = c_n c.
  Proof.
    intros Hc Hs Hg E1 E2. unfold gfr, fr. cbv zeta. rewrite E1, E2.
    destruct (small_call_decomp g wf fm c Hc Hs Hg) as (E & H1 & H2 & Hal & _).
    assert (Hk : (c_order c < hord g)%nat) by (unfold small in Hs; apply Nat.ltb_lt in Hs; exact Hs).
    destruct (Nat.le_gt_cases (c_order c) 6) as [H6|H7].
    - pose proof (small_fit_bits g (c_frame c) (c_order c) Hal Hk H6) as Hfit. fold (t_off XPut c) in Hfit. fold (c_n c) in Hfit.
      rewrite (gsum_ext g _ (fun r i => b2n (r =? t_row g XPut c) * b2n (inb (t_off XPut c) (c_n c) i))).
      2:{ intros r i Hr Hi. rewrite (own_block_bits g wf fm c _ r i Hc Hs Hg H6 Hr Hi), N.eqb_refl. cbn [andb].
          destruct (r =? t_row g XPut c); cbn; lia. }
      unfold gsum. rewrite (ssum_ext _ _ (fun r => c_n c * b2n (r =? t_row g XPut c))).
      2:{ intros r Hr. rewrite ssum_mulc, (ssum_inb_in 64 _ _ Hfit). lia. }
      rewrite ssum_mulc, ssum_eqb. destruct (N.ltb_spec (t_row g XPut c) ROWS); cbn; lia.
    - destruct (toggle_rows_fit g wf fm c Hc Hs Hg H7) as (E0 & En & Hfit).
      rewrite (gsum_ext g _ (fun r _ => b2n (inb (t_row g XPut c) (pow2 (c_order c - 6)) r))).
      2:{ intros r i Hr Hi. pose proof (own_block_rows g wf fm c 0 (c_huge g c) r i Hc Hs Hg H7 ltac:(lia) Hr Hi) as Eo.
          rewrite N.mul_0_r, N.add_0_r, N.sub_0_r, N.add_0_r, N.sub_0_r, N.eqb_refl in Eo. rewrite Eo. reflexivity. }
      rewrite (gsum_row g), (ssum_inb_in ROWS _ _ Hfit). lia.
  Qed.
End Shapes.

(* rewrite the summands of a thread whose ghost is known by E : geq (ghost_of g x) G *)
Ltac gread E :=
  rewrite ?(fr_geq _ _ _ _ _ _ E), ?(tr_geq _ _ _ _ _ E), ?(pend_geq _ _ _ _ E), ?(trcount_geq _ _ _ _ E),
    ?(needsC_geq _ _ _ _ E), ?(hfr_geq _ _ _ _ E).

(* how every per-pc lemma starts: the static facts of the running thread and the code of its pc *)
Tactic Notation "run_pc" ident(I) ident(Ht) ident(Hc) ident(L) :=
  intros I Ht; destruct (running_local _ _ _ _ _ I Ht) as [Hc L]; cbn [lpc] in L; unfold mstep; rewrite Ht; cbv beta iota zeta.
