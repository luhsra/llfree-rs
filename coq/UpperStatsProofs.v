(* Statistics (tree_stats, validate) and construction (llfree_new) of the upper allocator. *)
From Coq Require Import List NArith Bool Lia Permutation PeanoNat.
From LLF Require Import Base Row Bitfield Lower Spec Upper UpperInvDef LowerFacts AbsLemmas UpperPrims UpperPutProofs Handoff.

(* finite sums *)
Definition sumN (l : list N) : N := fold_right N.add 0 l.
Definition sum_seq (n : nat) (f : nat -> N) : N := sumN (map f (seq 0 n)).

Lemma sumN_app a b : sumN (a ++ b) = sumN a + sumN b.
Proof. unfold sumN. induction a; cbn [fold_right app]; lia. Qed.
Lemma sumN_map_add {A} (f h : A -> N) l : sumN (map (fun x => f x + h x) l) = sumN (map f l) + sumN (map h l).
Proof. unfold sumN. induction l; cbn [fold_right map]; lia. Qed.
Lemma sumN_map_ext {A} (f h : A -> N) l : (forall x, In x l -> f x = h x) -> sumN (map f l) = sumN (map h l).
Proof. unfold sumN. induction l; cbn [fold_right map]; intros H; auto. rewrite (H a) by (left; auto). rewrite IHl; auto. intros; apply H; right; auto. Qed.
Lemma sumN_map_le {A} (f h : A -> N) l : (forall x, In x l -> f x <= h x) -> sumN (map f l) <= sumN (map h l).
Proof. unfold sumN. induction l; cbn [fold_right map]; intros H; [lia|]. pose proof (H a (or_introl eq_refl)). assert (fold_right N.add 0 (map f l) <= fold_right N.add 0 (map h l)) by (apply IHl; intros; apply H; right; auto). lia. Qed.
Lemma sumN_map_sub {A} (f h : A -> N) l : (forall x, In x l -> h x <= f x) ->
  sumN (map (fun x => f x - h x) l) = sumN (map f l) - sumN (map h l).
Proof.
  intros H. assert (Q : sumN (map (fun x => f x - h x) l) + sumN (map h l) = sumN (map f l)).
  { rewrite <- sumN_map_add. apply sumN_map_ext. intros x Hx. specialize (H x Hx). lia. }
  lia.
Qed.
Lemma sumN_map_zero {A} (f : A -> N) l : (forall x, In x l -> f x = 0) -> sumN (map f l) = 0.
Proof. unfold sumN. induction l; cbn [fold_right map]; intros H; auto. rewrite (H a) by (left; auto). rewrite IHl; auto. intros; apply H; right; auto. Qed.
Lemma sumN_map_const {A} (c : N) (l : list A) : sumN (map (fun _ => c) l) = N.of_nat (length l) * c.
Proof. unfold sumN. induction l; cbn [fold_right map length]; [lia|]. rewrite IHl. lia. Qed.

Lemma sumN_delta_seq_gen : forall n s (a : nat) v,
  sumN (map (fun k => if Nat.eqb a k then v else 0) (seq s n)) = if (Nat.leb s a && Nat.ltb a (s + n))%bool then v else 0.
Proof.
  induction n as [|n IH]; intros s a v; cbn [seq map sumN fold_right].
  - destruct (Nat.leb_spec s a), (Nat.ltb_spec a (s + 0)); cbn; auto; lia.
  - fold (sumN (map (fun k => if Nat.eqb a k then v else 0) (seq (S s) n))). rewrite IH.
    destruct (Nat.eqb_spec a s).
    + subst. destruct (Nat.leb_spec (S s) s); try lia. cbn [andb].
      destruct (Nat.leb_spec s s), (Nat.ltb_spec s (s + S n)); cbn; lia.
    + destruct (Nat.leb_spec (S s) a), (Nat.ltb_spec a (S s + n)), (Nat.leb_spec s a), (Nat.ltb_spec a (s + S n)); cbn; lia.
Qed.
Lemma sumN_delta_seq n (a : nat) v : (a < n)%nat ->
  sum_seq n (fun k => if Nat.eqb a k then v else 0) = v.
Proof.
  intros H. unfold sum_seq. rewrite sumN_delta_seq_gen.
  destruct (Nat.leb_spec 0 a), (Nat.ltb_spec a (0 + n)); cbn; lia.
Qed.

(* sum over a list as a sum over its indices *)
Lemma sumN_by_index {A} (f : A -> N) (l : list A) :
  sumN (map f l) = sum_seq (length l) (fun k => match nth_error l k with Some x => f x | None => 0 end).
Proof.
  unfold sum_seq. induction l as [|a l IH]; cbn [length seq map sumN fold_right]; auto.
  fold (sumN (map f l)). rewrite IH. f_equal. rewrite <- seq_shift, map_map. reflexivity.
Qed.

(* per-class statistics lists *)
Definition tot_free (cls : list class_stats) : N := sumN (map cs_free cls).
Definition tot_alloc (cls : list class_stats) : N := sumN (map cs_alloc cls).
(* the `alloc` entry of class k *)
Definition cal (cls : list class_stats) (k : nat) : N :=
  match nth_error cls k with Some x => cs_alloc x | None => 0 end.

Lemma tot_alloc_cal cls : tot_alloc cls = sum_seq (length cls) (cal cls).
Proof. unfold tot_alloc. rewrite sumN_by_index. reflexivity. Qed.

Lemma cal_upd cls c x y k : nth_error cls c = Some x ->
  cal (upd cls c y) k = if Nat.eqb c k then cs_alloc y else cal cls k.
Proof.
  intros H. unfold cal. destruct (Nat.eqb_spec c k).
  - subst. rewrite nth_error_upd_same; auto. apply nth_error_Some. congruence.
  - rewrite nth_error_upd_other; auto.
Qed.
Lemma tot_upd (f : class_stats -> N) cls c x y : nth_error cls c = Some x ->
  sumN (map f (upd cls c y)) + f x = sumN (map f cls) + f y.
Proof.
  intros H. destruct (nth_error_split _ _ H) as (l1 & l2 & -> & <-).
  rewrite upd_app_mid, !map_app, !sumN_app. cbn [map sumN fold_right]. lia.
Qed.

Lemma add_class_spec cls c f a : (nn c < length cls)%nat ->
  length (add_class cls c f a) = length cls /\
  tot_free (add_class cls c f a) = tot_free cls + f /\
  tot_alloc (add_class cls c f a) = tot_alloc cls + a /\
  forall k, cal (add_class cls c f a) k = cal cls k + (if Nat.eqb (nn c) k then a else 0).
Proof.
  intros H. unfold add_class. destruct (nth_error cls (nn c)) as [x|] eqn:E.
  2:{ apply nth_error_None in E. lia. }
  splits.
  - apply upd_length.
  - unfold tot_free. pose proof (tot_upd cs_free cls (nn c) x {| cs_free := cs_free x + f; cs_alloc := cs_alloc x + a |} E) as Q.
    cbn [cs_free] in Q. lia.
  - unfold tot_alloc. pose proof (tot_upd cs_alloc cls (nn c) x {| cs_free := cs_free x + f; cs_alloc := cs_alloc x + a |} E) as Q.
    cbn [cs_alloc] in Q. lia.
  - intros k. rewrite (cal_upd _ _ _ _ _ E). cbn [cs_alloc]. destruct (Nat.eqb_spec (nn c) k); [|lia].
    subst. unfold cal. rewrite E. reflexivity.
Qed.

Lemma sub_alloc_spec cls c f :
  length (sub_alloc cls c f) = length cls /\
  tot_free (sub_alloc cls c f) = tot_free cls /\
  forall k, cal (sub_alloc cls c f) k = cal cls k - (if Nat.eqb (nn c) k then f else 0).
Proof.
  unfold sub_alloc. destruct (nth_error cls (nn c)) as [x|] eqn:E.
  - splits.
    + apply upd_length.
    + unfold tot_free. pose proof (tot_upd cs_free cls (nn c) x {| cs_free := cs_free x; cs_alloc := cs_alloc x - f |} E) as Q.
      cbn [cs_free] in Q. lia.
    + intros k. rewrite (cal_upd _ _ _ _ _ E). cbn [cs_alloc]. destruct (Nat.eqb_spec (nn c) k); [|lia].
      subst. unfold cal. rewrite E. reflexivity.
  - splits; auto. intros k. destruct (Nat.eqb_spec (nn c) k); [|lia]. subst. unfold cal. rewrite E. reflexivity.
Qed.

Definition comb_classes (A B : list class_stats) : list class_stats :=
  map (fun p => {| cs_free := cs_free (fst p) + cs_free (snd p);
                   cs_alloc := cs_alloc (fst p) + cs_alloc (snd p) |}) (combine A B).

Lemma comb_classes_spec : forall A B, length A = length B ->
  length (comb_classes A B) = length A /\
  tot_free (comb_classes A B) = tot_free A + tot_free B /\
  tot_alloc (comb_classes A B) = tot_alloc A + tot_alloc B /\
  forall k, cal (comb_classes A B) k = cal A k + cal B k.
Proof.
  unfold comb_classes, tot_free, tot_alloc.
  induction A as [|a A IH]; intros [|b B] H; try discriminate; cbn [combine map length sumN fold_right].
  - splits; auto. intros k. unfold cal. destruct k; reflexivity.
  - injection H as H. destruct (IH B H) as (I1 & I2 & I3 & I4). unfold sumN in *. cbn [fst snd cs_free cs_alloc].
    splits; try lia.
    intros [|k]; [reflexivity|]. apply (I4 k).
Qed.

Section Stats.
  Variable g : geom.
  Variable policy : N -> N -> N -> pol.
  Hypothesis WF : wf_geom g.
  Hypothesis LF : lower_facts g.
  Notation TF := (TF g).

  (* Trees::stats *)
  Definition tstep (s : tree_stats) (t : tree) : tree_stats :=
    {| ts_free := ts_free s + t_free t; ts_trees := ts_trees s + t_free t / TF;
       ts_classes := add_class (ts_classes s) (t_class t) (t_free t) (TF - t_free t) |}.

  Lemma trees_fold : forall l s,
    (forall t, In t l -> (nn (t_class t) < 8)%nat) -> length (ts_classes s) = 8%nat ->
    let s' := fold_left tstep l s in
    length (ts_classes s') = 8%nat /\
    ts_free s' = ts_free s + sumN (map t_free l) /\
    tot_free (ts_classes s') = tot_free (ts_classes s) + sumN (map t_free l) /\
    tot_alloc (ts_classes s') = tot_alloc (ts_classes s) + sumN (map (fun t => TF - t_free t) l) /\
    forall k, cal (ts_classes s') k = cal (ts_classes s) k +
                sumN (map (fun t => if Nat.eqb (nn (t_class t)) k then TF - t_free t else 0) l).
  Proof.
    induction l as [|t l IH]; intros s Hc Hl; cbn [fold_left map sumN fold_right].
    - cbv zeta. splits; auto; try lia; intros; lia.
    - assert (Ht : (nn (t_class t) < length (ts_classes s))%nat) by (rewrite Hl; apply Hc; left; auto).
      destruct (add_class_spec (ts_classes s) (t_class t) (t_free t) (TF - t_free t) Ht) as (A1 & A2 & A3 & A4).
      destruct (IH (tstep s t)) as (I1 & I2 & I3 & I4 & I5).
      { intros; apply Hc; right; auto. }
      { cbn [tstep ts_classes]. congruence. }
      cbv zeta. cbn [tstep ts_classes ts_free] in *. unfold sumN in *. splits; auto; try lia.
      intros k. rewrite I5, A4. lia.
  Qed.

  (* Locals::stats *)
  Definition lstep (s : tree_stats) (cs : N * slot) : tree_stats :=
    let '(c, sl) := cs in
    if s_pres sl then
      {| ts_free := ts_free s + s_free sl; ts_trees := ts_trees s + s_free sl / TF;
         ts_classes := add_class (ts_classes s) c (s_free sl) 0 |}
    else s.
  Definition wpres (cs : N * slot) : N := if s_pres (snd cs) then s_free (snd cs) else 0.

  Lemma locals_fold : forall L s,
    (forall c sl, In (c, sl) L -> (nn c < 8)%nat) -> length (ts_classes s) = 8%nat ->
    let s' := fold_left lstep L s in
    length (ts_classes s') = 8%nat /\
    ts_free s' = ts_free s + sumN (map wpres L) /\
    tot_free (ts_classes s') = tot_free (ts_classes s) + sumN (map wpres L) /\
    tot_alloc (ts_classes s') = tot_alloc (ts_classes s) /\
    forall k, cal (ts_classes s') k = cal (ts_classes s) k.
  Proof.
    induction L as [|(c, sl) L IH]; intros s Hc Hl; cbn [fold_left map sumN fold_right].
    - cbv zeta. splits; auto; lia.
    - assert (Ht : (nn c < length (ts_classes s))%nat) by (rewrite Hl; eapply Hc; left; eauto).
      destruct (add_class_spec (ts_classes s) c (s_free sl) 0 Ht) as (A1 & A2 & A3 & A4).
      destruct (IH (lstep s (c, sl))) as (I1 & I2 & I3 & I4 & I5).
      { intros; eapply Hc; right; eauto. }
      { cbn [lstep]. destruct (s_pres sl); cbn [ts_classes]; congruence. }
      cbv zeta. unfold wpres at 1 3. cbn [snd]. unfold sumN in *.
      cbn [lstep] in *. destruct (s_pres sl); cbn [ts_classes ts_free] in *; splits; auto; try lia.
      intros k. rewrite I5, A4. destruct (Nat.eqb (nn c) k); lia.
  Qed.

  Lemma sum_free_sumN l : sum_free l = sumN (map (fun cs => s_free (snd cs)) l).
  Proof. unfold sum_free, sumN. induction l; cbn [fold_right map]; auto. rewrite IHl. reflexivity. Qed.

  Lemma wpres_present L : sumN (map wpres L) = sum_free (filter (fun cs => s_pres (snd cs)) L).
  Proof.
    rewrite sum_free_sumN. unfold sumN, wpres. induction L as [|a L IH]; cbn [map filter fold_right]; auto.
    destruct (s_pres (snd a)); cbn [map fold_right]; lia.
  Qed.

  (* the correction pass over the slots (D8 of DESIGN.md: a reserved tree has counter 0 and was counted as
     fully allocated; the free frames its slot holds are taken off the class's `alloc` again) *)
  Definition fstep (u : upper) (acc : res (list class_stats)) (cs : N * slot) : res (list class_stats) :=
    let '(c, sl) := cs in
    match acc with
    | Ok cl =>
        if s_pres sl then
          match tree_at u (row_tree g (s_row sl)) with
          | Some t => Ok (sub_alloc cl (t_class t) (s_free sl))
          | None => Panic (SIndex 48)
          end
        else Ok cl
    | other => other
    end.
  (* what the correction pass takes off class k for slot cs: its free count, if its tree is of class k *)
  Definition Sk (u : upper) (k : nat) (cs : N * slot) : N :=
    if s_pres (snd cs) then
      match tree_at u (row_tree g (s_row (snd cs))) with
      | Some t => if Nat.eqb (nn (t_class t)) k then s_free (snd cs) else 0
      | None => 0
      end
    else 0.

  Lemma fixed_fold u : forall L cl,
    (forall c sl, In (c, sl) L -> s_pres sl = true -> tree_at u (row_tree g (s_row sl)) <> None) ->
    exists cl', fold_left (fstep u) L (Ok cl) = Ok cl' /\ length cl' = length cl /\
                tot_free cl' = tot_free cl /\
                forall k, cal cl' k = cal cl k - sumN (map (Sk u k) L).
  Proof.
    induction L as [|(c, sl) L IH]; intros cl H; cbn [fold_left map sumN fold_right].
    - exists cl. splits; auto; intros; lia.
    - cbn [fstep]. unfold Sk at 1. cbn [snd].
      destruct (s_pres sl) eqn:P.
      + destruct (tree_at u (row_tree g (s_row sl))) as [t|] eqn:Et.
        2:{ exfalso. eapply H; eauto. left; reflexivity. }
        destruct (sub_alloc_spec cl (t_class t) (s_free sl)) as (A1 & A2 & A3).
        destruct (IH (sub_alloc cl (t_class t) (s_free sl))) as (cl' & I1 & I2 & I3 & I4).
        { intros; eapply H; eauto. right; eauto. }
        exists cl'. splits; auto; try congruence.
        intros k. rewrite I4, A3. fold (sumN (map (Sk u k) L)). lia.
      + destruct (IH cl) as (cl' & I1 & I2 & I3 & I4).
        { intros; eapply H; eauto. right; eauto. }
        exists cl'. splits; auto; intros k; rewrite I4; fold (sumN (map (Sk u k) L)); lia.
  Qed.

  Lemma llfree_tree_stats_eq u :
    llfree_tree_stats g u =
    match fold_left (fstep u) (all_slots u)
            (Ok (comb_classes (ts_classes (trees_stats g u)) (ts_classes (locals_stats g u)))) with
    | Ok cl => Ok {| ts_free := ts_free (trees_stats g u) + ts_free (locals_stats g u);
                     ts_trees := ts_trees (trees_stats g u) + ts_trees (locals_stats g u);
                     ts_classes := cl |}
    | Err e => Err e
    | Panic s => Panic s
    end.
  Proof. reflexivity. Qed.
  (* the start value of both folds *)
  Definition stats0_ : tree_stats := {| ts_free := 0; ts_trees := 0; ts_classes := repeat class_stats0 8 |}.
  Lemma trees_stats_eq u : trees_stats g u = fold_left tstep (trees u) stats0_.
  Proof. reflexivity. Qed.
  Lemma locals_stats_eq u : locals_stats g u = fold_left lstep (all_slots u) stats0_.
  Proof. reflexivity. Qed.

  (* regrouping a sum over slots by the tree they hold *)
  Lemma regroup (w : N * slot -> N) (tr : N * slot -> N) n : forall L,
    (forall x, In x L -> tr x < N.of_nat n) ->
    sumN (map w L) = sum_seq n (fun i => sumN (map w (filter (fun x => tr x =? N.of_nat i) L))).
  Proof.
    induction L as [|a L IH]; intros H.
    - cbn [map filter sumN fold_right]. unfold sum_seq. symmetry. apply sumN_map_zero. auto.
    - cbn [map sumN fold_right]. fold (sumN (map w L)). rewrite IH by (intros; apply H; right; auto).
      unfold sum_seq.
      rewrite (sumN_map_ext (fun i => sumN (map w (filter (fun x => tr x =? N.of_nat i) (a :: L))))
                (fun i => (if Nat.eqb (nn (tr a)) i then w a else 0) +
                          sumN (map w (filter (fun x => tr x =? N.of_nat i) L)))).
      + rewrite sumN_map_add. f_equal. symmetry. apply sumN_delta_seq.
        specialize (H a (or_introl eq_refl)). unfold nn. lia.
      + intros i _. cbn [filter]. destruct (N.eqb_spec (tr a) (N.of_nat i)), (Nat.eqb_spec (nn (tr a)) i);
          unfold nn in *; cbn [map]; unfold sumN; cbn [fold_right]; try lia.
  Qed.

  Lemma sumN_filter {A} (f : A -> N) (p : A -> bool) L :
    (forall x, In x L -> p x = false -> f x = 0) -> sumN (map f L) = sumN (map f (filter p L)).
  Proof.
    unfold sumN. induction L as [|a L IH]; intros H; cbn [map filter fold_right]; auto.
    rewrite IH by (intros; apply H; auto; right; auto).
    destruct (p a) eqn:E; cbn [map fold_right]; auto. rewrite (H a); auto. left; auto.
  Qed.
End Stats.

Section StatsThm.
  Variable g : geom.
  Variable policy : N -> N -> N -> pol.
  Hypothesis WF : wf_geom g.
  Hypothesis LF : lower_facts g.
  Notation TF := (TF g).

  (* required from the lower allocator: the global counter is the sum of the per-tree counters *)
  Definition LS_sum_P : Prop :=
    forall l, LowerInv g l ->
      free_frames (lower_stats g l) = sum_seq (nn (ntab g (frames l))) (fun i => tree_free g l (N.of_nat i)).

  Lemma cal_repeat0 m k : cal (repeat class_stats0 m) k = 0.
  Proof. unfold cal. revert k. induction m; intros [|k]; cbn; auto. Qed.

  Section WithInv.
    Variable x : ustate.
    Hypothesis HI : UpperInv g policy x.
    Local Notation u := (us x).
    Local Notation n := (length (trees (us x))).

    Lemma inv_L : UpperInvL g policy (LowerInv g) (fun _ => 0) [] x.
    Proof. exact (UpperInv_to_L g policy x HI). Qed.

    Lemma st_ntrees : ntrees u = N.of_nat n.
    Proof. reflexivity. Qed.

    Lemma st_tree i t : nth_error (trees u) i = Some t ->
      (nn (t_class t) < 8)%nat /\
      (length (slots_of g u (N.of_nat i)) = if t_res t then 1 else 0)%nat /\
      t_free t + sum_free (slots_of g u (N.of_nat i)) + nth i (off x) 0 = tree_free g (low u) (N.of_nat i) /\
      tree_free g (low u) (N.of_nat i) <= TF.
    Proof.
      intros Hi. destruct HI as (H1 & H2 & H3 & H4 & H5 & H6 & H7).
      destruct (H6 i t Hi) as (A & B & C & D). splits; auto.
      - destruct (class_slots (us x) (t_class t)) as [l|] eqn:E; [|congruence].
        pose proof (class_slots_lt _ _ _ H4 E). unfold nn. lia.
      - destruct (t_res t); auto.
      - apply (UIL_tree_free_le g policy (LowerInv g) (lf_bound g LF) _ _ x _ inv_L). unfold ntrees.
        assert (i < length (trees (us x)))%nat by (apply nth_error_Some; congruence). lia.
    Qed.

    Lemma st_slot_class c sl : In (c, sl) (all_slots u) -> (nn c < 8)%nat.
    Proof.
      intros Hin. destruct HI as (H1 & H2 & H3 & H4 & _). apply in_all_slots in Hin; auto.
      destruct Hin as (j & Hj). destruct (slot_at_inv _ _ _ _ Hj) as (l & E & _).
      pose proof (class_slots_lt _ _ _ H4 E). unfold nn. lia.
    Qed.

    Lemma st_slot_tree c sl : In (c, sl) (all_slots u) -> s_pres sl = true ->
      row_tree g (s_row sl) < N.of_nat n /\
      exists t, tree_at u (row_tree g (s_row sl)) = Some t /\ (nn (t_class t) < 8)%nat.
    Proof.
      intros Hin P. destruct HI as (H1 & H2 & H3 & H4 & H5 & H6 & H7).
      assert (Hp : In (c, sl) (present_slots (us x))) by (apply in_present; auto).
      destruct (H7 c sl Hp) as (B1 & _). split; [exact B1|].
      destruct (tree_at_some _ _ B1) as (t & Ht). exists t. split; auto.
      eapply st_tree. exact Ht.
    Qed.

    (* free frames in the tree counters (`Fa`) and in the present slots (`Fb`) *)
    Definition Fa : N := sumN (map t_free (trees u)).
    Definition Fb : N := sum_free (present_slots u).

    Lemma Sk_sum : forall L, (forall c sl, In (c, sl) L -> In (c, sl) (all_slots u)) ->
      sum_seq 8 (fun k => sumN (map (Sk g u k) L)) = sumN (map (wpres) L).
    Proof.
      induction L as [|(c, sl) L IH]; intros H.
      - reflexivity.
      - assert (Q : sumN (map (fun k => Sk g u k (c, sl)) (seq 0 8)) = wpres (c, sl)).
        { unfold Sk, wpres. cbn [snd]. destruct (s_pres sl) eqn:P.
          - destruct (st_slot_tree c sl (H c sl (or_introl eq_refl)) P) as (_ & t & Ht & Hc). rewrite Ht.
            apply (sumN_delta_seq 8 (nn (t_class t)) (s_free sl) Hc).
          - apply sumN_map_zero. auto. }
        specialize (IH (fun c0 sl0 Hin => H c0 sl0 (or_intror Hin))). unfold sum_seq in *.
        rewrite (sumN_map_ext (fun k => sumN (map (Sk g u k) ((c, sl) :: L)))
                   (fun k => Sk g u k (c, sl) + sumN (map (Sk g u k) L))) by (intros; reflexivity).
        rewrite sumN_map_add, Q, IH. reflexivity.
    Qed.

    (* allocated frames of class k as the tree pass counts them: TF - counter, summed over the trees of class k *)
    Definition Ck (k : nat) : N :=
      sumN (map (fun t => if Nat.eqb (nn (t_class t)) k then TF - t_free t else 0) (trees u)).

    Lemma Sk_le k : sumN (map (Sk g u k) (all_slots u)) <= Ck k.
    Proof.
      rewrite (sumN_filter (Sk g u k) (fun cs => s_pres (snd cs))).
      2:{ intros (c, sl) _ P. unfold Sk. cbn [snd] in *. rewrite P. reflexivity. }
      fold (present_slots u).
      rewrite (regroup (Sk g u k) (fun cs => row_tree g (s_row (snd cs))) n).
      2:{ intros (c, sl) Hin. apply in_present in Hin. destruct Hin as (Hin & P). cbn [snd].
          apply (st_slot_tree c sl Hin P). }
      unfold Ck. rewrite sumN_by_index. unfold sum_seq. apply sumN_map_le.
      intros i Hi. apply in_seq in Hi.
      destruct (nth_error (trees u) i) as [t|] eqn:Et.
      2:{ apply nth_error_None in Et.  lia. }
      fold (slots_of g u (N.of_nat i)).
      destruct (st_tree i t Et) as (T1 & T2 & T3 & T4).
      rewrite (sumN_map_ext (Sk g u k) (fun cs => if Nat.eqb (nn (t_class t)) k then s_free (snd cs) else 0)).
      2:{ intros (c, sl) Hin. apply in_slots_of in Hin. destruct Hin as (_ & P & R). unfold Sk. cbn [snd].
          rewrite P, R. unfold tree_at, nn. rewrite Nat2N.id. rewrite Et. reflexivity. }
      destruct (Nat.eqb (nn (t_class t)) k).
      - rewrite <- sum_free_sumN. lia.
      - rewrite sumN_map_zero; auto. lia.
    Qed.

    Lemma Fb_regroup : Fb = sum_seq n (fun i => sum_free (slots_of g u (N.of_nat i))).
    Proof.
      unfold Fb. rewrite sum_free_sumN.
      rewrite (regroup (fun cs => s_free (snd cs)) (fun cs => row_tree g (s_row (snd cs))) n).
      2:{ intros (c, sl) Hin. apply in_present in Hin. destruct Hin as (Hin & P). cbn [snd].
          apply (st_slot_tree c sl Hin P). }
      unfold sum_seq. apply sumN_map_ext. intros i _. rewrite <- sum_free_sumN. reflexivity.
    Qed.

    (* C04 / C14.  The tree pass gives free = Fa and alloc_k = Ck k per class, the slot pass adds Fb to free, the
       correction pass takes `Sk` off alloc; over all classes that is Fb again (`Sk_sum`), so
       free + alloc = Fa + Fb + (ntrees * TF - Fa) - Fb. *)
    Theorem tree_stats_correct :
      exists ts, llfree_tree_stats g u = Ok ts /\
        ts_free ts = Fa + Fb /\
        length (ts_classes ts) = 8%nat /\
        sumN (map cs_free (ts_classes ts)) = ts_free ts /\
        sumN (map (fun c => cs_free c + cs_alloc c) (ts_classes ts)) = ntrees u * TF.
    Proof using WF LF HI.
      assert (HT : forall t, In t (trees u) -> (nn (t_class t) < 8)%nat).
      { intros t Hin. apply In_nth_error in Hin. destruct Hin as (i & Hi). eapply st_tree; eauto. }
      destruct (trees_fold g (trees u) stats0_ HT eq_refl) as (A1 & A2 & A3 & A4 & A5).
      cbv zeta in A1, A2, A3, A4, A5. rewrite <- trees_stats_eq in *.
      destruct (locals_fold g (all_slots u) stats0_ st_slot_class eq_refl) as (B1 & B2 & B3 & B4 & B5).
      cbv zeta in B1, B2, B3, B4, B5. rewrite <- locals_stats_eq in *.
      rewrite wpres_present in B2, B3. fold (present_slots u) in B2, B3. fold Fb in B2, B3.
      fold Fa in A2, A3.
      change (ts_free stats0_) with 0 in *. change (tot_free (ts_classes stats0_)) with 0 in *.
      change (tot_alloc (ts_classes stats0_)) with 0 in *.
      set (A := ts_classes (trees_stats g u)) in *. set (B := ts_classes (locals_stats g u)) in *.
      destruct (comb_classes_spec A B) as (C1 & C2 & C3 & C4); [congruence|].
      destruct (fixed_fold g u (all_slots u) (comb_classes A B)) as (cl' & D1 & D2 & D3 & D4).
      { intros c sl Hin P. destruct (st_slot_tree c sl Hin P) as (_ & t & Ht & _). congruence. }
      rewrite llfree_tree_stats_eq. fold A B. rewrite D1. eexists. split; [reflexivity|].
      cbn [ts_free ts_classes].
      assert (L8 : length cl' = 8%nat) by congruence.
      assert (TFREE : tot_free cl' = Fa + Fb) by (rewrite D3, C2; lia).
      splits; auto; try lia.
      { unfold tot_free in TFREE. lia. }
      rewrite sumN_map_add. fold (tot_free cl') (tot_alloc cl'). rewrite TFREE.
      (* alloc part *)
      assert (CA : forall k, cal (comb_classes A B) k = Ck k).
      { intros k. rewrite C4, A5, B5. change (ts_classes stats0_) with (repeat class_stats0 8).
        rewrite !cal_repeat0. unfold Ck. lia. }
      assert (TA : tot_alloc cl' = sum_seq 8 Ck - Fb).
      { rewrite tot_alloc_cal, L8. unfold sum_seq.
        rewrite (sumN_map_ext (cal cl') (fun k => Ck k - sumN (map (Sk g u k) (all_slots u)))).
        2:{ intros k _. rewrite D4, CA. reflexivity. }
        rewrite sumN_map_sub by (intros; apply Sk_le).
        f_equal. change (sumN (map (fun k => sumN (map (Sk g u k) (all_slots u))) (seq 0 8)))
                   with (sum_seq 8 (fun k => sumN (map (Sk g u k) (all_slots u)))).
        rewrite Sk_sum by auto. rewrite wpres_present. reflexivity. }
      assert (LE : Fb <= sum_seq 8 Ck).
      { unfold Fb, present_slots. rewrite <- wpres_present. rewrite <- Sk_sum by auto. unfold sum_seq.
        apply sumN_map_le. intros; apply Sk_le. }
      assert (SC : sum_seq 8 Ck = tot_alloc (comb_classes A B)).
      { rewrite tot_alloc_cal, C1, A1. unfold sum_seq. apply sumN_map_ext. intros; symmetry; apply CA. }
      rewrite C3, A4, B4 in SC.
      assert (NT : sumN (map (fun t => TF - t_free t) (trees u)) + Fa = ntrees u * TF).
      { unfold Fa. rewrite <- sumN_map_add.
        rewrite (sumN_map_ext _ (fun _ => TF)).
        - rewrite sumN_map_const. reflexivity.
        - intros t Hin. apply In_nth_error in Hin. destruct Hin as (i & Hi).
          destruct (st_tree i t Hi) as (_ & _ & T3 & T4). lia. }
      lia.
    Qed.

    Lemma st_off i : (i < n)%nat -> exists o, nth_error (off x) i = Some o /\ nth i (off x) 0 = o.
    Proof.
      intros Hi. destruct HI as (_ & _ & H3 & _).
      destruct (nth_error (off x) i) as [o|] eqn:E.
      - exists o. split; auto. apply nth_error_nth. exact E.
      - apply nth_error_None in E. lia.
    Qed.

    Hypothesis LS_sum : LS_sum_P.

    (* C04: the fast counters and the hidden amounts add up to the lower allocator's count *)
    Theorem tree_stats_free_sum : Fa + Fb + sumN (off x) = free_frames (lower_stats g (low u)).
    Proof.
      pose proof HI as (H1 & H2 & H3 & _).
      rewrite (LS_sum _ H1), <- H2.
      unfold Fa. rewrite sumN_by_index, Fb_regroup.
      rewrite <- (map_id (off x)) at 1. rewrite sumN_by_index, H3.
      unfold sum_seq. rewrite <- !sumN_map_add. apply sumN_map_ext.
      intros i Hi. apply in_seq in Hi.
      destruct (nth_error (trees u) i) as [t|] eqn:Et.
      2:{ apply nth_error_None in Et. lia. }
      destruct (st_tree i t Et) as (_ & _ & T3 & _).
      destruct (st_off i) as (o & E1 & E2); [lia|]. rewrite E1. unfold id. lia.
    Qed.

    Corollary llfree_tree_stats_free ts :
      llfree_tree_stats g u = Ok ts ->
      ts_free ts + sumN (off x) = free_frames (lower_stats g (low u)).
    Proof using WF LF HI LS_sum.
      intros E. destruct tree_stats_correct as (ts' & E' & F & _). rewrite E in E'. inversion E'; subst ts'.
      rewrite F. apply tree_stats_free_sum.
    Qed.

    Lemma in_combine_seq_inv {A} (l : list A) : forall s i t,
      In (i, t) (combine (seq s (length l)) l) -> (s <= i)%nat /\ nth_error l (i - s) = Some t.
    Proof.
      induction l as [|a l IH]; intros s i t H; cbn in H; [destruct H|].
      destruct H as [H|H].
      - inversion H; subst. split; [lia|]. rewrite Nat.sub_diag. reflexivity.
      - destruct (IH _ _ _ H) as (Q1 & Q2). split; [lia|].
        replace (i - s)%nat with (S (i - S s)) by lia. exact Q2.
    Qed.

    Lemma length_filter_sum {A} (p : A -> bool) l :
      N.of_nat (length (filter p l)) = sumN (map (fun a => if p a then 1 else 0) l).
    Proof.
      unfold sumN. induction l as [|a l IH]; cbn [filter map fold_right length]; auto.
      destruct (p a); cbn [length]; lia.
    Qed.

    (* validate() passes on every state without offline trees *)
    Theorem llfree_validate_ok :
      Forall (fun o => o = 0) (off x) -> llfree_validate g u = Ok tt.
    Proof using WF LF HI LS_sum.
      intros Hoff.
      assert (Hnth : forall i, nth i (off x) 0 = 0).
      { intros i. destruct (nth_in_or_default i (off x) 0) as [Hin|E]; auto.
        rewrite Forall_forall in Hoff. apply Hoff. exact Hin. }
      assert (Hsum : sumN (off x) = 0).
      { rewrite <- (map_id (off x)). apply sumN_map_zero. rewrite Forall_forall in Hoff. exact Hoff. }
      destruct tree_stats_correct as (ts & E & F & _).
      pose proof (llfree_tree_stats_free ts E) as FS. rewrite Hsum in FS.
      unfold llfree_validate. rewrite E. unfold llfree_stats.
      replace (ts_free ts =? free_frames (lower_stats g (low u))) with true by (symmetry; apply N.eqb_eq; lia).
      cbn [negb].
      (* unreserved trees *)
      replace (forallb _ (combine (seq 0 n) (trees u))) with true.
      2:{ symmetry. apply forallb_forall. intros (i, t) Hin.
          destruct (in_combine_seq_inv _ _ _ _ Hin) as (_ & Hi). rewrite Nat.sub_0_r in Hi.
          destruct (st_tree i t Hi) as (_ & T2 & T3 & _).
          destruct (t_res t); auto. cbn [orb]. apply N.eqb_eq.
          apply length_zero_iff_nil in T2. rewrite T2, Hnth in T3. cbn [sum_free fold_right] in T3. lia. }
      cbn [negb]. fold (present_slots u).
      (* every reservation *)
      replace (forallb _ (present_slots u)) with true.
      2:{ symmetry. apply forallb_forall. intros (c, sl) Hin. cbn [snd].
          apply in_present in Hin. destruct Hin as (Hin & P).
          destruct (st_slot_tree c sl Hin P) as (B1 & t & Ht & _). rewrite Ht.
          assert (Hi : nth_error (trees u) (nn (row_tree g (s_row sl))) = Some t) by exact Ht.
          destruct (st_tree _ t Hi) as (_ & T2 & T3 & _).
          unfold nn in T2, T3. rewrite N2Nat.id in T2, T3. fold (nn (row_tree g (s_row sl))) in T3.
          assert (Hs : In (c, sl) (slots_of g u (row_tree g (s_row sl)))) by (apply in_slots_of; auto).
          destruct (slots_of g u (row_tree g (s_row sl))) as [|a [|b l]] eqn:Es; [destruct Hs| |].
          - destruct Hs as [->|[]]. destruct (t_res t); [|discriminate]. cbn [andb].
            apply N.eqb_eq. rewrite Hnth in T3. cbn [sum_free fold_right snd] in T3. lia.
          - destruct (t_res t); discriminate. }
      cbn [negb].
      (* count *)
      replace (N.of_nat (length (filter t_res (trees u))) =? N.of_nat (length (present_slots u))) with true; auto.
      symmetry. apply N.eqb_eq.
      rewrite length_filter_sum, sumN_by_index.
      rewrite <- (N.mul_1_r (N.of_nat (length (present_slots u)))), <- sumN_map_const.
      rewrite (regroup (fun _ => 1) (fun cs => row_tree g (s_row (snd cs))) n).
      2:{ intros (c, sl) Hin. apply in_present in Hin. destruct Hin as (Hin & P). cbn [snd].
          apply (st_slot_tree c sl Hin P). }
      unfold sum_seq. apply sumN_map_ext. intros i Hi. apply in_seq in Hi.
      destruct (nth_error (trees u) i) as [t|] eqn:Et.
      2:{ apply nth_error_None in Et. lia. }
      destruct (st_tree i t Et) as (_ & T2 & _).
      fold (slots_of g u (N.of_nat i)). rewrite sumN_map_const, T2. destruct (t_res t); reflexivity.
    Qed.
  End WithInv.
End StatsThm.

(* construction *)
Definition notpres (s : slot) : Prop := s_pres s = false.

Lemma Forall_firstn' {A} (P : A -> Prop) n : forall l, Forall P l -> Forall P (firstn n l).
Proof. induction n; intros [|a l] H; cbn; auto. inversion H; subst. constructor; auto. Qed.
Lemma Forall_skipn' {A} (P : A -> Prop) n : forall l, Forall P l -> Forall P (skipn n l).
Proof. induction n; intros [|a l] H; cbn; auto. inversion H; subst. auto. Qed.

Lemma locals_go_spec : forall cl buf acc,
  (forall c k, In (c, k) cl -> c < 8) -> length acc = 8%nat ->
  (forall c l, nth_error acc c = Some (Some l) -> Forall notpres l) -> Forall notpres buf ->
  exists ls, locals_go cl buf acc = Ok ls /\ length ls = 8%nat /\
    (forall c l, nth_error ls c = Some (Some l) -> Forall notpres l) /\
    (forall c, (exists l, nth_error acc (nn c) = Some (Some l)) \/ (exists k, In (c, k) cl) ->
               exists l, nth_error ls (nn c) = Some (Some l)).
Proof.
  induction cl as [|(c0, k0) cl IH]; intros buf acc Hc Hl Hacc Hbuf; cbn [locals_go].
  - exists acc. splits; auto. intros c [H|(k & [])]; auto.
  - assert (C8 : c0 < 8) by (eapply Hc; left; reflexivity).
    apply N.leb_gt in C8. rewrite C8. apply N.leb_gt in C8.
    destruct (IH (skipn (nn k0) buf) (upd acc (nn c0) (Some (firstn (nn k0) buf)))) as (ls & E & L & F & G).
    + intros c k Hin. eapply Hc. right. eauto.
    + rewrite upd_length. auto.
    + intros c l Hn. destruct (Nat.eq_dec c (nn c0)) as [->|Nc].
      * rewrite nth_error_upd_same in Hn by (unfold nn; lia). inversion Hn; subst. apply Forall_firstn'. auto.
      * rewrite nth_error_upd_other in Hn by auto. eapply Hacc; eauto.
    + apply Forall_skipn'. auto.
    + exists ls. splits; auto. intros c H. apply G.
      destruct (N.eq_dec c c0) as [->|Nc].
      * left. rewrite nth_error_upd_same by (unfold nn; lia). eauto.
      * destruct H as [(l & H)|(k & [H|H])].
        -- left. rewrite nth_error_upd_other by (unfold nn; lia). eauto.
        -- inversion H; congruence.
        -- right. eauto.
Qed.

Lemma nth_error_seq' : forall n s i, (i < n)%nat -> nth_error (seq s n) i = Some (s + i)%nat.
Proof.
  induction n; intros s i H; [lia|]. destruct i; cbn; [f_equal; lia|].
  rewrite IHn by lia. f_equal. lia.
Qed.

Section New.
  Variable g : geom.
  Variable policy : N -> N -> N -> pol.
  Hypothesis WF : wf_geom g.
  Hypothesis LF : lower_facts g.
  Notation TF := (TF g).

  Definition tree_init (l : lower) (d : N) (i : nat) : tree :=
    {| t_free := tree_free g l (N.of_nat i); t_res := false; t_class := d |}.

  Lemma trees_new_spec l d : LowerInv g l ->
    trees_new g l d = Ok (map (tree_init l d) (seq 0 (nn (ntab g (frames l))))).
  Proof.
    intros HL. unfold trees_new.
    assert (G : forall L, (forall i, In i L -> N.of_nat i < ntab g (frames l)) ->
      fold_right (fun i acc =>
        match acc with
        | Ok ts =>
            match lower_stats_at g l (N.of_nat i * TF) (tord g) with
            | Ok s => if TF <? free_frames s then Panic STreeFree
                      else Ok ({| t_free := free_frames s; t_res := false; t_class := d |} :: ts)
            | Err e => Err e
            | Panic s => Panic s
            end
        | other => other
        end) (Ok []) L = Ok (map (tree_init l d) L)).
    { induction L as [|i L IH]; intros H; cbn [fold_right map]; auto.
      rewrite IH by (intros; apply H; right; auto).
      assert (Hi : N.of_nat i < ntab g (frames l)) by (apply H; left; auto).
      destruct (lf_stats_at_tree g LF l _ HL Hi) as (s & E1 & E2). rewrite E1, E2.
      destruct (lf_tree_free g LF l _ HL Hi) as (_ & Hle). apply N.ltb_ge in Hle. rewrite Hle. reflexivity. }
    apply G. intros i Hi. apply in_seq in Hi. unfold nn in Hi. lia.
  Qed.

  Theorem llfree_new_correct fr i classing d lbuf tbuf sbuf :
    i <> INone ->
    LowerInv g (lower_new g fr i lbuf) ->
    Forall notpres sbuf ->
    (forall c k, In (c, k) classing -> c < 8) ->
    (exists k, In (d, k) classing) ->
    exists u, llfree_new g fr i classing d lbuf tbuf sbuf = Ok u /\
              UpperInv g policy (ustate_new u) /\
              low u = lower_new g fr i lbuf /\ dflt u = d /\
              (forall t, tree_at u t <> None -> tree_at u t =
                 Some {| t_free := tree_free g (low u) t; t_res := false; t_class := d |}) /\
              present_slots u = [].
  Proof.
    intros Hi HL Hbuf Hcl Hd. set (l := lower_new g fr i lbuf) in *.
    destruct (locals_go_spec classing sbuf (repeat None 8) Hcl eq_refl) as (ls & E & L8 & F & G); auto.
    { intros c l0 Hn. exfalso. assert (In (Some l0) (repeat None 8)) by (eapply nth_error_In; eauto).
      apply repeat_spec in H. discriminate. }
    unfold llfree_new. fold l. rewrite locals_new_go, E, (trees_new_spec l d HL).
    set (u := {| low := l; trees := map (tree_init l d) (seq 0 (nn (ntab g (frames l)))); locals := ls; dflt := d |}).
    assert (RES : (match i with INone => Ok {| low := l; trees := firstn (nn (ntab g fr)) tbuf; locals := ls; dflt := d |}
                            | _ => Ok u end) = Ok u) by (destruct i; congruence).
    exists u. split; [destruct i; try congruence; reflexivity|].
    assert (HP : present_slots u = []).
    { unfold present_slots. apply filter_nil. intros (c, s) Hin. cbn [snd].
      apply in_all_slots in Hin; [|exact L8]. destruct Hin as (j & Hj).
      destruct (slot_at_inv _ _ _ _ Hj) as (l0 & E0 & N0). unfold class_slots in E0. cbn [locals u] in E0.
      destruct (nth_error ls (nn c)) as [[l1|]|] eqn:En; try discriminate. inversion E0; subst l1.
      specialize (F _ _ En). rewrite Forall_forall in F. apply F. eapply nth_error_In; eauto. }
    assert (HD : class_slots u d <> None).
    { destruct (G d (or_intror Hd)) as (l0 & E0). unfold class_slots. cbn [locals u]. rewrite E0. discriminate. }
    assert (HT : forall k t, nth_error (trees u) k = Some t -> t = tree_init l d k /\ (k < nn (ntab g (frames l)))%nat).
    { intros k t Hk. cbn [trees u] in Hk. rewrite nth_error_map in Hk.
      destruct (nth_error (seq 0 (nn (ntab g (frames l)))) k) as [k'|] eqn:Ek; [|discriminate].
      assert (Hlt : (k < nn (ntab g (frames l)))%nat).
      { rewrite <- (seq_length (nn (ntab g (frames l))) 0). apply nth_error_Some. congruence. }
      rewrite nth_error_seq' in Ek by auto. inversion Ek; subst k'. inversion Hk. auto. }
    splits; auto.
    - unfold UpperInv, ustate_new. cbn [us off]. cbv zeta. splits; auto.
      + cbn [trees u]. rewrite map_length, seq_length. reflexivity.
      + apply repeat_length.
      + intros k t Hk. destruct (HT k t Hk) as (-> & Hlt).
        unfold tree_ok. cbv zeta. unfold slots_of. rewrite HP. cbn [filter length sum_free fold_right tree_init t_res t_free t_class].
        splits; auto; try (intros c s []).
        rewrite nth_repeat. cbn [low u]. lia.
      + intros c s Hin. rewrite HP in Hin. destruct Hin.
    - intros t Ht. unfold tree_at in *. destruct (nth_error (trees u) (nn t)) as [t0|] eqn:Et; [|congruence].
      destruct (HT _ _ Et) as (-> & _). unfold tree_init, nn. rewrite N2Nat.id. reflexivity.
  Qed.
End New.

(* non-vacuity *)
Example tree_stats_nonvacuous :
  UpperInv g0 pol0 ex3 /\ present_slots (us ex3) <> [] /\
  (exists ts, llfree_tree_stats g0 (us ex3) = Ok ts /\ ts_free ts = 4087 /\
              sumN (map (fun c => cs_free c + cs_alloc c) (ts_classes ts)) = 3 * 2048) /\
  free_frames (lower_stats g0 (low (us ex3))) =
    sum_seq (nn (ntab g0 (frames (low (us ex3))))) (fun i => tree_free g0 (low (us ex3)) (N.of_nat i)) /\
  Forall (fun o => o = 0) (off ex3) /\ llfree_validate g0 (us ex3) = Ok tt.
Proof.
  split; [exact ex3_inv|]. split; [vm_compute; discriminate|]. split.
  - eexists. split; [vm_compute; reflexivity|]. vm_compute. auto.
  - split; [vm_compute; reflexivity|]. split; [|vm_compute; reflexivity].
    vm_compute. repeat constructor.
Qed.

(* a state with an offline tree: the hidden amount enters the sum *)
Example tree_stats_offline_nonvacuous :
  UpperInv g0 pol0 ex4 /\ sumN (off ex4) = 1528 /\
  (exists ts, llfree_tree_stats g0 (us ex4) = Ok ts /\
              ts_free ts + sumN (off ex4) = free_frames (lower_stats g0 (low (us ex4)))).
Proof.
  split; [exact ex4_inv|]. split; [vm_compute; reflexivity|].
  eexists. split; [vm_compute; reflexivity|]. vm_compute. reflexivity.
Qed.

Example llfree_new_nonvacuous :
  LowerInv g0 (lower_new g0 4608 IFreeAll lower0) /\
  LowerInv g0 (lower_new g0 4608 IAllocAll lower0) /\
  Forall notpres (repeat slot_none 3) /\
  (forall c k, In (c, k) [(0, 2); (1, 1)] -> c < 8) /\ (exists k, In (0, k) [(0, 2); (1, 1)]) /\
  (exists u, llfree_new g0 4608 IFreeAll [(0, 2); (1, 1)] 0 lower0 [] (repeat slot_none 3) = Ok u /\
             upper_invb g0 pol0 (ustate_new u) = true).
Proof.
  split; [apply lower_invb_sound; vm_compute; reflexivity|].
  split; [apply lower_invb_sound; vm_compute; reflexivity|].
  split; [repeat constructor|]. split.
  - intros c k [H|[H|[]]]; inversion H; subst; reflexivity.
  - split; [exists 2; left; reflexivity|]. eexists. split; [vm_compute; reflexivity|]. vm_compute. reflexivity.
Qed.
