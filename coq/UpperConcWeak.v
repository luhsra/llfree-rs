(* C01 (and the crash-point property) on machine M2 (UpperMachine.v) for EVERY interleaving of get / get_at / put / drain
   and change_tree calls -- INCLUDING change_tree(.., Online), which the accounting invariant `UInv` (UpperConcInv.v) must
   exclude (UpperOnlineRace.v: an Online racing a put double-counts the tree counter).

   Idea: the upper layer is a client of the lower allocator.  Whatever the tree counters / slot counters say, it only
   calls Lower::get / get_at with a start row / a frame in range and only frees blocks its caller holds (`client_take`
   at the start of a put).  So M1's invariant `Inv` for the embedded M1 state is preserved regardless of the accounting.
   The weak invariant keeps:  Inv (M1 view)  /\  shape of the shared upper state (number of trees, rows of present slots
   in range)  /\  per-thread shape `twf` (UpperConcWf.v, accounting free)  /\  `uall_ok` (UpperProgress.v).
   What is given up: the upper layer may PANIC (failed asserts on counters, "Unreserve failed", ...): a panicked thread
   just stops.  A get that panics in upper code after the lower allocator has handed it a frame (e.g. "Unreserve failed"
   of the reservation it swapped out) LEAKS that frame: it stays allocated for ever and belongs to nobody.  The M1 view
   therefore carries a ghost list L of leaked blocks: `m1w s L` = `m1_of s` with L appended to the held list.

   The thread-local part is UpperConcLocal.v (Section Local / Start): its `vfacts` carries no accounting fact (an
   unreserve may fail; the free counter of a slot is unbounded; change_at closures unconstrained) and its calls are
   `call_wf_w` (change_tree: any operation).  This file is the step / run. *)
From Coq Require Import PeanoNat Permutation Setoid Morphisms.
From LLF Require Import Base Row Bitfield Lower Spec Sorted Upper UpperInvDef UpperPrims UpperGetLoops LowerMachine
  ConcBase ConcInvDef UpperMachine UpperConcInvDef UpperConcWf UpperConcLocal.
From LLF Require Import LowerFacts LowerFactsProofs ConcInvStep ConcInvIdle ConcInv ConcProps UpperConcUIC UpperConcM1 UpperConcInv.
From LLF Require UpperProgress.

(* scope of the weak invariant: as `call_valid` (UpperConcLocal.v) but change_tree with ANY operation; this is
   `call_idx_ok` of UpperConcLocal.v, to which `start_ok` applies by conversion *)
Section StartW.
  Variable u : upper.

  Definition call_valid_w (c : ucall) : Prop :=
    match c with
    | UGet _ r | UPut _ r => forall l len, r_local r = Some l -> class_locals u (r_class r) = Some len -> l < len
    | UDrain => True
    | UChange _ _ => True
    end.
End StartW.
Lemma call_valid_w_idx u c : call_valid_w u c = call_idx_ok u c.
Proof. reflexivity. Qed.


Lemma nth_error_upd_cases {A} (l : list A) k x j y : nth_error (upd l k x) j = Some y -> y = x \/ nth_error l j = Some y.
Proof.
  revert k j. induction l as [|a l IH]; intros k j; destruct k, j; cbn [upd nth_error]; intros H; try (right; exact H).
  - left. inversion H. reflexivity.
  - apply (IH k j). exact H.
Qed.

Section Weak.
  Variable g : geom.
  Variable policy : N -> N -> N -> pol.
  Hypothesis WF : wf_geom g.
  Notation TF := (TF g).

  (* the shape of the shared upper state: no accounting *)
  Definition slots_in (u : upper) : Prop :=
    forall c j s, UpperPrims.slot_at u c j = Some s -> slot_in g u s.
  Definition shape (u : upper) : Prop := ntrees u = ntab g (frames (low u)) /\ slots_in u.

  Lemma slot_in_static u u' s : static_eq u u' -> slot_in g u s -> slot_in g u' s.
  Proof. intros (A & _ & B & _) H P. unfold slot_in in *. rewrite A, B. exact (H P). Qed.

  Lemma slots_in_set_slot u cl idx new : slots_in u -> slot_in g u new -> slots_in (set_slot u cl idx new).
  Proof.
    intros S N c j s Hs. apply (slot_in_static u); [apply static_set_slot|].
    unfold UpperPrims.slot_at in Hs. destruct (N.eq_dec c cl) as [->|Ne].
    - destruct (class_slots u cl) as [l|] eqn:E.
      + rewrite (class_slots_set_slot_same u cl idx new l E) in Hs.
        destruct (nth_error_upd_cases _ _ _ _ _ Hs) as [->|Q]; [exact N|].
        apply (S cl j). unfold UpperPrims.slot_at. rewrite E. exact Q.
      + unfold set_slot in Hs. rewrite E, E in Hs. discriminate.
    - rewrite class_slots_set_slot_other in Hs by exact Ne. apply (S c j). exact Hs.
  Qed.
  Lemma shape_set_slot u cl idx new : shape u -> slot_in g u new -> shape (set_slot u cl idx new).
  Proof.
    intros [A B] N. split; [|apply slots_in_set_slot; assumption].
    destruct (static_set_slot u cl idx new) as (E1 & _ & E2 & _). rewrite E1, E2. exact A.
  Qed.
  Lemma shape_set_tree u i t : shape u -> shape (set_tree u i t).
  Proof.
    intros [A B]. destruct (static_set_tree u i t) as (E1 & _ & E2 & _). split; [rewrite E1, E2; exact A|].
    intros c j s Hs. apply (slot_in_static u); [apply static_set_tree|]. apply (B c j). exact Hs.
  Qed.
  Lemma shape_with_low u l : shape u -> frames l = frames (low u) -> shape (with_low u l).
  Proof.
    intros [A B] E. split; [cbn; rewrite E; exact A|].
    intros c j s Hs P. destruct (B c j s Hs P) as [Q1 Q2]. split; [exact Q1|cbn; rewrite E; exact Q2].
  Qed.
  Lemma row_in u row : shape u -> row * 64 < frames (low u) -> row_tree g row < ntrees u.
  Proof. intros [A _] H. rewrite A. unfold row_tree. apply (div_lt_ntab g). exact H. Qed.

  (* what the top frame says about the primitive (no accounting, no restriction on change_tree) *)
  Definition prim_okw (u : upper) (p : prim) : Prop :=
    match p with
    | PTC i f0 cur new => tf_apply g policy (dflt u) f0 cur 0 = Some (Ok new)
    | PSC cl idx f0 cur new => sf_apply g f0 cur = Some (Ok new) /\ (forall row, f0 = SSetStart row -> row * 64 < frames (low u))
    | PSW cl idx new => s_pres new = true -> s_row new * 64 < frames (low u)
    | _ => True
    end.
  Lemma top_wf_primw u c p f : top_wf g policy u c p f -> prim_okw u p.
  Proof.
    intros T. destruct f; cbn [top_wf] in T; try (destruct T; fail); unfold ros_ok, row_ok in *; flat; subst; prims;
      cbn [prim_okw]; try exact I; try assumption;
      try (split; [assumption|intros ? E0; first [discriminate E0|inversion E0; subst; assumption]]);
      try (intros _; assumption); try (intros Q; discriminate Q).
  Qed.

  (* normal form of a primitive: `fetch_free` in progress / a change_at compare-exchange = the closure as entered.
     Needed because `tprim` (UpperConcWf.v) knows neither `PTF` nor a compare-exchange whose new value was computed
     with a non-zero fetch: the accounting invariant never meets them (no Online), here `twf` is kept for `pnorm p`. *)
  Definition pnorm (p : prim) : prim :=
    match p with
    | PTF i f _ _ _ => PTL i f
    | PTC i (FChange a b ch) _ _ => PTL i (FChange a b ch)
    | _ => p
    end.
  Lemma pnorm_low p : (forall th, p <> PLow th) -> forall th, pnorm p <> PLow th.
  Proof. intros N th. destruct p as [| | | i f0 ? ?| | | |]; cbn [pnorm]; try discriminate; [destruct f0; discriminate|apply N]. Qed.

  Lemma twf_pnorm u c p k : twf g policy u c p k -> twf g policy u c (pnorm p) k.
  Proof.
    destruct k as [|f k]; [intros []|]. destruct p as [| | i f0 cur j a | i f0 cur new | | | |]; cbn [pnorm]; try (intros H; exact H).
    - apply (twf_mono g policy).
      + intros ? ? [H|(? & ? & H & _)]; discriminate H.
      + intros ? ? ? [H|(? & ? & H & _)]; discriminate H.
      + intros ? (? & H). discriminate H.
      + intros ? ? ? H. discriminate H.
      + intros ? H. discriminate H.
    - destruct f0; try (intros H; exact H). apply twf_PTC_PTL.
  Qed.

  Lemma tf_apply_fetch d f0 t x : (forall a b ch, f0 <> FChange a b ch) -> tf_apply g policy d f0 t x = tf_apply g policy d f0 t 0.
  Proof. intros N. destruct f0; try reflexivity. destruct (N _ _ _ eq_refl). Qed.

  Lemma fchange_dec f0 : (exists a b ch, f0 = FChange a b ch) \/ (forall a b ch, f0 <> FChange a b ch).
  Proof. destruct f0; try (right; discriminate). left. eexists _, _, _. reflexivity. Qed.

  Lemma PTL_to_pnorm_PTC u c i f0 t new f k x :
    tf_apply g policy (dflt u) f0 t x = Some (Ok new) ->
    twf g policy u c (PTL i f0) (f :: k) -> twf g policy u c (pnorm (PTC i f0 t new)) (f :: k).
  Proof.
    intros Ea T. destruct (fchange_dec f0) as [(a & b & ch & ->)|NC]; [exact T|].
    rewrite (tf_apply_fetch _ _ _ _ NC) in Ea.
    replace (pnorm (PTC i f0 t new)) with (PTC i f0 t new) by (destruct f0; try reflexivity; destruct (NC _ _ _ eq_refl)).
    apply twf_PTL_PTC; assumption.
  Qed.

  Lemma tu_eval_w u c i f0 t f k :
    twf g policy u c (PTL i f0) (f :: k) ->
    match tu_eval g policy u i f0 t with
    | OStay p' => twf g policy u c (pnorm p') (f :: k) /\ (forall th, p' <> PLow th)
    | OVal v => vfacts g policy u (PTL i f0) v
    | OCrash _ => True
    end.
  Proof.
    intros T. unfold tu_eval. destruct (needs_fetch f0 t); [split; [exact T|discriminate]|].
    destruct (tf_apply g policy (dflt u) f0 t 0) as [[new|e|z]|] eqn:Ea; try exact I.
    - split; [eapply PTL_to_pnorm_PTC; eassumption|discriminate].
    - cbn [vfacts]. exists false, t, t. split; [reflexivity|]. intros _. exact Ea.
  Qed.
  Lemma tu_eval_fetched_w u c i f0 t x f k :
    twf g policy u c (PTL i f0) (f :: k) ->
    match tu_eval_fetched g policy u i f0 t x with
    | OStay p' => twf g policy u c (pnorm p') (f :: k) /\ (forall th, p' <> PLow th)
    | OVal v => vfacts g policy u (PTL i f0) v
    | OCrash _ => True
    end.
  Proof.
    intros T. unfold tu_eval_fetched.
    destruct (tf_apply g policy (dflt u) f0 t x) as [[new|e|z]|] eqn:Ea; try exact I.
    - split; [eapply PTL_to_pnorm_PTC; eassumption|discriminate].
    - cbn [vfacts]. exists false, t, t. split; [reflexivity|]. intros NC. rewrite <- (tf_apply_fetch _ _ _ x NC). exact Ea.
  Qed.
  Lemma su_eval_w u c cl idx f0 s f k :
    slot_in g u s -> twf g policy u c (PSL cl idx f0) (f :: k) ->
    match su_eval g cl idx f0 s with
    | OStay p' => twf g policy u c (pnorm p') (f :: k) /\ (forall th, p' <> PLow th)
    | OVal v => vfacts g policy u (PSL cl idx f0) v
    | OCrash _ => True
    end.
  Proof.
    intros Si T. unfold su_eval. destruct (sf_apply g f0 s) as [[new|e|z]|] eqn:Ea; try exact I.
    - split; [cbn [pnorm]; apply twf_PSL_PSC; assumption|discriminate].
    - cbn [vfacts]. exists false, s, s. split; [reflexivity|]. split; [exact Si|exact Ea].
  Qed.

  (* one access of a tree / slot primitive *)
  Lemma P_access_w u c p f k :
    shape u -> twf g policy u c (pnorm p) (f :: k) -> (forall th, p <> PLow th) ->
    static_eq u (fst (fst (prim_step g policy u p))) /\ low (fst (fst (prim_step g policy u p))) = low u /\
    shape (fst (fst (prim_step g policy u p))) /\
    match snd (prim_step g policy u p) with
    | OStay p' => fst (fst (prim_step g policy u p)) = u /\ twf g policy u c (pnorm p') (f :: k) /\ (forall th, p' <> PLow th)
    | OVal v => vfacts g policy u (pnorm p) v
    | OCrash _ => True
    end.
  Proof.
    intros SHP T NL.
    assert (Stay : forall o, match o with
                             | OStay p' => twf g policy u c (pnorm p') (f :: k) /\ (forall th, p' <> PLow th)
                             | OVal v => vfacts g policy u (pnorm p) v
                             | OCrash _ => True
                             end ->
              static_eq u u /\ low u = low u /\ shape u /\
              match o with
              | OStay p' => u = u /\ twf g policy u c (pnorm p') (f :: k) /\ (forall th, p' <> PLow th)
              | OVal v => vfacts g policy u (pnorm p) v
              | OCrash _ => True
              end).
    { intros o H. split; [apply static_refl|]. split; [reflexivity|]. split; [exact SHP|].
      destruct o; [split; [reflexivity|exact H]|exact H|exact I]. }
    destruct p as [i|i f0|i f0 cur j a|i f0 cur new|cl idx f0|cl idx f0 cur new|cl idx new|th]; [| | | | | | |destruct (NL th eq_refl)].
    - (* PLd *)
      cbn [prim_step]. destruct (tree_at u i) as [t|]; cbn [fst snd]; [|apply (Stay (OCrash SRowOrder)); exact I].
      apply (Stay (OVal _)). cbn [pnorm vfacts]. exists t. reflexivity.
    - (* PTL *)
      cbn [prim_step]. destruct (tree_at u i) as [t|]; cbn [fst snd]; [|apply (Stay (OCrash SRowOrder)); exact I].
      apply Stay. apply tu_eval_w. exact T.
    - (* PTF *)
      cbn [prim_step]. cbn [pnorm] in T.
      destruct (nth_error (ents (low u)) (nn (i * THUGE g + j))) as [e|]; cbn [fst snd]; [|apply (Stay (OCrash SRowOrder)); exact I].
      apply Stay. destruct (j + 1 <? THUGE g); [split; [exact T|discriminate]|]. apply tu_eval_fetched_w. exact T.
    - (* PTC *)
      assert (TL : twf g policy u c (PTL i f0) (f :: k)).
      { destruct (fchange_dec f0) as [(a & b & ch & ->)|NC]; [exact T|]. apply (twf_PTC_PTL g policy _ _ _ _ cur new).
        replace (PTC i f0 cur new) with (pnorm (PTC i f0 cur new)) by (destruct f0; try reflexivity; destruct (NC _ _ _ eq_refl)).
        exact T. }
      cbn [prim_step]. destruct (tree_at u i) as [t|]; cbn [fst snd]; [|apply (Stay (OCrash SRowOrder)); exact I].
      destruct (tree_eqb t cur) eqn:Eq; cbn [fst snd].
      + split; [apply static_set_tree|]. split; [reflexivity|]. split; [apply shape_set_tree; exact SHP|].
        destruct (fchange_dec f0) as [(a & b & ch & ->)|NC].
        * cbn [pnorm vfacts]. exists true, cur, new. split; [reflexivity|]. intros NC. destruct (NC _ _ _ eq_refl).
        * replace (pnorm (PTC i f0 cur new)) with (PTC i f0 cur new) in * by (destruct f0; try reflexivity; destruct (NC _ _ _ eq_refl)).
          destruct T as (T & _). apply top_wf_primw in T. cbn [prim_okw] in T.
          cbn [vfacts]. exists true, cur, new. split; [reflexivity|]. intros _. exact T.
      + apply Stay. pose proof (tu_eval_w u c i f0 t f k TL) as Q.
        destruct (tu_eval g policy u i f0 t) as [p'|v|z]; [exact Q| |exact I].
        destruct (fchange_dec f0) as [(a & b & ch & ->)|NC]; [exact Q|].
        replace (pnorm (PTC i f0 cur new)) with (PTC i f0 cur new) by (destruct f0; try reflexivity; destruct (NC _ _ _ eq_refl)).
        exact Q.
    - (* PSL *)
      cbn [prim_step pnorm] in *. rewrite UpperConcInv.slot_at_eq. destruct (UpperPrims.slot_at u cl idx) as [s|] eqn:Hs; cbn [fst snd]; [|apply (Stay (OCrash SRowOrder)); exact I].
      apply Stay. apply su_eval_w; [exact (proj2 SHP _ _ _ Hs)|exact T].
    - (* PSC *)
      cbn [pnorm] in T. pose proof (twf_PSC_PSL g policy _ _ _ _ _ _ _ _ _ T) as TL.
      destruct T as (T & _). apply top_wf_primw in T. cbn [prim_okw] in T. destruct T as [Ea Hrow].
      cbn [prim_step]. rewrite UpperConcInv.slot_at_eq. destruct (UpperPrims.slot_at u cl idx) as [s|] eqn:Hs; cbn [fst snd]; [|apply (Stay (OCrash SRowOrder)); exact I].
      pose proof (proj2 SHP _ _ _ Hs) as Si.
      destruct (slot_eqb s cur) eqn:Eq; cbn [fst snd].
      + apply slot_eqb_true in Eq. subst s.
        assert (Sn : slot_in g u new).
        { intros Pn. destruct f0 as [tree n|tree n|t n|row]; cbn [sf_apply] in Ea.
          - destruct (slot_get g cur tree n) as [x|] eqn:Es; cbn [option_map] in Ea; inversion Ea; subst x.
            destruct (slot_get_facts g _ _ _ _ Es) as (Pr & _ & _ & ->). exact (Si Pr).
          - destruct (slot_get g cur tree n) as [x|] eqn:Es; cbn [option_map] in Ea; inversion Ea; subst new. discriminate Pn.
          - unfold slot_put in Ea. destruct (s_pres cur && (row_tree g (s_row cur) =? t)) eqn:Ec; [|discriminate].
            apply andb_true_iff in Ec. destruct Ec as [Pr _].
            destruct (s_free cur + n <=? TF); inversion Ea; subst new. exact (Si Pr).
          - specialize (Hrow row eq_refl).
            unfold slot_set_start in Ea. destruct (s_pres cur && (row_tree g (s_row cur) =? row_tree g row) && negb (s_row cur =? row)); cbn [option_map] in Ea; inversion Ea; subst new.
            unfold rt. cbn [s_row]. split; [apply row_in; assumption|exact Hrow]. }
        split; [apply static_set_slot|]. split; [apply set_slot_low|]. split; [apply shape_set_slot; assumption|].
        cbn [pnorm vfacts]. exists true, cur, new. split; [reflexivity|]. split; [exact Si|exact Ea].
      + apply Stay. apply su_eval_w; assumption.
    - (* PSW *)
      cbn [pnorm] in T. destruct T as (T & _). apply top_wf_primw in T. cbn [prim_okw] in T.
      cbn [prim_step]. rewrite UpperConcInv.slot_at_eq. destruct (UpperPrims.slot_at u cl idx) as [s|] eqn:Hs; cbn [fst snd]; [|apply (Stay (OCrash SRowOrder)); exact I].
      pose proof (proj2 SHP _ _ _ Hs) as Si.
      split; [apply static_set_slot|]. split; [apply set_slot_low|]. split.
      + apply shape_set_slot; [exact SHP|]. intros Pn. unfold rt. split; [apply row_in; [exact SHP|exact (T Pn)]|exact (T Pn)].
      + cbn [pnorm vfacts]. exists s. split; [reflexivity|exact Si].
  Qed.

  (* the weak invariant *)
  (* the M1 view with the ghost list L of leaked blocks (a get that panicked in upper code while it had a frame in hand).
     It is `UpperConcInv.m1_plus g s L` written out (`m1w_plus`): the M1 lemmas of UpperConcInv.v apply to it by conversion. *)
  Definition m1w (s : m2state) (L : list (N * nat)) : mstate :=
    {| ms_frames := frames (low (m2_up s)); ms_ents := ents (low (m2_up s)); ms_bfs := bfs (low (m2_up s));
       ms_pool := map low_thr (m2_pool s);
       ms_held := (m2_held s ++ flat_map (inflight g) (m2_pool s)) ++ L |}.
  Lemma m1w_nil s : m1w s [] = m1_of g s.
  Proof. unfold m1w, m1_of. rewrite app_nil_r. reflexivity. Qed.
  Lemma m1w_plus s L : m1w s L = UpperConcInv.m1_plus g s L.
  Proof. reflexivity. Qed.

  Definition thr_wf_w (u : upper) (x : uthr) : Prop :=
    match x with
    | URun c p k => call_wf_w g u c /\ twf g policy u c (pnorm p) k
    | _ => True
    end.
  Definition WI (L : list (N * nat)) (s : m2state) : Prop :=
    Inv g (m1w s L) /\ shape (m2_up s) /\ Forall (thr_wf_w (m2_up s)) (m2_pool s).

  Lemma call_wf_w_static u u' c : static_eq u u' -> call_wf_w g u c -> call_wf_w g u' c.
  Proof. intros SE. destruct c; cbn [call_wf_w]; try tauto; apply call_wf_static; exact SE. Qed.
  Lemma thr_wf_w_static u u' x : static_eq u u' -> thr_wf_w u x -> thr_wf_w u' x.
  Proof.
    intros SE. destruct x as [l|c p k|z c]; cbn [thr_wf_w]; [tauto| |tauto].
    intros [A B]. split; [eapply call_wf_w_static; eassumption|eapply twf_static; eassumption].
  Qed.

  Notation mkst := UpperConcInv.mkst.

  Lemma WI_upd L L' s t x0 u' x' H' :
    WI L s -> nth_error (m2_pool s) t = Some x0 -> static_eq (m2_up s) u' -> shape u' ->
    Inv g (m1w (mkst u' (upd (m2_pool s) t x') H') L') -> thr_wf_w u' x' ->
    WI L' (mkst u' (upd (m2_pool s) t x') H').
  Proof.
    intros (I & S & F) Ht SE S' I' W'. split; [exact I'|]. split; [exact S'|].
    cbn [UpperConcInv.mkst m2_up m2_pool]. apply Forall_upd; [|exact W'].
    eapply Forall_impl; [|exact F]. intros x. apply thr_wf_w_static. exact SE.
  Qed.

  Notation inflB := (UpperConcInv.inflB g).
  Notation inflA := (UpperConcInv.inflA g).

  (* the blocks in flight of a thread: only the frames of its stack (and the lower call it is in) matter *)
  Lemma pk_gh_bl p k : (forall th, p <> PLow th) -> g_bl (pk_gh g p k) = g_bl (frames_gh g k).
  Proof. intros N. unfold pk_gh. cbn [gh_add g_bl]. rewrite (prim_gh_bl g _ _ N). reflexivity. Qed.

  (* the state right after the access of thread t: memory u', the blocks of G in the hand of the thread, thread t idle in M1 *)
  Definition midw (L : list (N * nat)) (st : m2state) (t : nat) (c : ucall) (u' : upper) (G : ugh) : Prop :=
    static_eq (m2_up st) u' /\ shape u' /\ UpperConcInv.midM g L st t c u' G.

  Lemma finish_step_w L st t x0 c u' G p v x :
    WI L st -> nth_error (m2_pool st) t = Some x0 -> midw L st t c u' G -> call_wf_w g u' c ->
    good_or_unres g policy u' c G p v x -> (forall z, x = SCrash z -> z <> SExceedingRetries) ->
    exists L', WI L' (apply_settled (with_up st u') t c x).
  Proof.
    intros WIs Ht (SE & SHP & MM) CW Gd Site.
    assert (E : exists x' H', apply_settled (with_up st u') t c x = mkst u' (upd (m2_pool st) t x') H' /\
                              thr_wf_w u' x' /\ UpperConcInv.settled_m1 g c u' G x).
    { destruct x as [p' k'|r|z]; cbn [good_or_unres good apply_settled] in *.
      - destruct Gd as (T & (_ & _ & Eb) & En). eexists _, _. split; [reflexivity|].
        split; [split; [exact CW|apply twf_pnorm; exact T]|split; assumption].
      - destruct Gd as (_ & _ & _ & Eb). unfold ufinish.
        destruct c as [fr rq| | |]; [destruct r as [[frm cl]|e|z]| | |]; eexists _, _; (split; [reflexivity|split; [exact I|exact Eb]]).
      - eexists _, _. split; [reflexivity|split; [exact I|exact (Site z eq_refl)]]. }
    destruct E as (x' & H' & E & W & Hx).
    pose proof (UpperConcInv.m1_finish g WF L st t x0 c u' G x Ht MM Hx) as I'. rewrite E in *.
    eexists. eapply WI_upd; [exact WIs|exact Ht|exact SE|exact SHP|exact I'|exact W].
  Qed.

  (* sites of upper-layer panics: never "Exceeding retries" (UpperProgress.v) *)
  Lemma prim_site u p : UpperProgress.prim_ok g p = true ->
    match snd (prim_step g policy u p) with
    | OStay _ => True
    | OVal v => UpperProgress.val_ok v = true
    | OCrash z => (forall th, p <> PLow th) -> z <> SExceedingRetries
    end.
  Proof.
    intros Hp. pose proof (UpperProgress.prim_step_dec g policy u p Hp) as D.
    destruct (prim_step g policy u p) as [[u' ev] o]. cbn [snd]. destruct D as (_ & _ & D).
    destruct o as [p'|v|z]; [exact I|exact D|]. intros NL ->. destruct (D eq_refl) as (c & i & ->). destruct (NL _ eq_refl).
  Qed.
  Lemma settle_site u v k z : UpperProgress.val_ok v = true -> UpperProgress.stk_ok g (ntrees u) k = true ->
    settle g policy SETTLE u (ARet v k) = SCrash z -> z <> SExceedingRetries.
  Proof.
    intros Hv Hk E.
    assert (Lq : UpperProgress.leq g u (ARet v k) (UpperProgress.mact g u (ARet v k))).
    { split; [cbn [UpperProgress.act_ok]; rewrite Hv, Hk; reflexivity|apply N.le_refl]. }
    pose proof (UpperProgress.settle_le g policy WF SETTLE u _ _ Lq) as S. rewrite E in S. exact S.
  Qed.

  Lemma WI_thread L st t c p k :
    WI L st -> nth_error (m2_pool st) t = Some (URun c p k) ->
    call_wf_w g (m2_up st) c /\ twf g policy (m2_up st) c (pnorm p) k.
  Proof. intros (_ & _ & F) Ht. exact (Forall_nth_error _ _ _ _ F Ht). Qed.

  Lemma step_access_w L st t c p k c0 :
    WI L st -> UpperProgress.uthread_ok g st t -> nth_error (m2_pool st) t = Some (URun c p k) -> (forall th, p <> PLow th) ->
    exists L', WI L' (fst (ustep g policy st t c0)).
  Proof.
    intros WIs UO Ht NL. destruct (WI_thread _ _ _ _ _ _ WIs Ht) as (CW & T).
    unfold UpperProgress.uthread_ok in UO. rewrite Ht in UO. destruct UO as [Hp Hk].
    destruct k as [|f k]; [destruct T|].
    pose proof WIs as (I & SHP & F).
    pose proof (P_access_w _ _ _ _ _ SHP T NL) as PA. pose proof (prim_site (m2_up st) p Hp) as PSi.
    unfold ustep. rewrite Ht. destruct (prim_step g policy (m2_up st) p) as [[u' ev] oc]. cbn [fst snd] in *.
    destruct PA as (SE & El & SHP' & PA).
    assert (MM : forall G, g_bl G = g_bl (pk_gh g p (f :: k)) -> UpperConcInv.midM g L st t c u' G).
    { intros G EG. exact (UpperConcInv.m1_access g L st t c p (f :: k) u' G I Ht NL El EG). }
    assert (CW' : call_wf_w g u' c) by (eapply call_wf_w_static; eassumption).
    destruct oc as [p'|v|z].
    - (* the primitive continues *)
      destruct PA as (-> & T' & NL').
      pose proof (UpperConcInv.m1_finish g WF L st t _ c _ _ (SRun p' (f :: k)) Ht (MM _ eq_refl)) as I'. exists L.
      eapply (WI_upd L L st t _ (m2_up st) (URun c p' (f :: k)) (m2_held st)); [exact WIs|exact Ht|exact SE|exact SHP| |split; assumption].
      apply I'. split; [rewrite !pk_gh_bl by assumption; reflexivity|]. intros th E. destruct (NL' th E).
    - (* the primitive completes *)
      eapply (finish_step_w L st t _ c u' (gh_add (post_gh g (pnorm p) v f) (frame_gh g f))); [exact WIs|exact Ht| |exact CW'| |].
      + split; [exact SE|]. split; [exact SHP'|]. apply MM.
        assert (PS : pas_stack (m2_up st) c (lvl f) k) by (destruct T as (_ & PS & _); exact PS).
        rewrite (pk_gh_top g policy _ _ p f k _ PS). cbn [gh_add g_bl].
        rewrite (post_gh_bl g _ _ _ (pnorm_low _ NL)), (prim_gh_bl g _ _ NL). reflexivity.
      + apply (K_settle g policy WF u' c (proj1 SHP') CW'); [eapply twf_static; eassumption|eapply vfacts_static; eassumption].
      + intros z E. apply (settle_site u' v (f :: k) z); [exact PSi| |exact E]. rewrite (proj1 SE). exact Hk.
    - (* the access panics (slice index, a failed assert of a closure): nothing is written *)
      pose proof (UpperConcInv.m1_finish g WF L st t _ c _ _ (SCrash z) Ht (MM _ eq_refl) (PSi NL)) as I'. eexists.
      eapply (WI_upd L _ st t _ u' (UPanic z c) (m2_held st)); [exact WIs|exact Ht|exact SE|exact SHP'|exact I'|exact Logic.I].
  Qed.

  (* a step inside the lower allocator *)
  Lemma step_low_w L st t c th k c0 :
    WI L st -> UpperProgress.uthread_ok g st t -> nth_error (m2_pool st) t = Some (URun c (PLow th) k) ->
    exists L', WI L' (fst (ustep g policy st t c0)).
  Proof.
    intros WIs UO Ht. destruct (WI_thread _ _ _ _ _ _ WIs Ht) as (CW & T). cbn [pnorm] in T.
    unfold UpperProgress.uthread_ok in UO. rewrite Ht in UO. destruct UO as [Hp Hk].
    destruct k as [|f k]; [destruct T|].
    destruct (UpperConcInv.twf_low g policy WF _ _ _ _ _ T) as (cl & pc & -> & _ & _ & _ & Tpc & _).
    pose proof WIs as (I & SHP & F).
    destruct (UpperConcInv.m1_low_step g policy WF L st t c cl pc f k I Ht T) as (Efr & _ & x' & Hx & _ & Out).
    pose proof (prim_site (m2_up st) (PLow (TRun cl pc)) Hp) as PSi.
    unfold ustep. rewrite Ht. cbn [prim_step] in *.
    destruct (mstep g (m1_view (m2_up st) (TRun cl pc)) 0 cl) as [ms' ev]. cbn [fst snd] in *.
    set (u' := with_low (m2_up st) {| frames := ms_frames ms'; bfs := ms_bfs ms'; ents := ms_ents ms' |}) in *.
    assert (SE : static_eq (m2_up st) u').
    { unfold u', static_eq. cbn. repeat split. exact Efr. }
    assert (SHP' : shape u') by (apply shape_with_low; [exact SHP|exact Efr]).
    assert (CW' : call_wf_w g u' c) by (eapply call_wf_w_static; eassumption).
    assert (Fin : forall v, vfacts g policy u' (PLow (TRun cl pc)) v -> UpperProgress.val_ok v = true ->
              UpperConcInv.midM g L st t c u' (gh_add (post_gh g (PLow (TRun cl pc)) v f) (frame_gh g f)) ->
              exists L', WI L' (apply_settled (with_up st u') t c (settle g policy SETTLE u' (ARet v (f :: k))))).
    { intros v V Vo MM.
      eapply (finish_step_w L st t _ c u' _ _ v); [exact WIs|exact Ht|split; [exact SE|split; [exact SHP'|exact MM]]|exact CW'| |].
      - apply (K_settle g policy WF u' c (proj1 SHP') CW'); [eapply twf_static; eassumption|exact V].
      - intros z E. apply (settle_site u' v (f :: k) z); [exact Vo|rewrite (proj1 SE); exact Hk|exact E]. }
    rewrite Hx in *.
    destruct x' as [[[frm|e|z]|]|cl' pc'|z cl']; cbn [fst snd] in *; try (destruct Out; fail).
    - (* the lower call returns a frame / Ok *)
      destruct Out as (Vf & MM). apply (Fin (VL (Ok frm))); [exists cl, pc; split; [reflexivity|exact Vf]|exact PSi|exact MM].
    - (* out of memory *)
      destruct Out as (-> & MM). apply (Fin (VL (Err EMemory))); [exists cl, pc; split; reflexivity|exact PSi|exact MM].
    - (* the lower call continues *)
      destruct Out as (-> & I'). exists L.
      eapply (WI_upd L L st t _ u' (URun c (PLow (TRun cl pc')) (f :: k)) (m2_held st)); [exact WIs|exact Ht|exact SE|exact SHP'|exact I'|].
      cbn [thr_wf_w pnorm]. split; [exact CW'|eapply twf_static; [exact SE|apply Tpc]].
    - (* "Exceeding retries" *)
      destruct Out as (-> & _ & I'). exists L.
      eapply (WI_upd L L st t _ u' (UPanic SExceedingRetries c) (m2_held st)); [exact WIs|exact Ht|exact SE|exact SHP'|exact I'|exact Logic.I].
  Qed.

  (* the start of a call *)
  (* scope: a slot index is below the slot count of its class (or none); a put passes `check` (its block was taken out
     of the ghost `held` before the check).  change_tree: ANY matcher and ANY change, Online included. *)
  Definition call_valid2_w (u : upper) (c : ucall) : Prop :=
    call_valid_w u c /\ match c with UPut f r => check g u f r = Ok tt | _ => True end.

  Lemma start_fin_w L st t l c0 x :
    WI L st -> nth_error (m2_pool st) t = Some (UIdle l) -> (forall f r, c0 <> UPut f r) ->
    start_good g policy (m2_up st) c0 x -> WI L (apply_settled st t c0 x).
  Proof.
    intros WIs Ht NP SG. pose proof WIs as (I & SHP & F).
    pose proof (UpperConcInv.m1_start g policy WF L st t l c0 x I Ht NP SG) as I'.
    destruct x as [p k|r|z]; cbn [start_good apply_settled] in *; [| |destruct SG].
    - destruct SG as (CW & T & _).
      eapply (WI_upd L L st t _ (m2_up st) (URun c0 p k) (m2_held st));
        [exact WIs|exact Ht|apply static_refl|exact SHP|exact I'|split; [exact CW|apply twf_pnorm; exact T]].
    - rewrite (UpperConcInv.ufinish_start st t c0 r (proj2 SG)) in *.
      eapply (WI_upd L L st t _ (m2_up st) (UIdle (Some r)) (m2_held st));
        [exact WIs|exact Ht|apply static_refl|exact SHP|exact I'|exact Logic.I].
  Qed.

  Lemma step_start_w L st t l c0 :
    WI L st -> nth_error (m2_pool st) t = Some (UIdle l) -> call_valid2_w (m2_up st) c0 ->
    WI L (fst (ustep g policy st t c0)).
  Proof.
    intros WIs Ht (V & Vp). pose proof WIs as (I & SHP & F). pose proof (proj1 SHP) as SH.
    assert (Lt : (t < length (m2_pool st))%nat) by (apply nth_error_Some; congruence).
    pose proof (start_ok g policy (m2_up st) SH c0 V) as SG.
    unfold ustep. rewrite Ht.
    destruct c0 as [fr r|f r| |m ch].
    - cbn [fst]. eapply start_fin_w; [exact WIs|exact Ht|discriminate|exact SG].
    - (* put *)
      destruct (client_take (m2_held st) f (r_order r)) as [h'|] eqn:Ct; cbn [fst]; [|exact WIs].
      cbn [with_held m2_up]. cbn [enter_call] in *. unfold enter_put in *. rewrite Vp in *. unfold enter_low, SETTLE in *.
      cbn [settle start_good apply_settled] in *.
      destruct SG as (CW & T & Ge & [En|(f0 & r0 & E0 & _ & Cw)]).
      { destruct (En _ eq_refl) as (cl & E1 & _ & Np). inversion E1; subst cl. discriminate Np. }
      inversion E0; subst f0 r0.
      assert (Hm : nth_error (ms_pool (m1w st L)) t = Some (TIdle None)).
      { unfold m1w. cbn. rewrite nth_error_map, Ht. reflexivity. }
      assert (Hfl : flat_map (inflight g) (m2_pool st) = inflB (m2_pool st) t ++ inflA (m2_pool st) t).
      { rewrite (UpperConcInv.infl_at g _ _ _ Ht). reflexivity. }
      change (set_uthr (with_held st h') t (URun (UPut f r) (PLow (TRun (CPut f (r_order r)) (entry_pc g (CPut f (r_order r))))) [KPut1 f r]))
        with (mkst (m2_up st) (upd (m2_pool st) t (URun (UPut f r) (PLow (TRun (CPut f (r_order r)) (entry_pc g (CPut f (r_order r))))) [KPut1 f r])) h').
      eapply WI_upd; [exact WIs|exact Ht|apply static_refl|exact SHP| |split; [exact CW|exact T]].
      eapply (UpperConcInv.m1_of_upd g WF (goto (set_held (m1w st L) ((h' ++ flat_map (inflight g) (m2_pool st)) ++ L)) t (CPut f (r_order r)) (entry_pc g (CPut f (r_order r)))));
        [|reflexivity|reflexivity|reflexivity|exact Lt| |].
      + eapply (UpperConcInv.m1_enter_put g WF); [exact I|exact Hm|exact Cw|]. cbn.
        apply UpperConcInv.client_take_app. apply UpperConcInv.client_take_app. exact Ct.
      + eexists. split; [reflexivity|left; reflexivity].
      + cbn. rewrite (UpperConcInv.infl_upd g _ _ _ Lt), Hfl. cbn [inflight app]. apply Permutation_refl.
    - cbn [fst]. eapply start_fin_w; [exact WIs|exact Ht|discriminate|exact SG].
    - cbn [fst]. eapply start_fin_w; [exact WIs|exact Ht|discriminate|exact SG].
  Qed.

  (* every step *)
  Theorem ustep_winv L st t c0 :
    WI L st -> UpperProgress.uall_ok g st -> call_valid2_w (m2_up st) c0 ->
    exists L', WI L' (fst (ustep g policy st t c0)).
  Proof.
    intros WIs UO V. destruct (nth_error (m2_pool st) t) as [[l|c p k|z c]|] eqn:Ht.
    - exists L. eapply step_start_w; eassumption.
    - destruct p; try (eapply step_access_w; [exact WIs|apply UO|exact Ht|discriminate]). eapply step_low_w; [exact WIs|apply UO|exact Ht].
    - exists L. unfold ustep. rewrite Ht. exact WIs.
    - exists L. unfold ustep. rewrite Ht. exact WIs.
  Qed.

  Lemma call_valid2_w_static u u' c : static_eq u u' -> call_valid2_w u c -> call_valid2_w u' c.
  Proof.
    intros SE (V & P). split; [exact (call_idx_ok_static u u' SE c V)|].
    destruct c; try exact P. rewrite (UpperConcInv.check_static g _ _ _ _ SE). exact P.
  Qed.

  (* schedules: every call that may be started has valid parameters with respect to the static configuration *)
  Definition sched_valid_w (u : upper) (sch : list (nat * ucall)) : Prop :=
    Forall (fun tc => call_valid2_w u (snd tc)) sch.

  Theorem urun_winv sch : forall st L, WI L st -> UpperProgress.uall_ok g st -> sched_valid_w (m2_up st) sch ->
    exists L', WI L' (urun g policy sch st).
  Proof.
    induction sch as [|[t c] sch IH]; intros st L WIs UO SV; [exists L; exact WIs|]. inversion SV as [|? ? V1 V2]; subst. cbn [snd] in V1.
    destruct (ustep_winv L st t c WIs UO V1) as (L1 & W1).
    change (urun g policy ((t, c) :: sch) st) with (urun g policy sch (fst (ustep g policy st t c))). apply (IH _ L1 W1).
    - apply (UpperProgress.uall_ok_step g policy WF). exact UO.
    - eapply Forall_impl; [|exact V2]. intros tc. apply call_valid2_w_static. apply (UpperConcInv.ustep_static g policy WF).
  Qed.

  (* the initial state *)
  Lemma uboot_winv u held0 n : LowerInv g (low u) -> shape u -> HeldInit g (low u) held0 -> WI [] (uboot u held0 n).
  Proof.
    intros LI SHP HH. split; [|split; [exact SHP|]].
    - replace (m1w (uboot u held0 n) []) with (boot (low u) held0 n).
      + apply (boot_inv g WF); assumption.
      + destruct (UpperConcInv.idle_pool g (repeat (UIdle None) n)) as (E1 & E2 & _); [intros x Hx; eexists; exact (repeat_spec _ _ _ Hx)|].
        unfold m1w, boot, uboot. cbn [m2_up m2_pool m2_held]. rewrite E1, E2, !app_nil_r, repeat_length. reflexivity.
    - cbn [uboot m2_up m2_pool]. apply Forall_forall. intros x Hx. apply repeat_spec in Hx. subst x. exact I.
  Qed.

  (* C01 from the weak invariant *)
  Lemma winv_held L s : WI L s -> uheld_ok s = true.
  Proof. intros (I & _ & _). exact (inv_uheld_ok g WF _ s _ I eq_refl (eq_sym (app_assoc _ _ _))). Qed.

  Lemma shape_of_UpperInv u : UpperInv g policy (ustate_new u) -> shape u.
  Proof.
    intros HU. apply (UIC_of_UpperInv g policy WF) in HU.
    split; [exact (UIL_ntrees g policy (tf_bound g) _ _ _ HU)|].
    intros c j s Hs P. destruct (UIL_slot g policy (tf_bound g) _ _ _ c j s HU Hs P) as (A & B & _). split; assumption.
  Qed.
End Weak.

From LLF Require RecoverProofs Crash UpperOnlineRace UpperPutProofs PolicyFacts ConcInvInit.
Import RecoverProofs Crash.

(* the theorems *)
(* general form: no hypothesis on the policy, no upper accounting at the start: only the lower allocator's invariant and
   the shape of the upper state (number of trees = ceil(frames / TREE_FRAMES); the rows of present slots are in range) *)
Theorem conc_upper_winv : forall g policy u held0 n sch,
  wf_geom g -> LowerInv g (low u) -> shape g u -> HeldInit g (low u) held0 -> sched_valid_w g u sch ->
  exists L, WI g policy L (urun g policy sch (uboot u held0 n)).
Proof.
  intros g policy u held0 n sch WF LI SHP HH SV.
  apply (urun_winv g policy WF sch (uboot u held0 n) []).
  - apply uboot_winv; assumption.
  - apply (UpperProgress.uall_ok_boot g).
  - exact SV.
Qed.

(* C01 through the upper API, in EVERY interleaving of get / get_at / put / drain / change_tree (Online included) *)
Theorem conc_upper_held_weak_shape : forall g policy u held0 n sch,
  wf_geom g -> LowerInv g (low u) -> shape g u -> HeldInit g (low u) held0 -> sched_valid_w g u sch ->
  uheld_ok (urun g policy sch (uboot u held0 n)) = true.
Proof.
  intros g policy u held0 n sch WF LI SHP HH SV.
  destruct (conc_upper_winv g policy u held0 n sch WF LI SHP HH SV) as (L & W). exact (winv_held g policy WF L _ W).
Qed.

Theorem conc_upper_held_weak : forall g policy u held0 n sch,
  wf_geom g ->
  UpperInv g policy (ustate_new u) ->
  HeldInit g (low u) held0 ->
  sched_valid_w g u sch ->
  uheld_ok (urun g policy sch (uboot u held0 n)) = true.
Proof.
  intros g policy u held0 n sch WF HU HH SV.
  apply conc_upper_held_weak_shape; [exact WF|exact (proj1 HU)|apply (shape_of_UpperInv g policy WF); exact HU|exact HH|exact SV].
Qed.
Print Assumptions conc_upper_held_weak.

(* M1's invariant holds for the M1 view of every reachable M2 state, with a ghost list L of LEAKED blocks appended to the
   held list: frames a get had obtained from the lower allocator when it panicked in upper code (a failed assert /
   "Unreserve failed" caused by broken accounting): they stay allocated for ever.  (m1w s [] = m1_of s.) *)
Theorem conc_upper_m1_inv_weak : forall g policy u held0 n sch,
  wf_geom g ->
  UpperInv g policy (ustate_new u) ->
  HeldInit g (low u) held0 ->
  sched_valid_w g u sch ->
  exists L, Inv g (m1w g (urun g policy sch (uboot u held0 n)) L).
Proof.
  intros g policy u held0 n sch WF HU HH SV.
  destruct (conc_upper_winv g policy u held0 n sch WF (proj1 HU) (shape_of_UpperInv g policy WF u HU) HH SV) as (L & W).
  exists L. exact (proj1 W).
Qed.
Print Assumptions conc_upper_m1_inv_weak.

(* ... hence every reachable M2 state is a crash point (Crash.crash_safe_inv), change_tree(Online) included *)
Lemma lower_of_m1w g s L : lower_of (m1w g s L) = low (m2_up s).
Proof. unfold lower_of, m1w. cbn. destruct (low (m2_up s)); reflexivity. Qed.

Theorem conc_upper_crash_safe_weak : forall g policy u held0 n sch,
  wf_geom g ->
  UpperInv g policy (ustate_new u) ->
  HeldInit g (low u) held0 ->
  sched_valid_w g u sch ->
  let s := urun g policy sch (uboot u held0 n) in
  let l := low (m2_up s) in
  let m := lower_recover g l in
  LowerPre g l /\ LowerInv g m /\ abs g m = abs g l /\
  (* completed allocations (and blocks in the hands of in-flight gets) are still allocated and can be freed *)
  (forall f k, In (f, k) (m2_held s ++ flat_map (inflight g) (m2_pool s)) -> spec_put_enabled g (abs g m) f k = true) /\
  (* every frame allocated after recovery is held, in hand, leaked by a panicked get, or touched by an in-flight lower call *)
  exists L, forall f, N.testbit (o_alloc (abs g m)) f = true -> covered_by_held (m1w g s L) f \/ touched g (m1w g s L) f.
Proof.
  intros g policy u held0 n sch WF HU HH SV s l m.
  destruct (conc_upper_m1_inv_weak g policy u held0 n sch WF HU HH SV) as (L & I). fold s in I.
  pose proof (crash_safe_inv g WF (m1w g s L) I) as C. cbv zeta in C.
  rewrite lower_of_m1w in C. fold l in C. fold m in C.
  destruct C as (A & B & C & D & F). repeat (split; [assumption|]). split.
  - intros f k Hin. apply D. cbn [m1w ms_held]. apply in_or_app. left. exact Hin.
  - exists L. exact F.
Qed.
Print Assumptions conc_upper_crash_safe_weak.

(* non-vacuity *)
(* the schedule of UpperOnlineRace.v: thread 0 frees frame 0, thread 1 brings tree 0 "online" between the lower free and
   the counter increment.  It satisfies all hypotheses; at its end the accounting is broken (counter 2, 1 frame free:
   UpperOnlineRace.conc_online_put_double_count) and the blocks handed out are still disjoint, aligned and in range. *)
Module WeakExample.
  Import UpperOnlineRace.
  Lemma wf7 : wf_geom g7. Proof. unfold wf_geom; cbn; lia. Qed.
  Lemma inv0 : UpperInv g7 simple7 (ustate_new u0).
  Proof. apply UpperPutProofs.upper_invb_sound; [apply PolicyFacts.pol_simple_facts|]. vm_compute. reflexivity. Qed.
  Lemma held0 : HeldInit g7 (low u0) (alloc_all_held g7 256).
  Proof.
    replace (low u0) with (reserve_all g7 256) by (vm_compute; reflexivity).
    apply ConcInvInit.held_init_reserve_all. exact wf7.
  Qed.
  Lemma valid_put : call_valid2_w g7 u0 put0.
  Proof. split; [|vm_compute; reflexivity]. cbn [call_valid_w put0]. intros l len E. discriminate E. Qed.
  Lemma valid_online : call_valid2_w g7 u0 online0.
  Proof. split; exact I. Qed.
  Lemma sched_ok : sched_valid_w g7 u0 race.
  Proof.
    unfold sched_valid_w, race. apply Forall_app. split; [|apply Forall_app; split];
      apply Forall_forall; intros x Hx; apply repeat_spec in Hx; subst x; cbn [snd]; first [exact valid_put|exact valid_online].
  Qed.
  (* the race really contains an Online concurrent with a put: after the first 10 steps thread 0 is inside the put
     (between the lower free and the counter increment) when thread 1 starts the Online *)
  Example race_is_concurrent :
    In (1%nat, online0) race /\
    match nth_error (m2_pool (urun g7 simple7 (repeat (0%nat, put0) 10) (uboot u0 (alloc_all_held g7 256) 2))) 0 with
    | Some (URun (UPut _ _) _ _) => True
    | _ => False
    end.
  Proof. split; [unfold race; apply in_or_app; right; apply in_or_app; left; left; reflexivity|vm_compute; exact I]. Qed.

  Local Strategy 1000 [urun].
  Example conc_weak_instance : uheld_ok s_end = true /\ exists L, Inv g7 (m1w g7 s_end L).
  Proof.
    split.
    - exact (conc_upper_held_weak g7 simple7 u0 (alloc_all_held g7 256) 2 race wf7 inv0 held0 sched_ok).
    - exact (conc_upper_m1_inv_weak g7 simple7 u0 (alloc_all_held g7 256) 2 race wf7 inv0 held0 sched_ok).
  Qed.
End WeakExample.
