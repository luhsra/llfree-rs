(* Facts about single steps of the lower machine M1 (LowerMachine.v) that the invariant proof of the upper
   machine M2 uses: the one-thread view of a step, the accounting of the entry writes against `lhold`
   (UpperConcInvDef.v), the shape of the results, the bound on the per-tree counter sum, the insensitivity
   of `Inv` to the results stored in idle threads and to the order of the held list, what a step does to the held
   list and to the rest of the state (`step_held`, `step_frame`), the counter sum together with what in-flight gets
   have taken (`inv_tree_free_taken`), and that a tree containing a held block is not entirely free
   (`inv_held_tree_free`). *)
From Coq Require Import PeanoNat Permutation.
From LLF Require Import Base BitLemmas Row RowProofs Bitfield Lower Spec LowerMachine LowerFacts
  ConcBase ConcInvDef ConcInvGeom ConcInvStep ConcInvTac ConcInvGet ConcInvAt ConcInvPut ConcInvHuge ConcInvIdle ConcInv ConcProps AbsLemmas UpperConcInvDef.

(* lists: a window of an updated list *)
Lemma skipn_upd {A} (l : list A) m k v :
  skipn m (upd l k v) = if (k <? m)%nat then skipn m l else upd (skipn m l) (k - m) v.
Proof.
  revert l k; induction m as [|m IH]; intros l k.
  - cbn [skipn]. rewrite Nat.sub_0_r. reflexivity.
  - destruct l as [|a r]; [cbn [upd skipn]; destruct (k <? S m)%nat; reflexivity|].
    destruct k as [|k]; [reflexivity|]. cbn [upd skipn]. rewrite IH. reflexivity.
Qed.
Lemma firstn_upd {A} (l : list A) n k v :
  firstn n (upd l k v) = if (k <? n)%nat then upd (firstn n l) k v else firstn n l.
Proof.
  revert l k; induction n as [|n IH]; intros l k.
  - reflexivity.
  - destruct l as [|a r]; [cbn [upd firstn]; destruct (k <? S n)%nat; reflexivity|].
    destruct k as [|k]; [reflexivity|]. cbn [upd firstn]. rewrite IH.
    change (S k <? S n)%nat with (k <? n)%nat. destruct (k <? n)%nat; reflexivity.
Qed.
Lemma nth_error_skipn' {A} (l : list A) m j : nth_error (skipn m l) j = nth_error l (m + j).
Proof. revert l; induction m; intros l; [reflexivity|]. destruct l; [destruct j; reflexivity|]. cbn. apply IHm. Qed.
Lemma nth_error_firstn' {A} (l : list A) n j : (j < n)%nat -> nth_error (firstn n l) j = nth_error l j.
Proof. revert l j; induction n; intros l j H; [lia|]. destruct l; [destruct j; reflexivity|]. destruct j; [reflexivity|]. cbn. apply IHn. lia. Qed.

Lemma sumf_window_upd {A} (f : A -> N) l m n k v cur : nth_error l k = Some cur ->
  let w := ((m <=? k) && (k <? m + n))%nat in
  sumf f (firstn n (skipn m (upd l k v))) + (if w then f cur else 0)
  = sumf f (firstn n (skipn m l)) + (if w then f v else 0).
Proof.
  intros H w. subst w. rewrite skipn_upd.
  destruct (Nat.ltb_spec k m) as [Hlt|Hge].
  - destruct (Nat.leb_spec m k); [lia|]. reflexivity.
  - destruct (Nat.leb_spec m k); [|lia]. cbn [andb]. rewrite firstn_upd.
    destruct (Nat.ltb_spec (k - m) n) as [H1|H1]; destruct (Nat.ltb_spec k (m + n)); try lia.
    apply sumf_upd. rewrite nth_error_firstn' by exact H1. rewrite nth_error_skipn'.
    replace (m + (k - m))%nat with k by lia. exact H.
Qed.

Lemma mul_add_lt h x m q : x < m -> q < h -> h * x + q < h * m.
Proof.
  intros Hx Hq. assert (H : h * (x + 1) <= h * m) by (apply N.mul_le_mono_l; lia).
  rewrite N.mul_add_distr_l, N.mul_1_r in H. lia.
Qed.

(* `mstep` is a tree of matches / ifs whose leaves are `goto` / `finish` / `crash` of a state that differs from the
   start state by at most one entry write and row writes: `psplit` splits a goal `P (mstep ..)` into these leaves;
   the proofs about a step below (`step_hold_P`, `step_result_P`, `step_held`, `step_frame`) then close every leaf
   with the lemma for its head (`*_goto`, `*_finish`, `*_crash`), chosen by a leaf tactic defined before each *)
Ltac psplit :=
  repeat match goal with
  | |- _ (fst (_, _)) => cbn [fst]
  | |- _ (fst (match ?x with _ => _ end)) => destruct x eqn:?
  | |- _ (fst (if ?x then _ else _)) => destruct x eqn:?
  | |- _ (match ?x with _ => _ end) => destruct x eqn:?
  | |- _ (if ?x then _ else _) => destruct x eqn:?
  | |- _ (goto _ _ _ (if ?x then _ else _)) => destruct x eqn:?
  | |- _ (finish _ _ _ (match ?x with _ => _ end)) => destruct x eqn:?
  end.

Section M1.
  Variable g : geom.
  Hypothesis wf : wf_geom g.
  (* lemmas used by other files take (g, wf) uniformly, also where wf is not used: `Proof using wf` *)
  Notation HF := (HF g).
  Notation TF := (TF g).
  Notation THUGE := (THUGE g).
  Notation ROWS := (ROWS g).

  (* one-thread view *)
  Definition view (s : mstate) (th : thr) : mstate :=
    {| ms_frames := ms_frames s; ms_ents := ms_ents s; ms_bfs := ms_bfs s; ms_pool := [th]; ms_held := [] |}.

  Section View.
    Variable s : mstate.
    Variable t : nat.

    (* intermediate states: the memory of the view follows the memory of the full state *)
    Definition VR (s1 v1 : mstate) : Prop :=
      ms_frames s1 = ms_frames s /\ ms_frames v1 = ms_frames s /\ ms_ents v1 = ms_ents s1 /\ ms_bfs v1 = ms_bfs s1 /\
      ms_pool s1 = ms_pool s /\ ms_held s1 = ms_held s /\ ms_held v1 = [] /\ exists th, ms_pool v1 = [th].
    Definition VG (s' v' : mstate) : Prop :=
      ms_frames v' = ms_frames s /\
      exists x', nth_error (ms_pool v') 0 = Some x' /\
        s' = {| ms_frames := ms_frames s; ms_ents := ms_ents v'; ms_bfs := ms_bfs v';
                ms_pool := upd (ms_pool s) t x'; ms_held := ms_held v' ++ ms_held s |}.
    Definition VS (a b : mstate * option event) : Prop := VG (fst a) (fst b) /\ snd a = snd b.

    Lemma VR_refl th : VR s (view s th).
    Proof. unfold VR, view. cbn. repeat split; eauto. Qed.
    Lemma VR_wr_ent s1 v1 h v : VR s1 v1 -> VR (wr_ent s1 h v) (wr_ent v1 h v).
    Proof. intros (A & B & C & D & E & F & G & H). unfold VR, wr_ent, set_ents. cbn. rewrite C. repeat split; auto. Qed.
    Lemma VR_wr_row s1 v1 h r v : VR s1 v1 -> VR (wr_row s1 h r v) (wr_row v1 h r v).
    Proof. intros (A & B & C & D & E & F & G & H). unfold VR, wr_row. rewrite D.
      destruct (nth_error (ms_bfs s1) (nn h)); unfold set_bfs; cbn; repeat split; auto. Qed.

    Lemma VG_set_thr s1 v1 x : VR s1 v1 -> VG (set_thr s1 t x) (set_thr v1 0 x).
    Proof. intros (A & B & C & D & E & F & G & th & H). unfold VG, set_thr. cbn. rewrite H. cbn. split; [exact B|].
      exists x. split; [reflexivity|]. rewrite A, C, D, E, F, G. reflexivity. Qed.
    Lemma VG_goto s1 v1 c p : VR s1 v1 -> VG (goto s1 t c p) (goto v1 0 c p).
    Proof. apply VG_set_thr. Qed.
    Lemma VG_crash s1 v1 c x : VR s1 v1 -> VG (crash s1 t c x) (crash v1 0 c x).
    Proof. apply VG_set_thr. Qed.
    Lemma VG_finish s1 v1 c r : VR s1 v1 -> VG (finish s1 t c r) (finish v1 0 c r).
    Proof. intros V. pose proof (VG_set_thr s1 v1 (TIdle (Some r)) V) as W.
      destruct V as (A & B & C & D & E & F & G & th & H).
      unfold finish. destruct c, r; try exact W; unfold VG, set_held, set_thr; cbn; rewrite H; cbn; (split; [exact B|]);
        eexists; (split; [reflexivity|]); rewrite A, C, D, E, F, G; reflexivity. Qed.
    Lemma VG_toggle_ok s1 v1 c x : VR s1 v1 -> VG (toggle_ok s1 t c x) (toggle_ok v1 0 c x).
    Proof. intros V. destruct x; cbn [toggle_ok]; [apply VG_finish|apply VG_goto|apply VG_goto]; exact V. Qed.
    Lemma VG_toggle_fail s1 v1 c x : VR s1 v1 -> VG (toggle_fail s1 t c x) (toggle_fail v1 0 c x).
    Proof. intros V. destruct x; cbn [toggle_fail]; [apply VG_goto|apply VG_finish|apply VG_goto]; exact V. Qed.
    Lemma VG_next_child s1 v1 c j : VR s1 v1 -> VG (next_child g s1 t c j) (next_child g v1 0 c j).
    Proof. intros V. unfold next_child. destruct (j + 1 <? THUGE); [apply VG_goto|apply VG_finish]; exact V. Qed.
    Lemma VG_next_row s1 v1 c j i : VR s1 v1 -> VG (next_row g s1 t c j i) (next_row g v1 0 c j i).
    Proof. intros V. unfold next_row. destruct (i + 1 <? ROWS); apply VG_goto; exact V. Qed.
    Lemma VG_next_chunk s1 v1 c j ch : VR s1 v1 -> VG (next_chunk g s1 t c j ch) (next_chunk g v1 0 c j ch).
    Proof. intros V. unfold next_chunk. destruct (ch + 1 <? c_chunks g c); apply VG_goto; exact V. Qed.
    Lemma VG_next_group s1 v1 c gi : VR s1 v1 -> VG (next_group g s1 t c gi) (next_group g v1 0 c gi).
    Proof. intros V. unfold next_group. destruct (gi + 1 <? group_cnt g c); [apply VG_goto|apply VG_finish]; exact V. Qed.

    Lemma VS_pair a b e : VG a b -> VS (a, e) (b, e).
    Proof. intros H. split; [exact H|reflexivity]. Qed.
  End View.

  (* the leaves of the one-thread view: the view state follows the writes of the full state (`vr_tac`), the leaf itself
     is one of the nine state-returning functions of LowerMachine.v (`vleaf`); `vsplit` is `psplit` for the pair relation *)
  Ltac vr_tac := repeat first [apply VR_wr_ent | apply VR_wr_row]; apply VR_refl.
  Ltac vleaf :=
    first [ apply VG_goto | apply VG_crash | apply VG_finish | apply VG_toggle_ok | apply VG_toggle_fail
          | apply VG_next_child | apply VG_next_row | apply VG_next_chunk | apply VG_next_group ]; vr_tac.
  Ltac vsplit :=
    repeat match goal with
    | |- VS _ _ (_, _) (_, _) => apply VS_pair
    | |- VS _ _ (match ?x with _ => _ end) _ => destruct x eqn:?
    | |- VS _ _ (if ?x then _ else _) _ => destruct x eqn:?
    | |- VG _ _ (match ?x with _ => _ end) _ => destruct x eqn:?
    | |- VG _ _ (if ?x then _ else _) _ => destruct x eqn:?
    end.

  Lemma view_step s t c p c0 c1 :
    nth_error (ms_pool s) t = Some (TRun c p) ->
    let r := mstep g (view s (TRun c p)) 0 c1 in
    ms_frames (fst r) = ms_frames s /\
    exists x', nth_error (ms_pool (fst r)) 0 = Some x' /\
      mstep g s t c0 = ({| ms_frames := ms_frames s; ms_ents := ms_ents (fst r); ms_bfs := ms_bfs (fst r);
                           ms_pool := upd (ms_pool s) t x'; ms_held := ms_held (fst r) ++ ms_held s |}, snd r).
  Proof using wf.
    intros Ht r.
    assert (H : VS s t (mstep g s t c0) r).
    { subst r. unfold mstep. rewrite Ht. cbn [view ms_pool nth_error].
      destruct p; cbv beta iota zeta; unfold rd_ent, rd_row; cbn [view ms_ents ms_bfs].
      all: vsplit.
      all: vleaf. }
    destruct H as [(Hf & x' & Hx & E) Hs]. split; [exact Hf|]. exists x'. split; [exact Hx|].
    rewrite <- E, <- Hs. destruct (mstep g s t c0); reflexivity.
  Qed.

  Lemma TF_eq : TF = HF * THUGE. Proof. unfold Bitfield.TF. lia. Qed.

  Lemma tree_free_sumf l i :
    tree_free g l i = sumf e_free (firstn (thuge_nat g) (skipn (nn (i * THUGE)) (ents l))).
  Proof. reflexivity. Qed.

  (* a write to entry h changes the sum of the tree of h only *)
  Lemma tree_free_wr_ent s h v cur i : rd_ent s h = Some cur ->
    tree_free g (lower_of (wr_ent s h v)) i + delta i (h / THUGE) (e_free cur)
    = tree_free g (lower_of s) i + delta i (h / THUGE) (e_free v).
  Proof.
    intros H. rewrite !tree_free_sumf. cbn [lower_of ents wr_ent set_ents ms_ents].
    pose proof (sumf_window_upd e_free (ms_ents s) (nn (i * THUGE)) (thuge_nat g) (nn h) v cur H) as W. cbv zeta in W.
    pose proof (THUGE_pos g) as PT. pose proof (THUGE_nat g) as EN.
    assert (E : ((nn (i * THUGE) <=? nn h) && (nn h <? nn (i * THUGE) + thuge_nat g))%nat = (i =? h / THUGE)).
    { pose proof (N.div_mod h THUGE ltac:(lia)) as D. pose proof (N.mod_lt h THUGE ltac:(lia)) as M.
      unfold nn. destruct (N.eqb_spec i (h / THUGE)) as [->|Hne].
      - apply andb_true_iff. split; [apply Nat.leb_le|apply Nat.ltb_lt]; nia.
      - apply andb_false_iff. destruct (N.lt_gt_cases i (h / THUGE)) as [Hc _]. destruct (Hc Hne) as [Hlt|Hgt].
        + right. apply Nat.ltb_ge. nia.
        + left. apply Nat.leb_gt. nia. }
    rewrite E in W. unfold delta. exact W.
  Qed.
  Lemma tree_free_wr_row s h r v i : tree_free g (lower_of (wr_row s h r v)) i = tree_free g (lower_of s) i.
  Proof. rewrite !tree_free_sumf. cbn [lower_of ents]. rewrite ents_wr_row. reflexivity. Qed.

  (* the huge frames a call touches lie in the tree of its frame / hint *)
  Lemma tree_child c j : child_h g c j / THUGE = c_frame c / TF.
  Proof.
    pose proof (THUGE_pos g) as PT. unfold child_h, c_tbase.
    rewrite N.div_add_l by lia. rewrite (N.div_small (_ mod _)) by (apply N.mod_lt; lia). lia.
  Qed.
  Lemma tree_huge c : c_huge g c / THUGE = c_frame c / TF.
  Proof. pose proof (THUGE_pos g). pose proof (HF_pos g). unfold c_huge. rewrite N.div_div, TF_eq by lia. reflexivity. Qed.
  Lemma tree_group fr c gi q : cwf g fr c = true -> (hord g <= c_order c)%nat -> q < c_hnum g c ->
    (group_h g c gi + q) / THUGE = c_frame c / TF.
  Proof.
    intros Hc Hk Hq. pose proof (HF_pos g) as PH. pose proof (THUGE_pos g) as PT.
    assert (Hn : c_hnum g c <> 0) by apply pow2_nz.
    assert (Hto : (c_order c <= tord g)%nat) by (unfold cwf in Hc; lia).
    pose proof (hnum_divides g c Hk Hto) as ET. set (m := pow2 (tlog g - (c_order c - hord g))) in *.
    assert (Hm : m <> 0) by apply pow2_nz.
    assert (Hnp : forall c', is_get c' = false -> cwf g fr c' = true -> (hord g <= c_order c')%nat -> c_hnum g c' = c_hnum g c -> q < c_hnum g c' ->
              (c_huge g c' + q) / THUGE = c_frame c' / TF).
    { intros c' Hg Hc' Hk' En Hq'. rewrite <- tree_huge.
      destruct (huge_call_aligned_geom g fr c' Hc' Hk' Hg) as [E1 E2].
      assert (Hal : c_frame c' mod pow2 (c_order c') = 0) by (unfold cwf in Hc'; destruct c'; try discriminate; cbn [c_frame c_order] in *; lia).
      assert (Ek : pow2 (c_order c') = HF * c_hnum g c') by (unfold c_hnum; rewrite HF_pow2, N.mul_comm; apply pow2_split; exact Hk').
      rewrite Ek in Hal. pose proof (div_of_aligned (c_frame c') HF (c_hnum g c') ltac:(lia) ltac:(rewrite En; exact Hn) Hal) as Hd.
      fold (c_huge g c') in Hd. rewrite En in *.
      pose proof (N.div_mod (c_huge g c') (c_hnum g c) Hn) as D. rewrite Hd, N.add_0_r in D.
      set (a := c_huge g c' / c_hnum g c) in *. rewrite D, ET, (N.mul_comm m), (N.mul_comm (c_hnum g c) a).
      rewrite <- !N.div_div by assumption. rewrite N.div_add_l, (N.div_small q), N.add_0_r by assumption.
      rewrite N.div_mul by assumption. reflexivity. }
    destruct c as [st o|f o|f o].
    - cbn [group_h]. set (c := CGet st o) in *. set (A := c_choff g c / c_hnum g c).
      assert (EX : (A * c_hnum g c + gi * c_hnum g c) mod THUGE = c_hnum g c * ((A + gi) mod m)).
      { rewrite ET. replace (A * c_hnum g c + gi * c_hnum g c) with (c_hnum g c * (A + gi)) by lia.
        rewrite (N.mul_comm m). apply mod_mul_l; assumption. }
      rewrite EX. pose proof (N.mod_lt (A + gi) m Hm) as Hlt.
      assert (Hfit : c_hnum g c * ((A + gi) mod m) + q < THUGE) by (rewrite ET, (N.mul_comm m); apply mul_add_lt; assumption).
      unfold c_tbase. rewrite <- N.add_assoc, N.div_add_l by lia. rewrite (N.div_small _ THUGE) by exact Hfit. lia.
    - cbn [group_h]. apply Hnp; auto.
    - cbn [group_h]. apply Hnp; auto.
  Qed.
  Lemma tree_of_frame h b : b < HF -> (h * HF + b) / TF = h / THUGE.
  Proof.
    intros Hb. pose proof (HF_pos g). pose proof (THUGE_pos g). rewrite TF_eq, <- N.div_div by lia.
    rewrite N.div_add_l, (N.div_small b) by lia. rewrite N.add_0_r. reflexivity.
  Qed.

  (* bounds on entries *)
  Lemma ent_le s h cur : Inv g s -> rd_ent s h = Some cur -> cur <> MARK -> cur <= HF.
  Proof.
    intros I H Hm. pose proof (entv_rd s h cur H) as E.
    destruct (N.lt_ge_cases h (nbf g (ms_frames s))) as [Hh|Hh].
    - pose proof (K1 g wf s h I Hh ltac:(rewrite E; exact Hm)) as K. rewrite E in K. lia.
    - pose proof (I_nobf g s I h Hh). lia.
  Qed.
  Lemma e_free_le s h cur : Inv g s -> rd_ent s h = Some cur -> e_free cur <= HF.
  Proof.
    intros I H. unfold e_free, e_huge. destruct (N.eqb_spec cur MARK); [lia|]. eapply ent_le; eauto.
  Qed.
  Lemma e_free_id x : x <> MARK -> e_free x = x.
  Proof. intros H. unfold e_free, e_huge. destruct (N.eqb_spec x MARK); [contradiction|reflexivity]. Qed.
  Lemma dec_free s h cur n v' : Inv g s -> rd_ent s h = Some cur -> e_dec cur n = Some v' -> e_free cur = e_free v' + n.
  Proof.
    intros I H E. destruct (e_dec_some cur n v' E) as (Hm & Hle & ->).
    pose proof (ent_le s h cur I H Hm). pose proof (HF_lt_MARK g wf). rewrite !e_free_id by lia. lia.
  Qed.
  Lemma inc_free cur n v' : e_inc g cur n = Some v' -> e_free v' = e_free cur + n.
  Proof.
    intros E. destruct (e_inc_some g cur n v' E) as (Hm & Hle & ->).
    pose proof (HF_lt_MARK g wf). rewrite !e_free_id by lia. lia.
  Qed.

  (* accounting of the entry writes *)
  (* `lhold` of the successor thread of a step of call c, also when the call has completed *)
  Definition fin_hold (c : call) (x' : thr) : N :=
    match x' with
    | TRun _ _ => lhold g x'
    | TIdle (Some (Ok _)) => if is_put c then c_n c else 0
    | TIdle (Some (Err _)) => if is_put c then 0 else c_n c
    | _ => 0
    end.

  Definition HoldP (s : mstate) (t : nat) (c : call) (p : pc) (s' : mstate) : Prop :=
    Inv g s' -> forall x', nth_error (ms_pool s') t = Some x' ->
    forall i, tree_free g (lower_of s') i + delta i (c_frame c / TF) (lhold g (TRun c p))
            = tree_free g (lower_of s) i + delta i (c_frame c / TF) (fin_hold c x').

  (* the memory effect of a step: `a` frames leave the tree of the call, `b` frames enter it *)
  Definition mem_eff (s s1 : mstate) (c : call) (a b : N) : Prop :=
    ms_pool s1 = ms_pool s /\ ms_frames s1 = ms_frames s /\
    forall i, tree_free g (lower_of s1) i + delta i (c_frame c / TF) a = tree_free g (lower_of s) i + delta i (c_frame c / TF) b.

  Lemma mem_same s c : mem_eff s s c 0 0.
  Proof. repeat split. Qed.
  Lemma mem_row s c h r v : mem_eff s (wr_row s h r v) c 0 0.
  Proof. split; [apply pool_wr_row|]. split; [apply frames_wr_row|]. intros i. rewrite tree_free_wr_row. reflexivity. Qed.
  Lemma mem_ent s c h v cur : rd_ent s h = Some cur -> h / THUGE = c_frame c / TF ->
    mem_eff s (wr_ent s h v) c (e_free cur) (e_free v).
  Proof. intros H E. split; [reflexivity|]. split; [reflexivity|]. intros i. rewrite <- E. apply tree_free_wr_ent. exact H. Qed.

  Lemma hold_leaf s t c p s1 x hl a b :
    nth_error (ms_pool s) t = Some (TRun c p) -> mem_eff s s1 c a b ->
    (local_b g (ms_frames s) x = true -> isBad x = 0 -> fin_hold c x + a = lhold g (TRun c p) + b) ->
    HoldP s t c p (set_held (set_thr s1 t x) hl).
  Proof.
    intros Ht (Ep & Ef & Hm) Har I' x' Hx' i.
    cbn [ms_pool set_held set_thr] in Hx'. apply upd_same_inv in Hx'. subst x'.
    assert (Hin : nth_error (ms_pool (set_held (set_thr s1 t x) hl)) t = Some x).
    { cbn [ms_pool set_held set_thr]. apply nth_error_upd_same. rewrite Ep. apply nth_error_Some. congruence. }
    pose proof (Forall_nth_error _ _ _ _ (I_L g _ I') Hin) as L'. cbn [ms_frames set_held set_thr] in L'. rewrite Ef in L'.
    pose proof (sumf_ge isBad _ _ _ Hin) as B. rewrite (I_E g _ I') in B.
    specialize (Har L' ltac:(lia)). specialize (Hm i).
    change (lower_of (set_held (set_thr s1 t x) hl)) with (lower_of s1).
    unfold delta in *. destruct (i =? c_frame c / TF); lia.
  Qed.
  Lemma hold_goto s t c p s1 p' a b :
    nth_error (ms_pool s) t = Some (TRun c p) -> mem_eff s s1 c a b ->
    (local_b g (ms_frames s) (TRun c p') = true -> lhold g (TRun c p') + a = lhold g (TRun c p) + b) ->
    HoldP s t c p (goto s1 t c p').
  Proof. intros Ht Hm Har. apply (hold_leaf s t c p s1 (TRun c p') (ms_held s1) a b Ht Hm). intros L _. apply Har, L. Qed.
  Lemma hold_crash s t c p s1 z a b :
    nth_error (ms_pool s) t = Some (TRun c p) -> mem_eff s s1 c a b ->
    (z = SExceedingRetries -> a = lhold g (TRun c p) + b) ->
    HoldP s t c p (crash s1 t c z).
  Proof. intros Ht Hm Har. apply (hold_leaf s t c p s1 (TPanic z c) (ms_held s1) a b Ht Hm). intros _ B. cbn [fin_hold].
    rewrite N.add_0_l. apply Har. destruct z; try discriminate B. reflexivity. Qed.
  Lemma hold_finish s t c p s1 r a b :
    nth_error (ms_pool s) t = Some (TRun c p) -> mem_eff s s1 c a b ->
    (fin_hold c (TIdle (Some r)) + a = lhold g (TRun c p) + b) ->
    HoldP s t c p (finish s1 t c r).
  Proof.
    intros Ht Hm Har. unfold finish.
    destruct c, r; first [ apply (hold_leaf s t _ p s1 _ (ms_held s1) a b Ht Hm); intros _ _; exact Har
                         | apply (hold_leaf s t _ p s1 _ _ a b Ht Hm); intros _ _; exact Har ].
  Qed.

  (* leaves without an entry write (at most row writes): no frame enters or leaves the tree (`mem_same` / `mem_row`,
     a = b = 0), so `lhold` of the old pc must equal `fin_hold` / `lhold` of the new one, which `arith0` computes per
     call kind.  Leaves with an entry write are left to the proof of `step_hold_P`. *)
  Ltac arith0 c :=
    intros; rewrite ?N.add_0_r; try discriminate;
    destruct c; cbn [local_b lpc fin_hold lhold is_put is_get is_getat ctx_ok not_xput andb negb] in *;
    try reflexivity; try lia;
    try (match goal with |- context [(?q - 1 + 1) * _] => replace (q - 1 + 1) with q by lia end; reflexivity).
  Ltac hleaf0 c :=
    lazymatch goal with
    | |- _ (_ (wr_ent _ _ _) _ _ _) => fail
    | |- _ (goto (wr_row _ _ _ _) _ _ _) => eapply (hold_goto _ _ _ _ _ _ 0 0); [eassumption | apply mem_row | arith0 c]
    | |- _ (finish (wr_row _ _ _ _) _ _ _) => eapply (hold_finish _ _ _ _ _ _ 0 0); [eassumption | apply mem_row | arith0 c]
    | |- _ (goto _ _ _ _) => eapply (hold_goto _ _ _ _ _ _ 0 0); [eassumption | apply mem_same | arith0 c]
    | |- _ (finish _ _ _ _) => eapply (hold_finish _ _ _ _ _ _ 0 0); [eassumption | apply mem_same | arith0 c]
    | |- _ (crash _ _ _ _) => eapply (hold_crash _ _ _ _ _ _ 0 0); [eassumption | apply mem_same | arith0 c]
    end.

  Lemma hc_arith c q : (hord g <= c_order c)%nat -> q < c_hnum g c ->
    (q + 1) * HF <= c_n c /\ (q + 1 = c_hnum g c -> c_n c = (q + 1) * HF).
  Proof.
    intros Hk Hq. assert (E : c_n c = c_hnum g c * HF) by (unfold c_n, c_hnum; rewrite HF_pow2; apply pow2_split; exact Hk).
    rewrite E. split; [apply N.mul_le_mono_r; lia|]. intros ->. reflexivity.
  Qed.

  (* Idea: a step has at most one entry write, from `cur` to `v`, into the tree of the call: a := e_free cur frames leave
     the tree's count, b := e_free v enter it (`mem_ent`), and the new pc's `lhold` differs from the old by a - b. *)
  Lemma step_hold_P s t c p c0 :
    Inv g s -> nth_error (ms_pool s) t = Some (TRun c p) -> HoldP s t c p (fst (mstep g s t c0)).
  Proof.
    intros I Ht. pose proof (local_of g s t _ I Ht) as L. cbn [local_b] in L.
    assert (EM : e_free MARK = 0) by reflexivity.
    assert (EH : e_free HF = HF) by (apply e_free_id; pose proof (HF_lt_MARK g wf); lia).
    unfold mstep. rewrite Ht.
    destruct p; cbv beta iota zeta.
    all: try (destruct x).
    all: psplit; unfold next_child, next_row, next_chunk, next_group, toggle_ok, toggle_fail, toggle_entry; psplit.
    all: try (hleaf0 c).
    all: cbn [lpc] in L.
    all: repeat match goal with H : (_ =? _) = true |- _ => apply N.eqb_eq in H; try subst end.
    all: try match goal with HI : Inv g ?s, Hd : e_dec ?v ?n = Some ?v', Hr : rd_ent ?s ?h = Some ?v |- _ => pose proof (dec_free s h v n v' HI Hr Hd) end.
    all: try match goal with Hi : e_inc g ?v ?n = Some ?v' |- _ => pose proof (inc_free v n v' Hi) end.
    all: match goal with
         | Hrd : rd_ent ?s ?h = Some ?cur |- _ (goto (wr_ent _ ?h ?v) _ _ _) =>
             eapply (hold_goto _ _ _ _ _ _ (e_free cur) (e_free v)); [eassumption | apply (mem_ent s _ h v cur Hrd) | ]
         | Hrd : rd_ent ?s ?h = Some ?cur |- _ (finish (wr_ent _ ?h ?v) _ _ _) =>
             eapply (hold_finish _ _ _ _ _ _ (e_free cur) (e_free v)); [eassumption | apply (mem_ent s _ h v cur Hrd) | ]
         end.
    all: try apply tree_child; try apply tree_huge.
    all: try (match goal with HI : Inv g ?s |- _ / _ = _ => apply (tree_group (ms_frames s)) end).
    (* side conditions; the goals about the next pc are left (lia would only fail on them, slowly) *)
    all: try (lazymatch goal with |- local_b _ _ _ = true -> _ => fail | |- _ => lia end).
    all: try match type of L with context [?q <? c_hnum g ?c] =>
           let A := fresh "A" in let B := fresh "B" in
           destruct (hc_arith c q ltac:(lia) ltac:(lia)) as [A B]; try (specialize (B ltac:(lia))) end.
    all: try match type of L with context [?old =? MARK] => assert (old = MARK) by lia; subst old end.
    all: intros.
    all: try (match goal with |- context [(?q - 1 + 1) * _] => replace (q - 1 + 1) with q by lia end).
    all: change (e_free 0) with 0.
    all: try destruct c.
    all: try (cbn [local_b lpc fin_hold lhold is_put is_get is_getat ctx_ok not_xput andb negb cas_cur cas_new] in *;
              rewrite ?EM, ?EH in *; try lia).
    all: match goal with |- context [(?q - 1 + 1) * _] => replace (q - 1 + 1) with q by lia end; lia.
  Qed.

  (* Accounting of the entry writes.  NOTE the sides: `lhold` of the predecessor stands with the successor's
     memory.  A get that still has n frames to take (lhold = n) and takes them lowers tree_free by n and
     ends with lhold = 0, a put raises tree_free and `lhold`: tree_free - hold is what a step preserves
     (this is the credit equation of UpperConcInvDef.tree_ok2: counters + credit = tree_free).  The equation
     with the two `delta` terms exchanged is false: geometry hord = 9, tlog = 2, frames = 1024, all free,
     one thread in `CGetAt 3 0` at pc `A1C 512` (entry 0 = 512): the step writes 511 and goes to `TL XGetAt`;
     tree_free 0 is 1024 before and 1023 after, lhold 1 before and 0 after: 1023 + 0 <> 1024 + 1. *)
  Lemma step_hold s t c p c0 x' :
    Inv g s -> nth_error (ms_pool s) t = Some (TRun c p) ->
    nth_error (ms_pool (fst (mstep g s t c0))) t = Some x' ->
    forall i, tree_free g (lower_of (fst (mstep g s t c0))) i + delta i (c_frame c / TF) (lhold g (TRun c p))
            = tree_free g (lower_of s) i + delta i (c_frame c / TF) (fin_hold c x').
  Proof. intros I Ht Hx. exact (step_hold_P s t c p c0 I Ht (step_inv g wf s t c0 I) x' Hx). Qed.

  (* results of a step *)
  Definition res_ok (s : mstate) (c : call) (x' : thr) : Prop :=
    match x' with
    | TRun c' _ => c' = c
    | TIdle (Some (Ok f)) => is_put c = false ->
        f / TF = c_frame c / TF /\ f mod pow2 (c_order c) = 0 /\ f + pow2 (c_order c) <= ms_frames s
    | TIdle (Some (Err e)) => e = EMemory
    | TIdle (Some (Panic _)) => False
    | TIdle None => False
    | TPanic z c' => z = SExceedingRetries /\ c' = c /\ is_put c = true
    end.
  Definition ResP (s : mstate) (t : nat) (c : call) (s' : mstate) : Prop :=
    Inv g s' -> forall x', nth_error (ms_pool s') t = Some x' -> res_ok s c x'.

  Lemma res_goto s t c s1 p' : ResP s t c (goto s1 t c p').
  Proof. intros _ x' Hx. cbn [ms_pool goto set_thr] in Hx. apply upd_same_inv in Hx. subst x'. reflexivity. Qed.
  Lemma res_crash s t c s1 z : ms_pool s1 = ms_pool s -> (t < length (ms_pool s))%nat -> ResP s t c (crash s1 t c z).
  Proof.
    intros Ep Hlt I' x' Hx. pose proof Hx as Hx0. cbn [ms_pool crash set_thr] in Hx. apply upd_same_inv in Hx. subst x'.
    pose proof (Forall_nth_error _ _ _ _ (I_L g _ I') Hx0) as L'.
    pose proof (sumf_ge isBad _ _ _ Hx0) as B. rewrite (I_E g _ I') in B.
    cbn [res_ok]. destruct z; cbn [isBad] in B; try lia. cbn [local_b] in L'. repeat split. lia.
  Qed.
  Lemma res_err s t c s1 : ResP s t c (finish s1 t c (Err EMemory)).
  Proof. intros _ x' Hx. rewrite finish_err in Hx. cbn [ms_pool set_thr] in Hx. apply upd_same_inv in Hx. subst x'. reflexivity. Qed.
  Lemma res_ok_fin s t c s1 f : ms_frames s1 = ms_frames s ->
    (is_put c = false -> f / TF = c_frame c / TF) -> ResP s t c (finish s1 t c (Ok f)).
  Proof.
    intros Ef Hg I' x' Hx.
    assert (E : x' = TIdle (Some (Ok f))).
    { unfold finish in Hx. destruct c; cbn [ms_pool set_held set_thr] in Hx; apply upd_same_inv in Hx; exact Hx. }
    subst x'. cbn [res_ok]. intros Hp. split; [apply Hg, Hp|].
    pose proof (I_H g _ I') as H.
    assert (Hb : blk_ok (ms_frames s) (f, c_order c) = true).
    { unfold finish in H. destruct c; try discriminate Hp; cbn [ms_held ms_frames set_held set_thr c_order] in H |- *;
        inversion H; subst; rewrite <- Ef; assumption. }
    unfold blk_ok in Hb. cbn [fst snd] in Hb. lia.
  Qed.

  Lemma nth_lt' {A} (l : list A) t x : nth_error l t = Some x -> (t < length l)%nat.
  Proof. intros H. apply nth_error_Some. congruence. Qed.

  (* the result stored by a leaf: none for `goto`, the site for `crash`, `Err EMemory`, or `Ok f` with the facts of `res_ok` *)
  Ltac rleaf :=
    lazymatch goal with
    | |- _ (goto _ _ _ _) => apply res_goto
    | |- _ (crash (wr_row _ _ _ _) _ _ _) => apply res_crash; [apply pool_wr_row | eapply nth_lt'; eassumption]
    | |- _ (crash _ _ _ _) => apply res_crash; [reflexivity | eapply nth_lt'; eassumption]
    | |- _ (finish _ _ _ (Err EMemory)) => apply res_err
    | |- _ (finish (wr_row _ _ _ _) _ _ (Ok _)) => apply res_ok_fin; [apply frames_wr_row | ]
    | |- _ (finish _ _ _ (Ok _)) => apply res_ok_fin; [reflexivity | ]
    end.

  Lemma step_result_P s t c p c0 :
    Inv g s -> nth_error (ms_pool s) t = Some (TRun c p) -> ResP s t c (fst (mstep g s t c0)).
  Proof.
    intros I Ht. pose proof (local_of g s t _ I Ht) as L. cbn [local_b] in L.
    unfold mstep. rewrite Ht.
    destruct p; cbv beta iota zeta.
    all: try (destruct x).
    all: psplit; unfold next_child, next_row, next_chunk, next_group, toggle_ok, toggle_fail, toggle_entry; psplit.
    all: rleaf.
    all: cbn [lpc] in L.
    all: try reflexivity.
    all: try (intros Hp; exfalso; destruct c; cbn [is_put is_get is_getat ctx_ok andb] in *; lia).
    - (* G2C: the block found by fza lies in row r of the child *)
      intros _. pose proof (ROWS_pos g wf) as PR.
      match goal with H : (_ =? _) = true |- _ => apply N.eqb_eq in H; subst end.
      set (r := (i + c_start c mod ROWS) mod ROWS) in *.
      assert (Hr : r < ROWS) by (apply N.mod_lt; lia).
      destruct (has_row g wf s (child_h g c j) r I ltac:(lia) Hr) as (v & Ev & Hv).
      match goal with H : fza ?x ?o = Some (?a, ?b) |- _ =>
        assert (Hx : x < W64) by congruence; assert (Ho : (o <= 6)%nat) by lia;
        destruct (fza_some x o a b Hx Ho H) as (_ & Hfit & _) end.
      pose proof (pow2_pos (c_order c)) as Pk. unfold pow2 in Pk.
      rewrite <- N.add_assoc, tree_of_frame by (apply (rowbit_lt g wf); lia). apply tree_child.
    - (* G2W: the chunk lies in the child *)
      intros _. pose proof (lo_row_lt g c c1 q ltac:(lia) ltac:(lia) ltac:(lia)) as Hlo.
      rewrite tree_of_frame by (pose proof (rowbit_lt g wf (c1 * c_nr c) 0 ltac:(lia) ltac:(lia)); lia). apply tree_child.
    - intros _. replace (group_h g (CGet start order) gi * HF) with (group_h g (CGet start order) gi * HF + 0) by lia.
      rewrite tree_of_frame by apply (HF_pos g).
      rewrite <- (N.add_0_r (group_h g (CGet start order) gi)). apply (tree_group (ms_frames s)); lia.
    - intros _. replace (group_h g (CGetAt frame order) gi * HF) with (group_h g (CGetAt frame order) gi * HF + 0) by lia.
      rewrite tree_of_frame by apply (HF_pos g).
      rewrite <- (N.add_0_r (group_h g (CGetAt frame order) gi)). apply (tree_group (ms_frames s)); lia.
  Qed.

  Lemma step_result s t c p c0 x' :
    Inv g s -> nth_error (ms_pool s) t = Some (TRun c p) ->
    nth_error (ms_pool (fst (mstep g s t c0))) t = Some x' -> res_ok s c x'.
  Proof. intros I Ht Hx. exact (step_result_P s t c p c0 I Ht (step_inv g wf s t c0 I) x' Hx). Qed.

  Lemma lhold_le s t c p : Inv g s -> nth_error (ms_pool s) t = Some (TRun c p) -> lhold g (TRun c p) <= c_n c.
  Proof using wf.
    intros I Ht. pose proof (local_of g s t _ I Ht) as L. cbn [local_b] in L.
    destruct c; cbn [lhold]; destruct p; try lia.
    cbn [lpc] in L. destruct (hc_arith (CPut frame order) q ltac:(lia) ltac:(lia)) as [A _]. lia.
  Qed.

  (* the counter sum of a tree never exceeds TREE_FRAMES *)
  Lemma sumf_window_le {A} (f : A -> N) (B : N) l m n : Forall (fun x => f x <= B) l ->
    sumf f (firstn n (skipn m l)) <= N.of_nat n * B.
  Proof.
    intros H. assert (H' : Forall (fun x => f x <= B) (skipn m l)).
    { apply Forall_forall. intros x Hx. rewrite <- (firstn_skipn m l) in H. apply Forall_app in H. exact (proj1 (Forall_forall _ _) (proj2 H) x Hx). }
    clear H. revert n. induction H' as [|a r Ha Hr IH]; intros n.
    - rewrite firstn_nil. cbn. lia.
    - destruct n; [cbn; lia|]. cbn [firstn]. rewrite sumf_cons. specialize (IH n). lia.
  Qed.
  Lemma inv_tree_free_le s i : Inv g s -> i < ntab g (ms_frames s) -> tree_free g (lower_of s) i <= TF.
  Proof.
    intros I _. rewrite tree_free_sumf. cbn [lower_of ents].
    unfold Bitfield.TF. rewrite (THUGE_nat g). apply sumf_window_le.
    apply Forall_forall. intros e He. apply In_nth_error in He. destruct He as (k & Hk).
    apply (e_free_le s (N.of_nat k)); [exact I|]. unfold rd_ent, nn. rewrite Nat2N.id. exact Hk.
  Qed.

  (* the invariant does not read the result of an idle thread nor the order of the held list *)
  Lemma Inv_idle_irrel s t l l' : Inv g s -> nth_error (ms_pool s) t = Some (TIdle l) -> Inv g (set_thr s t (TIdle l')).
  Proof using wf.
    intros I Ht. apply (inv_plain g s t (TIdle l) (TIdle l') I Ht); try reflexivity.
    intros h. constructor; intros; try reflexivity; lia.
  Qed.

  Lemma sumf_perm {A} (f : A -> N) l l' : Permutation l l' -> sumf f l = sumf f l'.
  Proof. induction 1; rewrite ?sumf_cons in *; lia. Qed.

  Lemma Inv_held_perm s h : Inv g s -> Permutation (ms_held s) h -> Inv g (set_held s h).
  Proof using wf.
    intros I P.
    assert (Hc : forall x, heldc x h = heldc x (ms_held s)) by (intros x; symmetry; apply sumf_perm, P).
    assert (Hh : forall x, hugec g x h = hugec g x (ms_held s)) by (intros x; symmetry; apply sumf_perm, P).
    destruct I. constructor; cbn [ms_frames ms_ents ms_bfs ms_pool ms_held set_held]; try assumption.
    - intros h0 r i Hh0 Hr Hi. rewrite Hc. exact (I_A h0 r i Hh0 Hr Hi).
    - intros h0 Hh0 He r i Hr Hi. rewrite Hc. exact (I_B h0 Hh0 He r i Hr Hi).
    - intros h0 He. rewrite Hh. exact (I_F h0 He).
    - exact (Permutation_Forall P I_H).
  Qed.
  (* the ghost `held` list, the frame of a step *)
  Definition HeldP (s : mstate) (t : nat) (c : call) (s' : mstate) : Prop :=
    forall x', nth_error (ms_pool s') t = Some x' ->
    ms_held s' = match x' with
                 | TIdle (Some (Ok f)) => if is_put c then ms_held s else (f, c_order c) :: ms_held s
                 | _ => ms_held s
                 end.
  Lemma held_goto s t c s1 p' : ms_held s1 = ms_held s -> HeldP s t c (goto s1 t c p').
  Proof. intros E x' Hx. cbn [ms_pool goto set_thr] in Hx. apply upd_same_inv in Hx. subst x'. exact E. Qed.
  Lemma held_crash s t c s1 z : ms_held s1 = ms_held s -> HeldP s t c (crash s1 t c z).
  Proof. intros E x' Hx. cbn [ms_pool crash set_thr] in Hx. apply upd_same_inv in Hx. subst x'. exact E. Qed.
  Lemma held_finish s t c s1 r : ms_held s1 = ms_held s -> HeldP s t c (finish s1 t c r).
  Proof.
    intros E x' Hx. unfold finish in *.
    destruct c, r; cbn [ms_pool ms_held set_held set_thr] in *; apply upd_same_inv in Hx; subst x';
      cbn [is_put c_order]; rewrite ?E; reflexivity.
  Qed.
  (* no leaf changes `ms_held` except a finishing put / get through `finish` itself (`held_finish`) *)
  Ltac held_mem := first [reflexivity | apply held_wr_row].
  Ltac held_leaf :=
    lazymatch goal with
    | |- _ (goto _ _ _ _) => apply held_goto; held_mem
    | |- _ (crash _ _ _ _) => apply held_crash; held_mem
    | |- _ (finish _ _ _ _) => apply held_finish; held_mem
    end.

  Lemma step_held s t c p c0 :
    nth_error (ms_pool s) t = Some (TRun c p) -> HeldP s t c (fst (mstep g s t c0)).
  Proof using wf.
    intros Ht.
    unfold mstep. rewrite Ht.
    destruct p; cbv beta iota zeta.
    all: try (destruct x).
    all: psplit; unfold next_child, next_row, next_chunk, next_group, toggle_ok, toggle_fail, toggle_entry; psplit.
    all: held_leaf.
  Qed.

  (* what every step leaves alone: `frames`, the length of the pool, the other threads *)
  Definition FrameP (s : mstate) (t : nat) (s' : mstate) : Prop :=
    ms_frames s' = ms_frames s /\ length (ms_pool s') = length (ms_pool s) /\
    forall t', t' <> t -> nth_error (ms_pool s') t' = nth_error (ms_pool s) t'.
  Lemma frame_refl s t : FrameP s t s.
  Proof. repeat split. Qed.
  Lemma frame_set_thr s t s1 x : ms_frames s1 = ms_frames s -> ms_pool s1 = ms_pool s -> FrameP s t (set_thr s1 t x).
  Proof.
    intros Ef Ep. unfold FrameP. cbn [ms_frames ms_pool set_thr]. rewrite Ep, upd_length. repeat split; [exact Ef|].
    intros t' Hne. apply nth_error_upd_other. congruence.
  Qed.
  Lemma frame_finish s t s1 c r : ms_frames s1 = ms_frames s -> ms_pool s1 = ms_pool s -> FrameP s t (finish s1 t c r).
  Proof. intros Ef Ep. unfold finish. destruct c, r; apply (frame_set_thr s t s1 _ Ef Ep). Qed.
  (* every leaf sets thread t only and keeps `ms_frames`; row / entry writes do not touch the pool *)
  Ltac frame_leaf :=
    lazymatch goal with
    | |- _ (goto (wr_row _ _ _ _) _ _ _) => apply frame_set_thr; [apply frames_wr_row | apply pool_wr_row]
    | |- _ (crash (wr_row _ _ _ _) _ _ _) => apply frame_set_thr; [apply frames_wr_row | apply pool_wr_row]
    | |- _ (finish (wr_row _ _ _ _) _ _ _) => apply frame_finish; [apply frames_wr_row | apply pool_wr_row]
    | |- _ (goto _ _ _ _) => apply frame_set_thr; reflexivity
    | |- _ (crash _ _ _ _) => apply frame_set_thr; reflexivity
    | |- _ (finish _ _ _ _) => apply frame_finish; reflexivity
    | |- _ => apply frame_refl
    end.
  Lemma step_frame s t c0 : FrameP s t (fst (mstep g s t c0)).
  Proof using wf.
    unfold mstep. destruct (nth_error (ms_pool s) t) as [[l|c p|z c]|] eqn:Ht; cbv beta iota zeta; cbn [fst]; try apply frame_refl.
    - psplit; frame_leaf.
    - destruct p.
      all: try (destruct x).
      all: psplit; unfold next_child, next_row, next_chunk, next_group, toggle_ok, toggle_fail, toggle_entry; psplit.
      all: frame_leaf.
  Qed.

  Lemma step_frames s t c0 : ms_frames (fst (mstep g s t c0)) = ms_frames s.
  Proof using wf. exact (proj1 (step_frame s t c0)). Qed.
  Lemma step_pool_other s t c0 t' : t' <> t -> nth_error (ms_pool (fst (mstep g s t c0))) t' = nth_error (ms_pool s) t'.
  Proof using wf. exact (proj2 (proj2 (step_frame s t c0)) t'). Qed.
  Lemma step_pool_len s t c0 : length (ms_pool (fst (mstep g s t c0))) = length (ms_pool s).
  Proof using wf. exact (proj1 (proj2 (step_frame s t c0))). Qed.
  (* the counter sum of a tree plus what the in-flight gets have taken from it *)
  (* frames a lower get / get_at has already subtracted from the huge entries of its tree *)
  Definition taken (x : thr) : N :=
    match x with TRun c _ => if is_put c then 0 else c_n c - lhold g x | _ => 0 end.
  Definition taken_in (i : N) (x : thr) : N :=
    match x with TRun c _ => if c_frame c / TF =? i then taken x else 0 | _ => 0 end.

  (* the share of thread x in huge frame h: what it has pending under the counter, a whole entry it claimed *)
  Definition tkw (fm h : N) (x : thr) : N := (if h <? nbf g fm then pend g h x else 0) + HF * hfr g h x.

  Lemma tkw_bound s h : Inv g s -> e_free (entv s h) + sumf (tkw (ms_frames s) h) (ms_pool s) <= HF.
  Proof using wf.
    intros I. unfold tkw. rewrite sumf_add, sumf_mulc. pose proof (HF_lt_MARK g wf) as HM. pose proof (ROWS_pos g wf) as PR.
    destruct (N.eq_dec (entv s h) MARK) as [He|He].
    - rewrite He. change (e_free MARK) with 0.
      assert (Hh : h < nbf g (ms_frames s)) by (apply (ent_nz_lt g s h I); rewrite He; discriminate).
      destruct (N.ltb_spec h (nbf g (ms_frames s))); [|lia].
      destruct (K2 g wf s h I Hh He) as [Kp _]. change (sumf (fun x => pend g h x) (ms_pool s)) with (sumf (pend g h) (ms_pool s)).
      rewrite Kp. pose proof (I_B g s I h Hh He 0 0 PR ltac:(lia)) as B.
      assert (Hle : sumf (hfr g h) (ms_pool s) <= sumf (fr g h 0 0) (ms_pool s)).
      { apply sumf_le_in. intros x Hx. apply (hfr_le_fr g wf (ms_frames s)); [|exact PR|lia].
        exact (proj1 (Forall_forall _ _) (I_L g s I) x Hx). }
      change (sumf (fun x => hfr g h x) (ms_pool s)) with (sumf (hfr g h) (ms_pool s)). nia.
    - rewrite (e_free_id _ He). pose proof (I_F g s I h He) as F.
      change (sumf (fun x => hfr g h x) (ms_pool s)) with (sumf (hfr g h) (ms_pool s)).
      assert (E0 : sumf (hfr g h) (ms_pool s) = 0) by lia. rewrite E0, N.mul_0_r, N.add_0_r.
      destruct (N.ltb_spec h (nbf g (ms_frames s))) as [Hh|Hh].
      + pose proof (K1 g wf s h I Hh He) as K. change (sumf (fun x => pend g h x) (ms_pool s)) with (sumf (pend g h) (ms_pool s)). lia.
      + rewrite (I_nobf g s I h Hh). rewrite sumf_all_zero by reflexivity. lia.
  Qed.

  Lemma tree_free_ssum s i : Inv g s -> i < ntab g (ms_frames s) ->
    tree_free g (lower_of s) i = ssum THUGE (fun k => e_free (entv s (i * THUGE + k))).
  Proof using wf.
    intros I Hi. rewrite tree_free_sumf. cbn [lower_of ents]. rewrite sumf_nth_error.
    pose proof (THUGE_nat g) as EN. pose proof (I_len2 g s I) as Hl.
    assert (Hlen : length (firstn (thuge_nat g) (skipn (nn (i * THUGE)) (ms_ents s))) = thuge_nat g).
    { rewrite firstn_length, skipn_length, Hl. unfold nn. nia. }
    rewrite Hlen, <- EN. apply ssum_ext. intros k Hk.
    rewrite nth_error_firstn' by (unfold nn; lia). rewrite nth_error_skipn'.
    unfold entv, rd_ent. replace (nn (i * THUGE + k)) with (nn (i * THUGE) + nn k)%nat by (unfold nn; lia).
    destruct (nth_error (ms_ents s) (nn (i * THUGE) + nn k)); reflexivity.
  Qed.

  Lemma in_tree_term (f : N -> N) h0 T : h0 / THUGE = T -> f h0 <= ssum THUGE (fun k => f (T * THUGE + k)).
  Proof.
    intros E. pose proof (THUGE_pos g) as PT. pose proof (N.div_mod h0 THUGE ltac:(lia)) as D.
    pose proof (N.mod_lt h0 THUGE ltac:(lia)) as M.
    replace h0 with (T * THUGE + h0 mod THUGE) at 1 by (subst T; lia).
    apply (ssum_ge THUGE (fun k => f (T * THUGE + k)) (h0 mod THUGE) M).
  Qed.
  Lemma small_taken fm x h0 T n : h0 < nbf g fm -> h0 / THUGE = T -> pend g h0 x = n ->
    n <= ssum THUGE (fun k => tkw fm (T * THUGE + k) x).
  Proof.
    intros Hh E Hp. etransitivity; [|apply (in_tree_term (fun h => tkw fm h x) h0 T E)].
    cbv beta. unfold tkw. destruct (N.ltb_spec h0 (nbf g fm)); lia.
  Qed.
  Lemma huge_taken fm x a cnt T : ent_own g x a cnt -> (forall r, r < cnt -> (a + r) / THUGE = T) ->
    cnt * HF <= ssum THUGE (fun k => tkw fm (T * THUGE + k) x).
  Proof.
    intros O Hin. pose proof (THUGE_pos g) as PT.
    destruct (N.eq_dec cnt 0) as [->|Hc]; [lia|].
    pose proof (Hin 0 ltac:(lia)) as E0. rewrite N.add_0_r in E0. pose proof (Hin (cnt - 1) ltac:(lia)) as E1.
    pose proof (N.div_mod a THUGE ltac:(lia)) as D0. pose proof (N.mod_lt a THUGE ltac:(lia)) as M0.
    pose proof (N.div_mod (a + (cnt - 1)) THUGE ltac:(lia)) as D1. pose proof (N.mod_lt (a + (cnt - 1)) THUGE ltac:(lia)) as M1.
    rewrite E0 in D0. rewrite E1 in D1. set (k0 := a mod THUGE) in *.
    assert (Hfit : k0 + cnt <= THUGE) by lia.
    rewrite <- (ssum_inb_in THUGE k0 cnt Hfit), N.mul_comm, <- ssum_mulc.
    apply ssum_le. intros k Hk. unfold tkw. rewrite (EO_hfr g x a cnt O).
    replace (inb a cnt (T * THUGE + k)) with (inb k0 cnt k) by (unfold inb; lia). lia.
  Qed.

  Lemma lhold_get c p : is_put c = false ->
    lhold g (TRun c p) = match p with
                         | G1L _ | G1C _ _ | A1L | A1C _ => c_n c
                         | HC _ q => c_n c - q * HF
                         | HU _ q => c_n c - (q + 1) * HF
                         | _ => 0
                         end.
  Proof. destruct c; [reflexivity..|discriminate]. Qed.

  Lemma taken_le_tkw s t x i : Inv g s -> nth_error (ms_pool s) t = Some x ->
    taken_in i x <= ssum THUGE (fun k => tkw (ms_frames s) (i * THUGE + k) x).
  Proof using wf.
    intros I Ht. pose proof (local_of g s t _ I Ht) as L.
    destruct x as [l|c p|z c]; cbn [taken_in]; try apply N.le_0_l.
    destruct (N.eqb_spec (c_frame c / TF) i) as [<-|]; [|apply N.le_0_l].
    unfold taken. destruct (is_put c) eqn:Hp; [apply N.le_0_l|].
    cbn [local_b] in L. apply andb_true_iff in L. destruct L as [Hc L].
    assert (Hat : is_getat c = true -> small g c = true -> c_huge g c < nbf g (ms_frames s)).
    { intros Ha Hs. apply (small_call_decomp g wf (ms_frames s) c Hc Hs). apply is_getat_not_get, Ha. }
    rewrite (lhold_get c p Hp).
    destruct p; cbn [lpc] in L;
      try (destruct x; cbn [ctx_ok] in L);
      try (exfalso; rewrite Hp in L; cbn [andb] in L; rewrite ?andb_false_r in L; discriminate L).
    all: try (rewrite N.sub_diag; apply N.le_0_l).
    all: try (rewrite N.sub_0_r; apply (small_taken _ _ (child_h g c j)); [repeat (apply andb_true_iff in L; destruct L as [L ?]); apply N.ltb_lt; assumption | apply tree_child | gsimp; rewrite N.eqb_refl; reflexivity]).
    all: try (rewrite N.sub_0_r; apply (small_taken _ _ (c_huge g c)); [repeat (apply andb_true_iff in L; destruct L as [L ?]); apply Hat; assumption | apply tree_huge | gsimp; rewrite N.eqb_refl; reflexivity]).
    - (* HC *) destruct (hc_arith c q ltac:(lia) ltac:(lia)) as [A _].
      etransitivity; [|apply (huge_taken (ms_frames s) _ (group_h g c gi) q _ (own_get_HC g wf c gi q Hp))].
      + clear - A. lia.
      + intros r Hr. apply (tree_group (ms_frames s)); lia.
    - (* HU *) destruct (hc_arith c q ltac:(lia) ltac:(lia)) as [A _].
      etransitivity; [|apply (huge_taken (ms_frames s) _ (group_h g c gi) (q + 1) _ (own_get_HU g wf c gi q Hp))].
      + clear - A. lia.
      + intros r Hr. apply (tree_group (ms_frames s)); lia.
  Qed.

  Lemma inv_tree_free_taken s i :
    Inv g s -> i < ntab g (ms_frames s) ->
    tree_free g (lower_of s) i + sumf (taken_in i) (ms_pool s) <= TF.
  Proof using wf.
    intros I Hi. rewrite (tree_free_ssum s i I Hi).
    assert (H1 : sumf (taken_in i) (ms_pool s)
                 <= sumf (fun x => ssum THUGE (fun k => tkw (ms_frames s) (i * THUGE + k) x)) (ms_pool s)).
    { apply sumf_le_in. intros x Hx. apply In_nth_error in Hx. destruct Hx as (t & Ht). exact (taken_le_tkw s t x i I Ht). }
    rewrite <- (ssum_sumf THUGE (fun k x => tkw (ms_frames s) (i * THUGE + k) x)) in H1.
    etransitivity; [apply N.add_le_mono_l, H1|]. rewrite <- ssum_add.
    etransitivity; [apply (ssum_le _ _ (fun _ => HF)); intros k _; apply (tkw_bound s (i * THUGE + k) I)|].
    rewrite ssum_const. unfold Bitfield.TF. lia.
  Qed.
  (* a tree that contains a held block is not entirely free *)
  Lemma ssum_lt_one n (f : N -> N) B k0 : (forall k, k < n -> f k <= B) -> k0 < n -> f k0 < B -> ssum n f < n * B.
  Proof.
    intros Hle Hk Hlt.
    assert (H : ssum n (fun k => f k + b2n (k =? k0)) <= ssum n (fun _ => B)).
    { apply ssum_le. intros k Hkn. specialize (Hle k Hkn). destruct (N.eqb_spec k k0) as [->|]; cbn [b2n]; lia. }
    rewrite ssum_add, ssum_eqb, ssum_const in H. destruct (N.ltb_spec k0 n); cbn [b2n] in H; lia.
  Qed.
  Lemma lt_ntab fm f : f < fm -> f / TF < ntab g fm.
  Proof using wf.
    intros H. pose proof (TF_pos g) as PT. destruct (div_ceil_spec fm TF ltac:(lia)) as [H1 _].
    unfold ntab. apply N.div_lt_upper_bound; [lia|]. lia.
  Qed.

  (* a held block keeps the entry of its huge frame from being completely free *)
  Lemma held_entry_lt s F K : Inv g s -> In (F, K) (ms_held s) -> F < ms_frames s -> e_free (entv s (F / HF)) < HF.
  Proof using wf.
    intros I Hin HF0. pose proof (HF_pos g) as PH.
    destruct (N.eq_dec (entv s (F / HF)) MARK) as [He|He]; [rewrite He; exact PH|].
    rewrite (e_free_id _ He).
    destruct (small_decomp g wf F 0 (N.mod_1_r F)) as (E & Hr & Hi); [destruct wf; lia|].
    pose proof (K1 g wf s _ I (lt_nbf g _ _ HF0) He) as Kq.
    pose proof (gsum_ge g (fun r i => heldc (fidx g (F / HF) r i) (ms_held s)) _ _ Hr Hi) as G.
    cbv beta in G. rewrite <- E in G. fold (gheld g s (F / HF)) in G.
    pose proof (sumf_ge_in (fun b0 => b2n (cover b0 F)) (ms_held s) (F, K) Hin) as C.
    cbv beta in C. fold (heldc F (ms_held s)) in C.
    replace (cover (F, K) F) with true in C.
    2:{ symmetry. unfold cover, inb. cbn [fst snd]. apply andb_true_iff. split; [apply N.leb_le, N.le_refl|apply N.ltb_lt, N.lt_add_pos_r, pow2_pos]. }
    cbn [b2n] in C. clear - Kq G C. lia.
  Qed.

  Lemma inv_held_tree_free s F K :
    Inv g s -> In (F, K) (ms_held s) -> tree_free g (lower_of s) (F / TF) < TF.
  Proof using wf.
    intros I Hin. pose proof (THUGE_pos g) as PT. pose proof (HF_pos g) as PH.
    pose proof (proj1 (Forall_forall _ _) (I_H g s I) _ Hin) as Hok. unfold blk_ok in Hok. cbn [fst snd] in Hok.
    apply andb_true_iff in Hok. destruct Hok as [_ Hok]. apply N.leb_le in Hok.
    pose proof (pow2_pos K) as PK. assert (HF0 : F < ms_frames s) by (clear - Hok PK; lia).
    pose proof (held_entry_lt s F K I Hin HF0) as Hlt.
    rewrite (tree_free_ssum s (F / TF) I (lt_ntab _ _ HF0)).
    replace (F / TF) with (F / HF / THUGE) by (rewrite N.div_div, <- TF_eq by (clear - PT PH; lia); reflexivity).
    rewrite TF_eq, (N.mul_comm HF).
    apply (ssum_lt_one THUGE _ HF ((F / HF) mod THUGE)).
    - intros k _. exact (N.le_trans _ _ _ (N.le_add_r _ _) (tkw_bound s _ I)).
    - apply N.mod_lt. clear - PT. lia.
    - rewrite (N.mul_comm _ THUGE), <- N.div_mod by (clear - PT; lia). exact Hlt.
  Qed.
End M1.

Print Assumptions view_step.
Print Assumptions step_hold.
Print Assumptions step_result.
Print Assumptions lhold_le.
Print Assumptions inv_tree_free_le.
Print Assumptions Inv_idle_irrel.
Print Assumptions Inv_held_perm.
Print Assumptions step_held.
Print Assumptions step_frames.
Print Assumptions step_pool_other.
Print Assumptions step_pool_len.
Print Assumptions inv_tree_free_taken.
Print Assumptions inv_held_tree_free.
