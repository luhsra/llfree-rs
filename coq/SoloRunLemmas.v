(* Generic lemmas for SoloRun.v (a call run alone on the small-step machine M1 is the big-step function):
   list updates, the all-or-nothing multi-CAS (`cas_all` / `toggle_rows`) as a block fill, the narrow-lane
   bit identities of `Bitfield::toggle`, N / nat index conversions, updates of one entry or one bitfield of a
   `lower`; then the solo-run machinery: `solo_fuel`, the states `st l P H t x`, the step closure `runs`, and
   the generic all-or-nothing multi-CAS loop with rollback (`mc_run`, `mcn_run`). *)
From Coq Require Import PeanoNat ZArith ZifyN ZifyBool.
From LLF Require Import Base BitLemmas Row RowProofs Bitfield Lower Spec AbsLemmas LowerMachine ConcBase.

Lemma sr_list_ext {A} (l1 l2 : list A) : (forall j, nth_error l1 j = nth_error l2 j) -> l1 = l2.
Proof.
  revert l2; induction l1 as [|a r IH]; destruct l2 as [|b r2]; intros H; auto.
  - specialize (H O); discriminate.
  - specialize (H O); discriminate.
  - f_equal. { specialize (H O). cbn in H. congruence. }
    apply IH. intros j. apply (H (S j)).
Qed.

Lemma sr_some_lt {A} (l : list A) i x : nth_error l i = Some x -> (i < length l)%nat.
Proof. apply nth_error_some_lt. Qed.

Lemma sr_upd_upd {A} (l : list A) i x y : upd (upd l i x) i y = upd l i y.
Proof. revert i; induction l; destruct i; cbn [upd]; auto. f_equal; auto. Qed.

Lemma sr_upd_same {A} (l : list A) i x : nth_error l i = Some x -> upd l i x = l.
Proof. revert i; induction l; destruct i; cbn [upd nth_error]; intros H; try discriminate; [congruence|f_equal; auto]. Qed.

Lemma sr_upd_restore {A} (l : list A) i x y : nth_error l i = Some x -> upd (upd l i y) i x = l.
Proof. intros H. rewrite sr_upd_upd. apply sr_upd_same, H. Qed.

(* what a successful `cas_all es a n cur new` leaves: the n entries from a on set to v *)
Fixpoint fill (es : list N) (a n : nat) (v : N) : list N :=
  match n with O => es | S n' => fill (upd es a v) (S a) n' v end.

Lemma fill_length es a n v : length (fill es a n v) = length es.
Proof. revert es a; induction n; intros; cbn [fill]; auto. rewrite IHn. apply upd_length. Qed.

Lemma fill_nth es a n v i :
  nth_error (fill es a n v) i =
  if (Nat.leb a i && Nat.ltb i (a + n) && Nat.ltb i (length es))%bool then Some v else nth_error es i.
Proof.
  revert es a; induction n; intros es a; cbn [fill].
  - destruct (Nat.leb_spec a i), (Nat.ltb_spec i (a + 0)); cbn [andb]; auto; lia.
  - rewrite IHn, upd_length, nth_error_upd.
    destruct (Nat.eqb_spec a i) as [<-|Hne].
    + destruct (Nat.ltb_spec a (length es)).
      * destruct (Nat.leb_spec (S a) a), (Nat.leb_spec a a), (Nat.ltb_spec a (a + S n)); cbn [andb]; auto; lia.
      * rewrite !Bool.andb_false_r. symmetry. apply nth_error_None. lia.
    + destruct (Nat.leb_spec (S a) i), (Nat.leb_spec a i), (Nat.ltb_spec i (S a + n)), (Nat.ltb_spec i (a + S n));
        cbn [andb]; auto; lia.
Qed.

Lemma fill_in es a n v i : (a <= i < a + n)%nat -> (i < length es)%nat -> nth_error (fill es a n v) i = Some v.
Proof.
  intros H1 H2. rewrite fill_nth.
  destruct (Nat.leb_spec a i), (Nat.ltb_spec i (a + n)), (Nat.ltb_spec i (length es)); cbn [andb]; auto; lia.
Qed.
Lemma fill_out es a n v i : (i < a \/ a + n <= i)%nat -> nth_error (fill es a n v) i = nth_error es i.
Proof.
  intros H. rewrite fill_nth.
  destruct (Nat.leb_spec a i), (Nat.ltb_spec i (a + n)); cbn [andb]; auto; lia.
Qed.

(* one more entry at the top *)
Lemma fill_snoc es a n v : upd (fill es a n v) (a + n) v = fill es a (S n) v.
Proof.
  apply sr_list_ext. intros j. rewrite nth_error_upd, !fill_nth, fill_length.
  destruct (Nat.eqb_spec (a + n) j) as [<-|Hne].
  - destruct (Nat.ltb_spec (a + n) (length es)), (Nat.leb_spec a (a + n)), (Nat.ltb_spec (a + n) (a + S n));
      cbn [andb]; auto; try lia.
    symmetry. apply nth_error_None. lia.
  - destruct (Nat.leb_spec a j), (Nat.ltb_spec j (a + n)), (Nat.ltb_spec j (a + S n)); cbn [andb]; auto; lia.
Qed.

(* undoing the top entry of a filled block whose original entries were `cur` *)
Lemma fill_unsnoc es a n new cur :
  nth_error es (a + n) = Some cur -> upd (fill es a (S n) new) (a + n) cur = fill es a n new.
Proof.
  intros Hc. apply sr_list_ext. intros j. rewrite nth_error_upd, !fill_nth, fill_length.
  pose proof (nth_error_some_lt _ _ _ Hc).
  destruct (Nat.eqb_spec (a + n) j) as [<-|Hne].
  - destruct (Nat.ltb_spec (a + n) (length es)); try lia.
    destruct (Nat.ltb_spec (a + n) (a + n)); try lia. rewrite Bool.andb_false_r. cbn [andb]. auto.
  - destruct (Nat.leb_spec a j), (Nat.ltb_spec j (a + n)), (Nat.ltb_spec j (a + S n)); cbn [andb]; auto; lia.
Qed.

Lemma fill_0 es a v : fill es a 0 v = es. Proof. reflexivity. Qed.

(* a block of entries all equal to v *)
Definition blk_is (es : list N) (a n : nat) (v : N) : Prop := forall i, (a <= i < a + n)%nat -> nth_error es i = Some v.

Lemma cas_all_fill es a n cur new :
  blk_is es a n cur -> cas_all es a n cur new = Some (fill es a n new).
Proof.
  revert es a; induction n; intros es a H; cbn [cas_all fill]; auto.
  rewrite (H a) by lia. rewrite N.eqb_refl. apply IHn.
  intros i Hi. rewrite nth_error_upd_other by lia. apply H. lia.
Qed.

Lemma cas_all_inv es a n cur new es' : cas_all es a n cur new = Some es' -> es' = fill es a n new.
Proof.
  revert es a; induction n; intros es a; cbn [cas_all fill]; [congruence|].
  destruct (nth_error es a); [|discriminate]. destruct (_ =? _); [|discriminate]. apply IHn.
Qed.
Lemma Forall_fill (Q : N -> Prop) es a n v : Forall Q es -> Q v -> Forall Q (fill es a n v).
Proof. revert es a; induction n; intros es a HF Hv; cbn [fill]; auto. apply IHn; auto. apply Forall_upd; auto. Qed.

(* cas_all fails at the first entry that differs *)
Lemma cas_all_fail es a n cur new q e :
  blk_is es a q cur -> (q < n)%nat -> nth_error es (a + q) = Some e -> e <> cur -> cas_all es a n cur new = None.
Proof.
  revert es a q; induction n; intros es a q H Hq He Hne; [lia|]. cbn [cas_all].
  destruct q.
  - rewrite Nat.add_0_r in He. rewrite He. destruct (N.eqb_spec e cur); congruence.
  - rewrite (H a) by lia. rewrite N.eqb_refl. apply (IHn _ _ q).
    + intros i Hi. rewrite nth_error_upd_other by lia. apply H. lia.
    + lia.
    + rewrite nth_error_upd_other by lia. rewrite <- He. f_equal. lia.
    + exact Hne.
Qed.

Lemma toggle_rows_cas rows r n expected :
  toggle_rows rows r n expected =
  cas_all rows r n (if expected then MAX64 else 0) (if expected then 0 else MAX64).
Proof. revert rows r; induction n; intros; cbn [toggle_rows cas_all]; auto.
  destruct (nth_error rows r); auto. destruct (_ =? _); auto. Qed.

Lemma sr_nth_skipn {A} (l : list A) a i : nth_error (skipn a l) i = nth_error l (a + i).
Proof. revert l; induction a; intros l; [reflexivity|]. destruct l; cbn [skipn]; [destruct i; reflexivity|]. apply IHa. Qed.

Lemma forallb_firstn (f : N -> bool) l n : (n <= length l)%nat ->
  forallb f (firstn n l) = true <-> (forall i, (i < n)%nat -> exists v, nth_error l i = Some v /\ f v = true).
Proof.
  revert l; induction n; intros l Hl.
  - cbn [firstn forallb]. split; auto. intros _ i Hi. lia.
  - destruct l as [|x r]; [cbn [length] in Hl; lia|]. cbn [length] in Hl.
    cbn [firstn forallb]. rewrite Bool.andb_true_iff, (IHn r) by lia. split.
    + intros (Hf & Hr) i Hi. destruct i; [cbn [nth_error]; eauto|]. apply Hr. lia.
    + intros H. split.
      * destruct (H O) as (v & Hv & Hfv); [lia|]. cbn [nth_error] in Hv. congruence.
      * intros i Hi. apply (H (S i)). lia.
Qed.

Lemma forallb_block (f : N -> bool) rows a n : (a + n <= length rows)%nat ->
  forallb f (firstn n (skipn a rows)) = true <-> (forall i, (a <= i < a + n)%nat -> exists v, nth_error rows i = Some v /\ f v = true).
Proof.
  intros Hl. rewrite forallb_firstn by (rewrite skipn_length; lia). split.
  - intros H i Hi. destruct (H (i - a)%nat) as (v & Hv & Hf); [lia|]. rewrite sr_nth_skipn in Hv.
    replace (a + (i - a))%nat with i in Hv by lia. eauto.
  - intros H i Hi. rewrite sr_nth_skipn. apply H. lia.
Qed.

(* `Bitfield::toggle` on a lane narrower than the row: the machine tests the shifted lane, the big-step function the mask *)
Lemma lane_shift_back cur a off :
  N.land cur (N.shiftl a off) = N.shiftl (N.land (N.shiftr cur off) a) off.
Proof.
  apply N.bits_inj. intros i. rewrite N.land_spec.
  destruct (N.lt_ge_cases i off) as [Hlt|Hge].
  - rewrite !N.shiftl_spec_low by assumption. apply Bool.andb_false_r.
  - rewrite !N.shiftl_spec_high' by assumption. rewrite N.land_spec, N.shiftr_spec'. f_equal. f_equal. lia.
Qed.

Lemma shiftl_inj x y off : N.shiftl x off = N.shiftl y off -> x = y.
Proof. intros H. pose proof (N.shiftr_shiftl_l x off off (N.le_refl _)) as Hx.
  pose proof (N.shiftr_shiftl_l y off off (N.le_refl _)) as Hy.
  rewrite N.sub_diag, N.shiftl_0_r in Hx, Hy. congruence. Qed.

Lemma shiftl_eq_0 x off : N.shiftl x off = 0 -> x = 0.
Proof. intros H. apply (shiftl_inj x 0 off). rewrite N.shiftl_0_l. exact H. Qed.

Lemma lane_test_zero cur w off :
  (N.land (N.shiftr cur off) (ones w) =? 0) = (N.land cur (mask64 w off) =? 0).
Proof.
  unfold mask64. rewrite lane_shift_back.
  destruct (N.eqb_spec (N.land (N.shiftr cur off) (ones w)) 0) as [->|Hn].
  - rewrite N.shiftl_0_l. reflexivity.
  - symmetry. apply N.eqb_neq. intros H. apply Hn. eapply shiftl_eq_0, H.
Qed.

Lemma lane_test_ones cur w off :
  (N.land (N.shiftr cur off) (ones w) =? ones w) = (N.land cur (mask64 w off) =? mask64 w off).
Proof.
  unfold mask64. rewrite lane_shift_back.
  destruct (N.eqb_spec (N.land (N.shiftr cur off) (ones w)) (ones w)) as [->|Hn].
  - symmetry. apply N.eqb_refl.
  - symmetry. apply N.eqb_neq. intros H. apply Hn. eapply shiftl_inj, H.
Qed.

Lemma lxor_clear cur m : cur < W64 -> N.land cur m = m -> N.lxor cur m = N.land cur (not64 m).
Proof.
  intros Hc Hm. apply N.bits_inj. intros i. unfold not64. rewrite N.lxor_spec, N.land_spec, N.lxor_spec.
  assert (Hi : N.testbit m i = true -> N.testbit cur i = true).
  { intros H. rewrite <- Hm, N.land_spec in H. apply Bool.andb_true_iff in H. tauto. }
  destruct (N.lt_ge_cases i 64) as [Hlt|Hge].
  - rewrite MAX64_ones, N.ones_spec_low by assumption.
    destruct (N.testbit m i), (N.testbit cur i); auto. discriminate Hi; auto.
  - rewrite W64_pow in Hc. rewrite (testbit_high cur 64 i) in * by assumption.
    destruct (N.testbit m i); auto. discriminate Hi; auto.
Qed.

Lemma sr_pow2_le a b : (a <= b)%nat -> pow2 a <= pow2 b.
Proof. apply pow2_le. Qed.

Section Geom.
  Variable g : geom.
  Hypothesis wf : wf_geom g.
  Notation HF := (HF g).
  Notation ROWS := (ROWS g).

  Lemma sr_HF_64 : HF = ROWS * 64.
  Proof. rewrite (HF_64 g wf). apply N.mul_comm. Qed.
End Geom.

(* at most n steps of thread t, stopping as soon as it is no longer `TRun` (returned or panicked); `c` matters only
   for the first step, which starts the call on the idle thread.  Progress.solo is the unbounded-restart variant. *)
Fixpoint solo_fuel (g : geom) (n : nat) (s : mstate) (t : nat) (c : call) : mstate :=
  match n with
  | O => s
  | S n' => let s' := fst (mstep g s t c) in
            match nth_error (ms_pool s') t with
            | Some (TRun _ _) => solo_fuel g n' s' t c
            | _ => s'
            end
  end.

Definition mk (l : lower) (P : list thr) (H : list (N * nat)) : mstate :=
  {| ms_frames := frames l; ms_ents := ents l; ms_bfs := bfs l; ms_pool := P; ms_held := H |}.

(* the state with memory l in which thread t is x *)
Definition st (l : lower) (P : list thr) (H : list (N * nat)) (t : nat) (x : thr) : mstate :=
  mk l (upd P t x) H.

Definition fin (c : call) (l : lower) (P : list thr) (H : list (N * nat)) (t : nat) (r : res N) : mstate :=
  st l P (match c, r with
          | CGet _ o, Ok f => (f, o) :: H
          | CGetAt _ o, Ok f => (f, o) :: H
          | _, _ => H
          end) t (TIdle (Some r)).

Lemma nn_add_nat x q : nn (x + N.of_nat q) = (nn x + q)%nat. Proof. unfold nn. lia. Qed.
Lemma ltb_succ_nat q n : (N.of_nat q + 1 <? n) = Nat.ltb (S q) (nn n).
Proof. unfold nn. destruct (N.ltb_spec (N.of_nat q + 1) n), (Nat.ltb_spec (S q) (N.to_nat n)); auto; lia. Qed.
Lemma of_nat_S_eqb q : (N.of_nat (S q) =? 0) = false. Proof. apply N.eqb_neq. lia. Qed.
Lemma of_nat_S_pred q : N.of_nat (S q) - 1 = N.of_nat q. Proof. lia. Qed.
Lemma of_nat_S_add q : N.of_nat q + 1 = N.of_nat (S q). Proof. lia. Qed.
Lemma of_nat_mul a b : N.of_nat (a * b) = N.of_nat a * N.of_nat b. Proof. lia. Qed.
Lemma nn_mul_add a b q : nn (N.of_nat a * N.of_nat b + N.of_nat q) = (a * b + q)%nat. Proof. unfold nn. lia. Qed.
Lemma nn_pow2 k : nn (pow2 k) = Nat.pow 2 k.
Proof. rewrite pow2_of_nat. apply Nat2N.id. Qed.


(* one entry, one bitfield, one row of a `lower` *)
Lemma ent_set_ent l h e v : ent l h = Some e -> ent (set_ent l h v) h = Some v.
Proof. intros E. unfold ent, set_ent in *. cbn [ents]. apply nth_error_upd_same. eapply nth_error_some_lt, E. Qed.
Lemma set_ent_set_ent l h a b : set_ent (set_ent l h a) h b = set_ent l h b.
Proof. unfold set_ent. cbn [frames bfs ents]. rewrite sr_upd_upd. reflexivity. Qed.
Lemma set_ent_id l h e : ent l h = Some e -> set_ent l h e = l.
Proof. intros E. destruct l as [f b es]. unfold set_ent, ent in *. cbn [frames bfs ents] in *. rewrite sr_upd_same; auto. Qed.

Definition row (l : lower) (h r : N) : option N :=
  match bf l h with Some rows => nth_error rows (nn r) | None => None end.
Definition with_ents (l : lower) (es : list N) : lower := {| frames := frames l; bfs := bfs l; ents := es |}.
Lemma with_ents_id l : with_ents l (ents l) = l. Proof. destruct l; reflexivity. Qed.
Lemma set_bf_id l h rows : bf l h = Some rows -> set_bf l h rows = l.
Proof. intros E. destruct l as [f b e]. unfold set_bf, bf in *. cbn [frames Lower.bfs ents] in *. rewrite sr_upd_same; auto. Qed.
Lemma bf_set_bf l h rows rows' : bf l h = Some rows -> bf (set_bf l h rows') h = Some rows'.
Proof. intros E. unfold bf, set_bf in *. cbn [Lower.bfs]. apply nth_error_upd_same. eapply nth_error_some_lt, E. Qed.
Lemma set_bf_set_bf l h a b : set_bf (set_bf l h a) h b = set_bf l h b.
Proof. unfold set_bf. cbn [frames Lower.bfs ents]. rewrite sr_upd_upd. reflexivity. Qed.
Lemma row_set_bf l h rows rs r : bf l h = Some rows -> row (set_bf l h rs) h r = nth_error rs (nn r).
Proof. intros E. unfold row. rewrite (bf_set_bf l h rows rs E). reflexivity. Qed.


Section Solo.
  Variable g : geom.
  Hypothesis wf : wf_geom g.
  Variable P : list thr.
  Variable t : nat.
  Hypothesis Ht : (t < length P)%nat.
  Variable c0 : call.

  Lemma pool_st l H x : nth_error (ms_pool (st l P H t x)) t = Some x.
  Proof. cbn [st mk ms_pool]. apply nth_error_upd_same, Ht. Qed.
  Lemma goto_st l H x c p : goto (st l P H t x) t c p = st l P H t (TRun c p).
  Proof. unfold goto, set_thr, st, mk. cbn [ms_frames ms_ents ms_bfs ms_pool ms_held]. rewrite sr_upd_upd. reflexivity. Qed.
  Lemma crash_st l H x c y : crash (st l P H t x) t c y = st l P H t (TPanic y c).
  Proof. unfold crash, set_thr, st, mk. cbn [ms_frames ms_ents ms_bfs ms_pool ms_held]. rewrite sr_upd_upd. reflexivity. Qed.
  Lemma finish_st l H x c r : finish (st l P H t x) t c r = fin c l P H t r.
  Proof. unfold finish, fin, set_held, set_thr, st, mk. cbn [ms_frames ms_ents ms_bfs ms_pool ms_held]. rewrite sr_upd_upd.
    destruct c, r; reflexivity. Qed.
  Lemma rd_ent_st l H x h : rd_ent (st l P H t x) h = ent l h.
  Proof. reflexivity. Qed.
  Lemma wr_ent_st l H x h v : wr_ent (st l P H t x) h v = st (set_ent l h v) P H t x.
  Proof. reflexivity. Qed.
  Lemma rd_row_st l H x h r : rd_row (st l P H t x) h r = row l h r.
  Proof. reflexivity. Qed.
  Lemma wr_row_st l H x h r v rows : bf l h = Some rows ->
    wr_row (st l P H t x) h r v = st (set_bf l h (upd rows (nn r) v)) P H t x.
  Proof. intros E. unfold wr_row, st, mk. cbn [ms_bfs]. unfold bf in E. rewrite E. reflexivity. Qed.

  (* thread t moves, nobody else does; `c0` is irrelevant once the thread runs *)
  Inductive runs : mstate -> mstate -> Prop :=
  | runs_refl s : runs s s
  | runs_step s c p s' : nth_error (ms_pool s) t = Some (TRun c p) -> runs (fst (mstep g s t c0)) s' -> runs s s'.

  Lemma runs_trans a b c : runs a b -> runs b c -> runs a c.
  Proof. induction 1; auto. intros. eapply runs_step; eauto. Qed.
  Lemma runs_step1 s c p s1 s' : nth_error (ms_pool s) t = Some (TRun c p) -> fst (mstep g s t c0) = s1 -> runs s1 s' -> runs s s'.
  Proof. intros. subst. eapply runs_step; eauto. Qed.
  Lemma runs_st l H c p s1 s' : fst (mstep g (st l P H t (TRun c p)) t c0) = s1 -> runs s1 s' ->
    runs (st l P H t (TRun c p)) s'.
  Proof. apply (runs_step1 _ c p), pool_st. Qed.

  (* `Post c H (r, l') s'`: s' is the state a call c with big-step outcome (r, l') leaves (on Panic only the thread is
     specified); it is SoloRun.solo_post.  `Runs c H s rl`: the thread runs from s to such a state. *)
  Definition Post (c : call) (H : list (N * nat)) (rl : res N * lower) (s' : mstate) : Prop :=
    match fst rl with
    | Panic x => ms_pool s' = upd P t (TPanic x c)
    | r => s' = fin c (snd rl) P H t r
    end.
  Definition Runs (c : call) (H : list (N * nat)) (s : mstate) (rl : res N * lower) : Prop :=
    exists s', runs s s' /\ Post c H rl s'.

  Lemma Runs_runs c H s s1 rl : runs s s1 -> Runs c H s1 rl -> Runs c H s rl.
  Proof. intros R (s' & R' & Q). exists s'. split; auto. eapply runs_trans; eauto. Qed.
  Lemma Runs_st c H l H0 c' p s1 rl : fst (mstep g (st l P H0 t (TRun c' p)) t c0) = s1 -> Runs c H s1 rl ->
    Runs c H (st l P H0 t (TRun c' p)) rl.
  Proof. intros E (s' & R' & Q). exists s'. split; [eapply runs_st; eauto|exact Q]. Qed.
  Lemma Runs_ok c H l f : Runs c H (fin c l P H t (Ok f)) (Ok f, l).
  Proof. eexists. split; [apply runs_refl|]. reflexivity. Qed.
  Lemma Runs_err c H l e : Runs c H (fin c l P H t (Err e)) (Err e, l).
  Proof. eexists. split; [apply runs_refl|]. reflexivity. Qed.
  Lemma Runs_panic c H l l' x : Runs c H (st l P H t (TPanic x c)) (Panic x, l').
  Proof. eexists. split; [apply runs_refl|]. reflexivity. Qed.

  (* the generic all-or-nothing multi-CAS loop with rollback over the cells a .. a+n-1 of a list `es`:
     `F q es` is the state about to compare-exchange cell a+q (cells below it already new), `U q es` the state about
     to restore cell a+q after a failure, `Sx es` the state after the last success, `Fl es` the state after the
     rollback is complete *)
  Section MultiCas.
    Variables (a n : nat) (cur new : N).
    Variables (F U : nat -> list N -> mstate) (Sx Fl : list N -> mstate).
    Hypothesis F_run : forall q es, exists c p, nth_error (ms_pool (F q es)) t = Some (TRun c p).
    Hypothesis U_run : forall q es, exists c p, nth_error (ms_pool (U q es)) t = Some (TRun c p).
    Hypothesis F_step : forall q es e, (q < n)%nat -> nth_error es (a + q) = Some e ->
      fst (mstep g (F q es) t c0) =
      if e =? cur then (if Nat.ltb (S q) n then F (S q) (upd es (a + q) new) else Sx (upd es (a + q) new))
      else match q with O => Fl es | S q' => U q' es end.
    Hypothesis U_step : forall q es, nth_error es (a + q) = Some new ->
      fst (mstep g (U q es) t c0) =
      match q with O => Fl (upd es (a + q) cur) | S q' => U q' (upd es (a + q) cur) end.

    (* rolling back q filled entries, from the top *)
    Lemma mc_undo es : forall q, (a + q <= length es)%nat -> blk_is es a q cur ->
      runs (match q with O => Fl es | S q' => U q' (fill es a q new) end) (Fl es).
    Proof.
      induction q as [|q IH]; intros Hl Hb; [apply runs_refl|].
      destruct (U_run q (fill es a (S q) new)) as (c & p & E).
      eapply runs_step1; [exact E|rewrite U_step by (apply fill_in; lia); reflexivity|].
      rewrite (fill_unsnoc es a q) by (apply Hb; lia).
      destruct q; apply IH; try lia; intros i Hi; apply Hb; lia.
    Qed.

    (* the forward loop from entry q on; at q = n it has succeeded *)
    Lemma mc_fwd es : (a + n <= length es)%nat -> forall m q, (q + m = n)%nat -> blk_is es a q cur ->
      runs (if Nat.ltb q n then F q (fill es a q new) else Sx (fill es a n new))
           (match cas_all es a n cur new with Some es' => Sx es' | None => Fl es end).
    Proof.
      intros Hl. induction m; intros q Hq Hb.
      - destruct (Nat.ltb_spec q n); [lia|].
        rewrite cas_all_fill by (replace n with q by lia; exact Hb). apply runs_refl.
      - destruct (Nat.ltb_spec q n); [|lia].
        destruct (F_run q (fill es a q new)) as (c & p & E).
        destruct (nth_error es (a + q)) as [e|] eqn:He; [|apply nth_error_None in He; lia].
        eapply runs_step1; [exact E|rewrite (F_step q _ e) by (try rewrite fill_out by lia; auto; lia); reflexivity|].
        destruct (N.eqb_spec e cur) as [->|Hne].
        + rewrite fill_snoc. specialize (IHm (S q) ltac:(lia)).
          destruct (Nat.ltb_spec (S q) n).
          * apply IHm. intros i Hi. destruct (Nat.eq_dec i (a + q)) as [->|]; auto. apply Hb. lia.
          * replace (fill es a (S q) new) with (fill es a n new) by (f_equal; lia).
            apply IHm. intros i Hi. destruct (Nat.eq_dec i (a + q)) as [->|]; auto. apply Hb. lia.
        + rewrite (cas_all_fail es a n cur new q e) by (auto; lia).
          destruct q; [apply (mc_undo es O)|apply (mc_undo es (S q))]; auto; lia.
    Qed.

    Lemma mc_run es : (a + n <= length es)%nat -> (0 < n)%nat ->
      runs (F O es) (match cas_all es a n cur new with Some es' => Sx es' | None => Fl es end).
    Proof.
      intros Hl Hn. pose proof (mc_fwd es Hl n O eq_refl) as G.
      rewrite (proj2 (Nat.ltb_lt 0 n) Hn) in G. apply G. intros i Hi. lia.
    Qed.
  End MultiCas.

  (* the same loop as the machine runs it: indices in N, program points `pF q` (forward) and `pU q` (undo);
     the cells are the list `cs` of the memory `M cs` *)
  Section MultiCasN.
    Variables (c : call) (H : list (N * nat)) (M : list N -> lower) (pF pU : N -> pc) (ok fl : lower -> mstate).
    Variables (a n cur new : N).
    Hypothesis F_step : forall q cs e, nth_error cs (nn (a + q)) = Some e ->
      fst (mstep g (st (M cs) P H t (TRun c (pF q))) t c0) =
      if e =? cur
      then (if q + 1 <? n then st (M (upd cs (nn (a + q)) new)) P H t (TRun c (pF (q + 1)))
            else ok (M (upd cs (nn (a + q)) new)))
      else if q =? 0 then fl (M cs) else st (M cs) P H t (TRun c (pU (q - 1))).
    Hypothesis U_step : forall q cs, nth_error cs (nn (a + q)) = Some new ->
      fst (mstep g (st (M cs) P H t (TRun c (pU q))) t c0) =
      if q =? 0 then fl (M (upd cs (nn (a + q)) cur))
      else st (M (upd cs (nn (a + q)) cur)) P H t (TRun c (pU (q - 1))).

    Lemma mcn_run cs : (nn a + nn n <= length cs)%nat -> 0 < n ->
      runs (st (M cs) P H t (TRun c (pF 0)))
           (match cas_all cs (nn a) (nn n) cur new with Some cs' => ok (M cs') | None => fl (M cs) end).
    Proof.
      intros Hl Hn.
      apply (mc_run (nn a) (nn n) cur new
               (fun q cs => st (M cs) P H t (TRun c (pF (N.of_nat q))))
               (fun q cs => st (M cs) P H t (TRun c (pU (N.of_nat q))))
               (fun cs => ok (M cs)) (fun cs => fl (M cs))); auto.
      - intros q cs'. do 2 eexists. apply pool_st.
      - intros q cs'. do 2 eexists. apply pool_st.
      - intros q cs' e Hq He. rewrite (F_step _ _ e) by (rewrite nn_add_nat; exact He).
        rewrite nn_add_nat, ltb_succ_nat, of_nat_S_add.
        destruct q; [reflexivity|]. rewrite of_nat_S_eqb, of_nat_S_pred. reflexivity.
      - intros q cs' He. rewrite U_step by (rewrite nn_add_nat; exact He). rewrite nn_add_nat.
        destruct q; [reflexivity|]. rewrite of_nat_S_eqb, of_nat_S_pred. reflexivity.
      - unfold nn. lia.
    Qed.
  End MultiCasN.
End Solo.
