(* The safety theorem of the lower machine (C01 / C03 part L) and its corollaries. *)
From Coq Require Import PeanoNat.
From LLF Require Import Base BitLemmas Row RowProofs Bitfield Lower Spec LowerMachine
  ConcBase ConcInvDef ConcInvGeom ConcInvStep ConcInvTac ConcInvAt ConcInvHuge ConcInv ConcInvInit.

Section Props.
  Variable g : geom.
  Hypothesis wf : wf_geom g.
  Notation HF := (HF g).
  Notation ROWS := (ROWS g).

  (* no managed frame is covered by two held blocks *)
  Lemma inv_heldc_le1 s : Inv g s -> forall x, x < ms_frames s -> heldc x (ms_held s) <= 1.
  Proof.
    intros I x Hx.
    destruct (small_decomp g wf x 0 (N.mod_1_r x)) as (E & Hr & Hi); [destruct wf; lia|].
    pose proof (lt_nbf g (ms_frames s) x Hx) as Hh. rewrite E.
    (* from here on the coordinates are variables: no division left for lia to look at *)
    clear E. revert Hh Hr Hi. generalize (x / HF), ((x / 64) mod ROWS), (x mod 64). clear x Hx. intros h r i Hh Hr Hi.
    pose proof (I_A g s I _ _ _ Hh Hr Hi) as A. unfold isMark in A.
    destruct (N.eqb_spec (entv s h) MARK) as [He|He]; cbn [b2n] in A.
    - pose proof (I_B g s I _ Hh He _ _ Hr Hi). lia.
    - lia.
  Qed.

  Lemma pairwise_from_heldc fm held : Forall (fun b => blk_ok fm b = true) held ->
    (forall x, x < fm -> heldc x held <= 1) -> pairwise_disjoint held = true.
  Proof.
    induction held as [|a r IH]; intros Hok Hle; [reflexivity|].
    inversion Hok as [|? ? Ha Hr]; subst. cbn [pairwise_disjoint]. apply andb_true_iff. split.
    - apply forallb_forall. intros b Hb. pose proof (proj1 (Forall_forall _ _) Hr b Hb) as Hbk. cbn beta in Hbk.
      unfold disjoint. destruct ((fst a + pow2 (snd a) <=? fst b) || (fst b + pow2 (snd b) <=? fst a)) eqn:Ed; [reflexivity|exfalso].
      unfold blk_ok in Ha, Hbk. pose proof (pow2_pos (snd a)). pose proof (pow2_pos (snd b)).
      set (x := N.max (fst a) (fst b)). assert (Hx : x < fm) by (unfold x; lia).
      specialize (Hle x Hx). rewrite heldc_cons in Hle.
      pose proof (sumf_ge_in (fun b0 => b2n (cover b0 x)) r b Hb) as Hg. cbn beta in Hg. fold (heldc x r) in Hg.
      assert (Ca : cover a x = true) by (unfold cover, inb, x; lia).
      assert (Cb : cover b x = true) by (unfold cover, inb, x; lia).
      rewrite Ca in Hle. rewrite Cb in Hg. cbn [b2n] in *. lia.
    - apply IH; [exact Hr|]. intros x Hx. specialize (Hle x Hx). rewrite heldc_cons in Hle. lia.
  Qed.

  Lemma inv_held_ok s : Inv g s -> held_ok s = true.
  Proof.
    intros I. unfold held_ok. apply andb_true_iff. split.
    - apply forallb_forall. intros b Hb. exact (proj1 (Forall_forall _ _) (I_H g s I) b Hb).
    - apply (pairwise_from_heldc (ms_frames s)); [apply I|apply inv_heldc_le1; exact I].
  Qed.

  Lemma inv_panics s : Inv g s -> forall x, In x (panicked s) -> x = SExceedingRetries.
  Proof.
    intros I x Hx. unfold panicked in Hx. apply in_flat_map in Hx. destruct Hx as (th & Hth & Hin).
    pose proof (sumf_zero _ _ (I_E g s I) th Hth) as Hb.
    destruct th as [|c p|y c]; cbn in Hin; try tauto. destruct Hin as [<-|[]].
    destruct y; cbn in Hb; try discriminate. reflexivity.
  Qed.
End Props.

Theorem conc_inv : forall g l held0 n sch, wf_geom g -> LowerInv g l -> HeldInit g l held0 ->
  Inv g (mrun g sch (boot l held0 n)).
Proof. intros g l held0 n sch wf HL HI. apply run_inv; [exact wf|]. apply boot_inv; assumption. Qed.

(* C01 (part): under every schedule of any number of threads, the blocks handed out and not yet freed are
   pairwise disjoint, aligned and in range.  C03 part L: the only reachable panic is lower.rs:478
   "Exceeding retries" (finding D13). *)
Theorem conc_safe : forall g l held0 n sch, wf_geom g -> LowerInv g l -> HeldInit g l held0 ->
  let s := mrun g sch (boot l held0 n) in
  held_ok s = true /\ (forall x, In x (panicked s) -> x = SExceedingRetries).
Proof.
  intros g l held0 n sch wf HL HI s. pose proof (conc_inv g l held0 n sch wf HL HI : Inv g s) as I.
  split; [apply (inv_held_ok g wf s I)|apply (inv_panics g s I)].
Qed.
Print Assumptions conc_safe.

(* C03: a free of a held block never fails *)
Section PutErr.
  Variable g : geom.
  Hypothesis wf : wf_geom g.

  (* syntactically: when a running put becomes idle with an error, the step changed nothing but the thread
     (by cases over the code of every pc: a branch either does not end in Idle (Err _) or leaves the memory alone) *)
  Lemma put_err_unchanged s t f k p c0 e :
    nth_error (ms_pool s) t = Some (TRun (CPut f k) p) ->
    lpc g (ms_frames s) (CPut f k) p = true ->
    nth_error (ms_pool (fst (mstep g s t c0))) t = Some (TIdle (Some (Err e))) ->
    fst (mstep g s t c0) = set_thr s t (TIdle (Some (Err e))).
  Proof.
    intros Ht L H. unfold mstep in *. rewrite Ht in *. cbv beta iota zeta in *.
    destruct p; cbn [lpc is_get is_getat is_put andb negb] in L; try discriminate L; try (rewrite ?andb_false_r in L; discriminate L).
    all: unfold next_group, toggle_ok, toggle_fail, goto, crash, finish in *.
    all: repeat match type of H with
         | context [match ?x with _ => _ end] => destruct x eqn:?
         end.
    all: cbn [fst ms_pool set_thr set_held] in H; try (apply upd_same_inv in H; try discriminate H).
    all: try (inversion H; subst; reflexivity).
    all: exfalso; cbn [not_xput] in L; rewrite ?andb_false_r in L; discriminate L.
  Qed.

  Notation HF := (HF g).
  Notation ROWS := (ROWS g).

  (* semantically: a thread whose disappearance (alone) keeps the invariant owns nothing and has nothing pending *)
  Lemma vanish_trivial s t x0 l : Inv g s -> Inv g (set_thr s t (TIdle l)) -> nth_error (ms_pool s) t = Some x0 ->
    (forall h r i, h < nbf g (ms_frames s) -> r < ROWS -> i < 64 -> fr g h r i x0 + tr g h r x0 = 0) /\
    (forall h, h < nbf g (ms_frames s) -> entv s h <> MARK -> pend g h x0 = 64 * trcount g h x0).
  Proof.
    intros I I' Ht. pose proof (fun f => sumf_upd f (ms_pool s) t (TIdle l) x0 Ht) as U. split.
    - intros h r i Hh Hr Hi. pose proof (I_A g s I h r i Hh Hr Hi) as A. pose proof (I_A g _ I' h r i Hh Hr Hi) as A'.
      cbn [ms_frames ms_pool ms_held set_thr] in A'. change (bit (set_thr s t (TIdle l)) h r i) with (bit s h r i) in A'.
      change (entv (set_thr s t (TIdle l)) h) with (entv s h) in A'.
      pose proof (U (fr g h r i)) as U1. pose proof (U (tr g h r)) as U2.
      rewrite (QT_fr g _ (quiet_idle g l)) in U1. rewrite (QT_tr g _ (quiet_idle g l)) in U2. lia.
    - intros h Hh He. pose proof (I_C g s I h Hh He) as C. pose proof (I_C g _ I' h Hh He) as C'.
      cbn [ms_frames ms_pool ms_held set_thr] in C'. change (zeros (set_thr s t (TIdle l)) h) with (zeros s h) in C'.
      change (entv (set_thr s t (TIdle l)) h) with (entv s h) in C'.
      pose proof (U (pend g h)) as U1. pose proof (U (trcount g h)) as U2.
      rewrite (QT_pend g _ (quiet_idle g l)) in U1. rewrite (QT_trc g _ (quiet_idle g l)) in U2. lia.
  Qed.

  (* what a put holds, read off its ghost: a nonempty part of its block, or the whole block pending at its huge frame *)
  Lemma put_ghost fm c p : cwf g fm c = true -> is_put c = true -> lpc g fm c p = true ->
    let G := gpc g c p in
    (0 < own_n G /\ c_frame c <= own_lo G /\ own_lo G + own_n G <= c_frame c + c_n c) \/
    (small g c = true /\ nd G = true /\ g_h G = c_huge g c /\ 0 < p_n G /\ tr_n G = 0).
  Proof.
    intros Hc Hp L. pose proof (c_n_pos c) as Hn. pose proof (is_put_not_get c Hp) as Hg.
    assert (Hga : is_getat c = false) by (destruct c; try discriminate; reflexivity).
    destruct p; cbn [lpc] in L; rewrite ?Hg, ?Hga, ?Hp in L; cbn [andb negb] in L; rewrite ?andb_false_r in L; try discriminate L;
      cbn [gpc]; rewrite ?Hp; try (left; cbn; clear - Hn; lia);
      try (destruct x; cbn [ctx_ok not_xput] in L; rewrite ?Hga, ?andb_false_r in L; try discriminate L; left; cbn; clear - Hn; lia).
    - left. destruct (huge_call_aligned_geom g fm c Hc ltac:(lia) Hg) as [_ En]. cbn [own_lo own_n ghuge].
      pose proof (mul_succ_fit HF q (c_hnum g c) ltac:(lia)). pose proof (HF_pos g). lia.
    - (* TW in the context put *) destruct x; cbn [ctx_ok] in L; rewrite ?Hga in L; try discriminate L; left; [|cbn; lia].
      unfold t_nrows in L. cbn [t_order] in L.
      assert (Hs : small g c = true /\ (7 <= c_order c)%nat /\ q < pow2 (c_order c - 6)) by lia.
      destruct (toggle_rows_fit g wf fm c Hc (proj1 Hs) Hg (proj1 (proj2 Hs))) as (_ & En & _). cbn [own_lo own_n gtoggle gput]. lia.
    - right. split; [lia|]. cbn. repeat split; lia.
    - right. split; [lia|]. cbn. repeat split; lia.
  Qed.

  (* every running put owns a frame of a bitfield, or has frames pending under a counter *)
  Lemma put_owns s t f k p : Inv g s -> nth_error (ms_pool s) t = Some (TRun (CPut f k) p) ->
    (exists h r i, h < nbf g (ms_frames s) /\ r < ROWS /\ i < 64 /\ fr g h r i (TRun (CPut f k) p) = 1) \/
    (exists h, h < nbf g (ms_frames s) /\ entv s h <> MARK /\ 0 < pend g h (TRun (CPut f k) p) /\ trcount g h (TRun (CPut f k) p) = 0).
  Proof.
    intros I Ht. destruct (running_local g s t _ _ I Ht) as [Hc L]. set (c := CPut f k) in *.
    assert (Hfr : c_frame c + c_n c <= ms_frames s) by (unfold cwf in Hc; unfold c_n; cbn [c_frame c_order c] in *; lia).
    destruct (put_ghost (ms_frames s) c p Hc eq_refl L) as [(Hn & Hlo & Hhi)|(Hs & Hnd & Eh & Hp & Htr)]; [left|right].
    - (* the first owned frame *)
      set (f0 := own_lo (gpc g c p)) in *. assert (H0 : (0 < hord g)%nat) by (destruct wf; lia).
      destruct (small_decomp g wf f0 0 (N.mod_1_r f0) H0) as (E & Hr & Hi).
      exists (f0 / HF), ((f0 / 64) mod ROWS), (f0 mod 64). repeat split; try assumption; [apply lt_nbf; lia|].
      unfold fr. cbv zeta. cbn [ghost_of]. rewrite <- E. unfold inb. fold f0. lia.
    - destruct (small_call_decomp g wf (ms_frames s) c Hc Hs eq_refl) as (_ & _ & _ & _ & _ & Hh).
      exists (c_huge g c). unfold pend, trcount, needsC. cbv zeta. cbn [ghost_of]. rewrite Eh, N.eqb_refl.
      repeat split; try assumption.
      apply (needs_counter g s t _ _ I Ht Hh). unfold needsC. cbv zeta. cbn [ghost_of]. rewrite Eh, N.eqb_refl, Hnd. reflexivity.
  Qed.

  Theorem put_never_err s t f k p c0 e : Inv g s -> nth_error (ms_pool s) t = Some (TRun (CPut f k) p) ->
    nth_error (ms_pool (fst (mstep g s t c0))) t <> Some (TIdle (Some (Err e))).
  Proof.
    intros I Ht H.
    destruct (running_local g s t _ _ I Ht) as [_ L].
    pose proof (put_err_unchanged s t f k p c0 e Ht L H) as Es.
    pose proof (step_inv g wf s t c0 I) as I'. rewrite Es in I'.
    destruct (vanish_trivial s t _ _ I I' Ht) as [V1 V2].
    destruct (put_owns s t f k p I Ht) as [(h & r & i & Hh & Hr & Hi & E)|(h & Hh & He & Hp & Htc)].
    - specialize (V1 h r i Hh Hr Hi). lia.
    - specialize (V2 h Hh He). lia.
  Qed.
End PutErr.

(* C03 (part): in every reachable state, a step of a thread that runs `put(frame, order)` of a block accepted by
   `client_take` (a held block or an aligned sub-block of one) never completes with `Err _`; together with
   `conc_safe` (no panic other than D13) every such put completes with `Ok`, or stays in flight, or hits D13. *)
Theorem conc_put_never_err : forall g l held0 n sch t f k p c0 e, wf_geom g -> LowerInv g l -> HeldInit g l held0 ->
  let s := mrun g sch (boot l held0 n) in
  nth_error (ms_pool s) t = Some (TRun (CPut f k) p) ->
  nth_error (ms_pool (fst (mstep g s t c0))) t <> Some (TIdle (Some (Err e))).
Proof.
  intros g l held0 n sch t f k p c0 e wf HL HI s Ht.
  apply (put_never_err g wf s t f k p c0 e); [|exact Ht]. apply conc_inv; assumption.
Qed.
Print Assumptions conc_inv.
Print Assumptions conc_put_never_err.

Corollary conc_safe_free_all : forall g fr n sch, wf_geom g -> LowerInv g (free_all g fr) ->
  let s := mrun g sch (boot (free_all g fr) [] n) in
  held_ok s = true /\ (forall x, In x (panicked s) -> x = SExceedingRetries).
Proof. intros g fr n sch wf HL. apply conc_safe; [exact wf|exact HL|apply held_init_free_all; exact wf]. Qed.

Corollary conc_safe_reserve_all : forall g fr n sch, wf_geom g -> LowerInv g (reserve_all g fr) ->
  let s := mrun g sch (boot (reserve_all g fr) (alloc_all_held g fr) n) in
  held_ok s = true /\ (forall x, In x (panicked s) -> x = SExceedingRetries).
Proof. intros g fr n sch wf HL. apply conc_safe; [exact wf|exact HL|apply held_init_reserve_all; exact wf]. Qed.
Print Assumptions conc_safe_free_all.
Print Assumptions conc_safe_reserve_all.

(* non-vacuity *)
Definition g9 : geom := {| hord := 9; tlog := 2 |}.
Lemma wf_g9 : wf_geom g9. Proof. unfold wf_geom; cbn; lia. Qed.
Definition run_n (t : nat) (n : nat) : list (nat * call) := repeat (t, CGet 0 0) n.

(* D13: thread 0 frees frame 5 of a held huge block and is frozen at PP2 (all rows filled, marker not yet cleared);
   thread 1 frees frame 6 of the same huge block, fails its split and gives up after RETRIES loads. *)
Definition d13_sched : list (nat * call) :=
  [(0%nat, CPut 5 0)] ++ run_n 0 1 ++ run_n 0 8 ++          (* t0: start, P1 sees the marker, fills the 8 rows -> PP2 *)
  [(1%nat, CPut 6 0)] ++ run_n 1 1 ++ run_n 1 1 ++ run_n 1 4. (* t1: start, P1, TW fails -> PP3 0, four loads -> panic *)
Definition d13_state := mrun g9 d13_sched (boot (reserve_all g9 1024) (alloc_all_held g9 1024) 2).

Example d13_reachable :
  ms_pool d13_state = [TRun (CPut 5 0) (PP2 MARK); TPanic SExceedingRetries (CPut 6 0)].
Proof. vm_compute. reflexivity. Qed.

Theorem conc_known_panic : exists sch,
  In SExceedingRetries (panicked (mrun g9 sch (boot (reserve_all g9 1024) (alloc_all_held g9 1024) 2))).
Proof. exists d13_sched. vm_compute. auto. Qed.

(* the boolean form of the invariant holds in that state (the panicked thread still owns its block) *)
Example d13_inv : inv_b g9 d13_state = true.
Proof. vm_compute. reflexivity. Qed.

(* two gets race for the same row: both loaded the same row value, the second CAS fails and retries *)
Definition race_get_state :=
  mrun g9 ([(0%nat, CGet 0 0); (1%nat, CGet 0 0)] ++ run_n 0 2 ++ run_n 1 2 ++ run_n 0 1 ++ run_n 1 1 ++ run_n 0 1 ++ run_n 1 1)
       (boot (free_all g9 1024) [] 2).
Example race_get :
  ms_pool race_get_state = [TIdle (Some (Ok 0)); TRun (CGet 0 0) (G2C 0 0 1)] /\ ms_held race_get_state = [(0, 0%nat)]
  /\ inv_b g9 race_get_state = true
  /\ ms_held (fst (mstep g9 race_get_state 1 (CGet 0 0))) = [(1, 0%nat); (0, 0%nat)].
Proof. vm_compute. auto. Qed.

(* a get races with a put in the same huge frame: the put has cleared its bit but not yet incremented the counter
   while the get decrements it and takes the freed frame *)
Definition race_get_put_state :=
  mrun g9 ([(0%nat, CGetAt 3 0)] ++ run_n 0 4 ++                 (* t0 allocates frame 3 *)
           [(0%nat, CPut 3 0)] ++ run_n 0 3 ++                   (* t0: P1, TL, TC: bit cleared, at PS2L *)
           [(1%nat, CGetAt 3 0)] ++ run_n 1 4)                   (* t1 allocates frame 3 again, fully *)
       (boot (free_all g9 1024) [] 2).
Example race_get_put :
  ms_pool race_get_put_state = [TRun (CPut 3 0) PS2L; TIdle (Some (Ok 3))] /\ ms_held race_get_put_state = [(3, 0%nat)]
  /\ nth_error (ms_ents race_get_put_state) 0 = Some 510 /\ inv_b g9 race_get_put_state = true.
Proof. vm_compute. auto. Qed.
