(* Generic bit-level lemmas over N (Stdlib only): bounded checks by computation, testbit of
   words below 2^n, trailing_ones / trailing_zeros / popcount characterisations, lanes of a
   word and the borrow-free lane of a wrapping subtraction. Nothing here mentions the model. *)
From LLF Require Import Base.
Local Open Scope N_scope.

(* bounded universal quantification by computation *)
Definition forall_below (n : nat) (f : N -> bool) : bool :=
  forallb (fun k => f (N.of_nat k)) (seq 0 n).

Lemma forall_below_spec n f :
  forall_below n f = true -> forall i, i < N.of_nat n -> f i = true.
Proof.
  unfold forall_below. rewrite forallb_forall. intros H i Hi.
  specialize (H (N.to_nat i)). rewrite N2Nat.id in H. apply H. apply in_seq. lia.
Qed.

(* words below 2^n *)
Lemma testbit_high x n i : x < 2 ^ n -> n <= i -> N.testbit x i = false.
Proof.
  intros Hx Hi. rewrite <- (N.mod_small x (2 ^ n)) by assumption.
  apply N.mod_pow2_bits_high. assumption.
Qed.

Lemma lt_pow2_bits x n : (forall i, n <= i -> N.testbit x i = false) -> x < 2 ^ n.
Proof.
  intros H. assert (E : x mod 2 ^ n = x).
  { apply N.bits_inj. intros i. destruct (N.lt_ge_cases i n) as [Hi|Hi].
    - apply N.mod_pow2_bits_low; assumption.
    - rewrite N.mod_pow2_bits_high by assumption. symmetry; apply H; assumption. }
  rewrite <- E. apply N.mod_lt. apply N.pow_nonzero. discriminate.
Qed.

Lemma lor_lt_pow2 a b n : a < 2 ^ n -> b < 2 ^ n -> N.lor a b < 2 ^ n.
Proof.
  intros Ha Hb. apply lt_pow2_bits. intros i Hi.
  rewrite N.lor_spec, (testbit_high a n i), (testbit_high b n i); auto.
Qed.

Lemma W64_pow : W64 = 2 ^ 64.
Proof. reflexivity. Qed.

Lemma MAX64_ones : MAX64 = N.ones 64.
Proof. reflexivity. Qed.

Lemma not64_spec v i :
  N.testbit (not64 v) i = if i <? 64 then negb (N.testbit v i) else N.testbit v i.
Proof.
  unfold not64. rewrite N.lxor_spec, MAX64_ones.
  destruct (N.ltb_spec i 64).
  - rewrite N.ones_spec_low by assumption. apply xorb_true_r.
  - rewrite N.ones_spec_high by assumption. apply xorb_false_r.
Qed.

(* top bit of a w-bit number *)
Lemma testbit_top x w : 0 < w -> x < 2 ^ w -> N.testbit x (w - 1) = (2 ^ (w - 1) <=? x).
Proof.
  intros Hw Hx. rewrite N.testbit_eqb.
  assert (E : 2 ^ w = 2 * 2 ^ (w - 1)).
  { replace w with (N.succ (w - 1)) at 1 by lia. apply N.pow_succ_r'. }
  assert (Hp : 2 ^ (w - 1) <> 0) by (apply N.pow_nonzero; discriminate).
  destruct (N.leb_spec (2 ^ (w - 1)) x) as [H|H].
  - assert (x / 2 ^ (w - 1) = 1) as ->.
    { symmetry. apply (N.div_unique x (2 ^ (w - 1)) 1 (x - 2 ^ (w - 1))); lia. }
    reflexivity.
  - rewrite N.div_small by assumption. reflexivity.
Qed.

(* trailing_ones / trailing_zeros *)
Lemma testbit_xO_succ p i : N.testbit (Npos p~0) (N.succ i) = N.testbit (Npos p) i.
Proof. change (Npos p~0) with (2 * Npos p). apply N.testbit_even_succ. lia. Qed.

Lemma testbit_xI_succ p i : N.testbit (Npos p~1) (N.succ i) = N.testbit (Npos p) i.
Proof. change (Npos p~1) with (2 * Npos p + 1). apply N.testbit_odd_succ. lia. Qed.

Lemma to_pos_low p : forall i, i < to_pos p -> N.testbit (Npos p) i = true.
Proof.
  induction p as [p IH|p IH|]; cbn [to_pos]; intros i Hi.
  - destruct (N.eq_dec i 0) as [->|Hn]; [reflexivity|].
    replace i with (N.succ (N.pred i)) by lia. rewrite testbit_xI_succ. apply IH. lia.
  - lia.
  - replace i with 0 by lia. reflexivity.
Qed.

Lemma to_pos_high p : N.testbit (Npos p) (to_pos p) = false.
Proof.
  induction p as [p IH|p IH|]; cbn [to_pos].
  - rewrite testbit_xI_succ. exact IH.
  - reflexivity.
  - reflexivity.
Qed.

Lemma trailing_ones_low v i : i < trailing_ones v -> N.testbit v i = true.
Proof. destruct v as [|p]; cbn [trailing_ones]; [lia|apply to_pos_low]. Qed.

Lemma trailing_ones_high v : N.testbit v (trailing_ones v) = false.
Proof. destruct v as [|p]; cbn [trailing_ones]; [reflexivity|apply to_pos_high]. Qed.

Lemma trailing_ones_ge v n : (forall i, i < n -> N.testbit v i = true) -> n <= trailing_ones v.
Proof.
  intros H. destruct (N.le_gt_cases n (trailing_ones v)) as [|Hlt]; [assumption|].
  apply H in Hlt. rewrite trailing_ones_high in Hlt. discriminate.
Qed.

Lemma trailing_ones_unique v n :
  (forall i, i < n -> N.testbit v i = true) -> N.testbit v n = false -> trailing_ones v = n.
Proof.
  intros Hl Hh. apply trailing_ones_ge in Hl.
  destruct (N.eq_dec (trailing_ones v) n) as [|Hne]; [assumption|].
  assert (Hlt : n < trailing_ones v) by lia.
  apply trailing_ones_low in Hlt. congruence.
Qed.

Lemma tz_pos_low p : forall i, i < tz_pos p -> N.testbit (Npos p) i = false.
Proof.
  induction p as [p IH|p IH|]; cbn [tz_pos]; intros i Hi; try lia.
  destruct (N.eq_dec i 0) as [->|Hn]; [reflexivity|].
  replace i with (N.succ (N.pred i)) by lia. rewrite testbit_xO_succ. apply IH. lia.
Qed.

Lemma tz_pos_high p : N.testbit (Npos p) (tz_pos p) = true.
Proof.
  induction p as [p IH|p IH|]; cbn [tz_pos].
  - reflexivity.
  - rewrite testbit_xO_succ. exact IH.
  - reflexivity.
Qed.

Lemma trailing_zeros_0 : trailing_zeros 0 = 64.
Proof. reflexivity. Qed.

Lemma trailing_zeros_unique v n :
  N.testbit v n = true -> (forall i, i < n -> N.testbit v i = false) -> trailing_zeros v = n.
Proof.
  intros Hh Hl. destruct v as [|p]; [rewrite N.bits_0 in Hh; discriminate|].
  cbn [trailing_zeros].
  destruct (N.lt_trichotomy (tz_pos p) n) as [Hlt|[E|Hgt]]; [|assumption|].
  - apply Hl in Hlt. rewrite tz_pos_high in Hlt. discriminate.
  - apply tz_pos_low in Hgt. congruence.
Qed.

(* popcount *)
Lemma popcount_double a : popcount (2 * a) = popcount a.
Proof. destruct a; reflexivity. Qed.

Lemma popcount_succ_double a : popcount (2 * a + 1) = N.succ (popcount a).
Proof. destruct a; reflexivity. Qed.

Lemma popcount_shiftl a p : popcount (N.shiftl a p) = popcount a.
Proof.
  induction p as [|p IH] using N.peano_ind.
  - rewrite N.shiftl_0_r. reflexivity.
  - rewrite N.shiftl_succ_r, popcount_double. exact IH.
Qed.

Lemma ones_succ n : N.ones (N.succ n) = 2 * N.ones n + 1.
Proof.
  rewrite !N.ones_equiv, N.pow_succ_r'.
  assert (2 ^ n <> 0) by (apply N.pow_nonzero; discriminate). lia.
Qed.

Lemma popcount_ones n : popcount (N.ones n) = n.
Proof.
  induction n as [|n IH] using N.peano_ind.
  - reflexivity.
  - rewrite ones_succ, popcount_succ_double, IH. reflexivity.
Qed.

Lemma Ndouble_eq_0 x : Pos.Ndouble x = 0 -> x = 0.
Proof. destruct x; [reflexivity|discriminate]. Qed.

Lemma popcount_pos_lor_disjoint p : forall q,
  Pos.land p q = 0 -> popcount_pos (Pos.lor p q) = popcount_pos p + popcount_pos q.
Proof.
  induction p as [p IH|p IH|]; intros [q|q|]; cbn [Pos.land Pos.lor popcount_pos]; intros H;
    try discriminate;
    try (apply Ndouble_eq_0 in H; rewrite (IH _ H)); try lia.
Qed.

Lemma popcount_lor_disjoint a b :
  N.land a b = 0 -> popcount (N.lor a b) = popcount a + popcount b.
Proof.
  destruct a as [|p], b as [|q]; intros H.
  - reflexivity.
  - reflexivity.
  - change (N.lor (Npos p) 0) with (Npos p). change (popcount 0) with 0. lia.
  - apply popcount_pos_lor_disjoint. exact H.
Qed.

(* lanes *)
(* lane j (width w) of x *)
Definition lane (w x j : N) : N := (x / 2 ^ (w * j)) mod 2 ^ w.

Lemma lane_lt w x j : lane w x j < 2 ^ w.
Proof. apply N.mod_lt, N.pow_nonzero. discriminate. Qed.

Lemma lane_testbit w x j r : r < w -> N.testbit (lane w x j) r = N.testbit x (w * j + r).
Proof.
  intros Hr. unfold lane. rewrite N.mod_pow2_bits_low by assumption.
  rewrite N.div_pow2_bits. f_equal. lia.
Qed.

Lemma lane_high w x j r : w <= r -> N.testbit (lane w x j) r = false.
Proof. intros. apply (testbit_high _ w); [apply lane_lt|assumption]. Qed.

(* bits [p, p+w) of v, as a number *)
Lemma land_shiftl_ones v w p :
  N.land v (N.shiftl (N.ones w) p) = N.shiftl ((v / 2 ^ p) mod 2 ^ w) p.
Proof.
  apply N.bits_inj. intros i. rewrite N.land_spec.
  destruct (N.lt_ge_cases i p) as [Hi|Hi].
  - rewrite !N.shiftl_spec_low by assumption. apply andb_false_r.
  - rewrite !N.shiftl_spec_high' by assumption.
    destruct (N.lt_ge_cases (i - p) w) as [Hw|Hw].
    + rewrite N.ones_spec_low, N.mod_pow2_bits_low by assumption.
      rewrite N.div_pow2_bits, andb_true_r. f_equal. lia.
    + rewrite N.ones_spec_high, N.mod_pow2_bits_high by assumption. apply andb_false_r.
Qed.

Lemma mod_pow2_split x w j :
  x mod 2 ^ (w * (j + 1)) = x mod 2 ^ (w * j) + 2 ^ (w * j) * lane w x j.
Proof.
  replace (w * (j + 1)) with (w * j + w) by lia. rewrite N.pow_add_r.
  apply N.mod_mul_r; apply N.pow_nonzero; discriminate.
Qed.

(* arithmetic of a lane of a wrapping subtraction *)
Lemma div_mod_mul x P Q : P <> 0 -> Q <> 0 -> (x mod (P * Q)) / P = (x / P) mod Q.
Proof.
  intros HP HQ. rewrite N.mod_mul_r by assumption.
  rewrite (N.mul_comm P), N.div_add by assumption.
  rewrite N.div_small by (apply N.mod_lt; assumption). apply N.add_0_l.
Qed.

Lemma mod_mod_mul x A S : A <> 0 -> S <> 0 -> (x mod (A * S)) mod A = x mod A.
Proof.
  intros HA HS. rewrite N.mod_mul_r by assumption.
  rewrite (N.mul_comm A), N.mod_add by assumption. apply N.mod_mod. assumption.
Qed.

(* If the bits of v below lane position P are >= those of m (no borrow into the lane) and the
   lane of m is 1, the lane of v - m (mod P*Q*S) is the lane of v minus one, mod Q. *)
Lemma wsub_lane_gen P Q S v m :
  P <> 0 -> Q <> 0 -> S <> 0 -> v < P * Q * S -> m < P * Q * S ->
  m mod P <= v mod P -> (m / P) mod Q = 1 ->
  (((v + P * Q * S - m) mod (P * Q * S)) / P) mod Q = ((v / P) mod Q + Q - 1) mod Q.
Proof.
  intros HP HQ HS Hv Hm Hlow Hm1.
  assert (HA : P * Q <> 0) by lia.
  rewrite <- div_mod_mul by assumption.
  rewrite mod_mod_mul by assumption.
  set (A := P * Q) in *.
  pose proof (N.div_mod v A HA) as Ev. pose proof (N.div_mod m A HA) as Em.
  assert (Ev0 : v mod A = v mod P + P * ((v / P) mod Q)) by (apply N.mod_mul_r; assumption).
  assert (Em0 : m mod A = m mod P + P * 1) by (rewrite <- Hm1; apply N.mod_mul_r; assumption).
  set (a := (v / P) mod Q) in *. set (l := v mod P) in *. set (ml := m mod P) in *.
  assert (Ha : a < Q) by (apply N.mod_lt; assumption).
  assert (Hl : l < P) by (apply N.mod_lt; assumption).
  assert (Hm1S : m / A < S) by (apply N.div_lt_upper_bound; [assumption|lia]).
  set (v1 := v / A) in *. set (m1 := m / A) in *.
  assert (EA : A = P * Q) by reflexivity.
  clearbody A a l ml v1 m1.
  assert (Hd : exists d, S = m1 + 1 + d) by (exists (S - m1 - 1); lia).
  destruct Hd as [d ->].
  assert (ES : A * (m1 + 1 + d) = A * m1 + A + A * d) by ring.
  destruct (N.eq_dec a 0) as [Ea|Ea].
  - (* lane is zero: borrow, lane becomes Q-1 *)
    rewrite Ea, N.add_0_l, (N.mod_small (Q - 1) Q) by lia.
    assert (EQ : P * (Q - 1) + P = P * Q).
    { replace Q with (Q - 1 + 1) at 2 by lia. ring. }
    assert (E : (v + A * (m1 + 1 + d) - m) mod A = (l - ml) + P * (Q - 1)).
    { symmetry. apply (N.mod_unique _ A (v1 + d)); [lia|].
      rewrite Ea in Ev0. rewrite N.mul_add_distr_l. lia. }
    rewrite E, (N.mul_comm P), N.div_add, N.div_small by lia. lia.
  - assert (Ea1 : (a + Q - 1) mod Q = a - 1).
    { replace (a + Q - 1) with (a - 1 + 1 * Q) by lia.
      rewrite N.mod_add by assumption. apply N.mod_small. lia. }
    rewrite Ea1.
    assert (EQ : P * (a - 1) + P = P * a).
    { replace a with (a - 1 + 1) at 2 by lia. ring. }
    assert (EQ2 : P * a + P <= P * Q).
    { replace (P * a + P) with (P * (a + 1)) by ring. apply N.mul_le_mono_l. lia. }
    assert (E : (v + A * (m1 + 1 + d) - m) mod A = (l - ml) + P * (a - 1)).
    { symmetry. apply (N.mod_unique _ A (v1 + 1 + d)); [lia|].
      rewrite !N.mul_add_distr_l, N.mul_1_r. lia. }
    rewrite E, (N.mul_comm P), N.div_add, N.div_small by lia. lia.
Qed.
