(* The scans of machine M2 over (class index, slot index): `steal_scan`, `demote_scan` and `drain_scan`
   (UpperMachine.v) look for the next slot to try from (i, j) on, over the 8 class indices.  They differ only in
   how many slots of class index i may be tried: all three are `gscan` for a width function. *)
From Coq Require Import PeanoNat.
From LLF Require Import Base Row Bitfield Lower Sorted Upper LowerMachine UpperMachine.

Fixpoint gscan (w : N -> nat) (i j : N) (n : nat) : option (N * N) :=
  match n with
  | O => None
  | S n' => if 8 <=? i then None else if Nat.ltb (nn j) (w i) then Some (i, j) else gscan w (i + 1) 0 n'
  end.

Section Gscan.
  Variable w : N -> nat.

  Lemma gscan_end i j n : 8 <= i -> gscan w i j n = None.
  Proof. intros H. destruct n; [reflexivity|]. cbn [gscan]. apply N.leb_le in H. rewrite H. reflexivity. Qed.
  Lemma gscan_hit i j n : i < 8 -> (nn j < w i)%nat -> gscan w i j (S n) = Some (i, j).
  Proof.
    intros Hi Hj. cbn [gscan]. apply N.leb_gt in Hi. apply Nat.ltb_lt in Hj. rewrite Hi, Hj. reflexivity.
  Qed.
  Lemma gscan_skip i j n : i < 8 -> (w i <= nn j)%nat -> gscan w i j (S n) = gscan w (i + 1) 0 n.
  Proof.
    intros Hi Hj. cbn [gscan]. apply N.leb_gt in Hi. apply Nat.ltb_ge in Hj. rewrite Hi, Hj. reflexivity.
  Qed.
  (* fuel beyond the number of class indices left makes no difference *)
  Lemma gscan_fuel n : forall i j, 8 <= i + N.of_nat n -> gscan w i j n = gscan w i j (S n).
  Proof.
    induction n as [|n IH]; intros i j H.
    - rewrite !gscan_end by lia. reflexivity.
    - destruct (N.ltb_spec i 8) as [Hi|Hi]; [|rewrite !gscan_end by exact Hi; reflexivity].
      destruct (Nat.ltb_spec (nn j) (w i)) as [Hj|Hj].
      + rewrite !gscan_hit by assumption. reflexivity.
      + rewrite !gscan_skip by assumption. apply IH. lia.
  Qed.
  Lemma gscan_skip_fuel i j n : i < 8 -> (w i <= nn j)%nat -> 8 <= i + 1 + N.of_nat n ->
    gscan w i j (S n) = gscan w (i + 1) 0 (S n).
  Proof. intros Hi Hj Hn. rewrite gscan_skip by assumption. apply gscan_fuel. exact Hn. Qed.
  (* the pair found: the start itself, or slot 0 of a later class index *)
  Lemma gscan_some n : forall i j i' j', gscan w i j n = Some (i', j') ->
    i' < 8 /\ (nn j' < w i')%nat /\ ((i' = i /\ j' = j) \/ (i < i' /\ j' = 0)).
  Proof.
    induction n as [|n IH]; intros i j i' j'; cbn [gscan]; [discriminate|].
    destruct (N.leb_spec 8 i) as [|Hi]; [discriminate|].
    destruct (Nat.ltb_spec (nn j) (w i)) as [Hj|Hj].
    - intros [= <- <-]. split; [exact Hi|]. split; [exact Hj|]. left. split; reflexivity.
    - intros H. destruct (IH _ _ _ _ H) as (H1 & H2 & H3). split; [exact H1|]. split; [exact H2|]. right. lia.
  Qed.
End Gscan.

Lemma ltb_length {A} (l : list A) j : (j <? N.of_nat (length l)) = Nat.ltb (nn j) (length l).
Proof. destruct (Nat.ltb_spec (nn j) (length l)); [apply N.ltb_lt | apply N.ltb_ge]; unfold nn in *; lia. Qed.

Section Scans.
  Variable policy : N -> N -> N -> pol.
  Variable u : upper.

  (* number of slots of class index i that may be tried *)
  Definition sl_slots (class free i : N) : nat :=
    match class_slots u ((i + class) mod 8) with
    | None => O
    | Some l => match policy class ((i + class) mod 8) free with PSteal | PMatch _ => length l | _ => O end
    end.
  Definition dl_slots (class free i : N) : nat :=
    match class_slots u ((i + class) mod 8) with
    | None => O
    | Some l => match policy class ((i + class) mod 8) free with PDemote => length l | _ => O end
    end.
  Definition slots_len (c : N) : nat := match class_slots u c with Some l => length l | None => O end.

  Lemma steal_scan_gscan class free n : forall i j,
    steal_scan policy u class free i j n = gscan (sl_slots class free) i j n.
  Proof.
    induction n as [|n IH]; intros i j; cbn [steal_scan gscan]; [reflexivity|].
    destruct (8 <=? i); [reflexivity|]. rewrite <- IH. unfold sl_slots.
    destruct (class_slots u ((i + class) mod 8)) as [l|]; [|reflexivity].
    destruct (policy class ((i + class) mod 8) free); try reflexivity; rewrite ltb_length; reflexivity.
  Qed.
  Lemma demote_scan_gscan class free n : forall i j,
    demote_scan policy u class free i j n = gscan (dl_slots class free) i j n.
  Proof.
    induction n as [|n IH]; intros i j; cbn [demote_scan gscan]; [reflexivity|].
    destruct (8 <=? i); [reflexivity|]. rewrite <- IH. unfold dl_slots.
    destruct (class_slots u ((i + class) mod 8)) as [l|]; [|reflexivity].
    destruct (policy class ((i + class) mod 8) free); try reflexivity; rewrite ltb_length; reflexivity.
  Qed.
  Lemma drain_scan_gscan n : forall c j, drain_scan u c j n = gscan slots_len c j n.
  Proof.
    induction n as [|n IH]; intros c j; cbn [drain_scan gscan]; [reflexivity|].
    destruct (8 <=? c); [reflexivity|]. rewrite <- IH. unfold slots_len, class_locals.
    destruct (class_slots u c) as [l|]; cbn [option_map]; [|reflexivity]. rewrite ltb_length. reflexivity.
  Qed.
End Scans.
