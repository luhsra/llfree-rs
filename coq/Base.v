(* Common definitions of the llfree-rs model: outcomes, machine words, list helpers.
   Stdlib only. No proofs about the model live here, only generic facts. *)
From Coq Require Export List NArith Bool Lia.
Export ListNotations.
Open Scope N_scope.

Arguments N.add : simpl never.
Arguments N.sub : simpl never.
Arguments N.mul : simpl never.
Arguments N.div : simpl never.
Arguments N.modulo : simpl never.
Arguments N.eqb : simpl never.
Arguments N.ltb : simpl never.
Arguments N.leb : simpl never.
Arguments N.pow : simpl never.
Arguments N.shiftl : simpl never.
Arguments N.shiftr : simpl never.
Arguments N.land : simpl never.
Arguments N.lor : simpl never.
Arguments N.lxor : simpl never.
Arguments N.testbit : simpl never.

(* outcomes of a call *)
Inductive error := EMemory | EArgument | EInit.

(* Panic sites of the modelled code (file:line of the pinned source, after the hook commit
   line numbers of core/src/{bitfield,lower,trees,local,llfree,util}.rs are unchanged
   except atomic.rs). *)
Inductive site :=
| SUndoFailedAll          (* atomic.rs  "undo failed" in compare_exchange_all *)
| SFailedUndoToggle       (* bitfield.rs:167 *)
| SFailedUndoSearch       (* bitfield.rs:255 *)
| SRowOrder               (* bitfield.rs:324 unreachable *)
| SSetCrosses             (* bitfield.rs:96 *)
| SIndex (n : N)          (* slice index out of range; n identifies the access *)
| SUndoFailed             (* lower.rs:232 *)
| SUndoUnwrap             (* lower.rs:260 *)
| SIsFreeAssert           (* lower.rs:297-299 *)
| SSplitLast              (* lower.rs:373 / 408 *)
| SReserveAllSub          (* lower.rs:414 *)
| SIncFailed              (* lower.rs:453 *)
| SFailedPartialClear     (* lower.rs:466 *)
| SExceedingRetries       (* lower.rs:470 *)
| SUnreserveFailed        (* trees.rs:193 *)
| STreeFree               (* trees.rs:325/334 free <= TREE_FRAMES *)
| SUnreserveClass         (* trees.rs:392 *)
| SLocalFree              (* local.rs:301 *)
| SInvalidClass           (* local.rs:183, llfree.rs:335 *)
| SNoLocals               (* llfree.rs:337 *)
| SArith (n : N)          (* checked usize arithmetic; n identifies the operation *)
| SValidate (n : N)       (* validate()'s asserts *)
| SField (n : N).         (* bitfield-struct setter range check *)

Inductive res (A : Type) :=
| Ok (a : A)
| Err (e : error)
| Panic (s : site).
Arguments Ok {A} a.
Arguments Err {A} e.
Arguments Panic {A} s.

Definition bind {A B} (r : res A) (f : A -> res B) : res B :=
  match r with Ok a => f a | Err e => Err e | Panic s => Panic s end.
Notation "'do' x <- r ; k" := (bind r (fun x => k)) (at level 200, x pattern, r at level 100, k at level 200).

(* machine words *)
Definition W64 : N := 18446744073709551616.   (* 2^64 *)
Definition MAX64 : N := 18446744073709551615.
Definition wrap64 (a : N) : N := a mod W64.
Definition wsub64 (a b : N) : N := (a + W64 - b) mod W64.       (* u64::wrapping_sub, a b < 2^64 *)
Definition not64 (a : N) : N := N.lxor a MAX64.                  (* !a on u64, a < 2^64 *)

(* ones n = 2^n - 1 *)
Definition ones (n : N) : N := N.ones n.

Fixpoint tz_pos (p : positive) : N :=
  match p with xO p' => N.succ (tz_pos p') | _ => 0 end.
(* u64::trailing_zeros (64 for 0) *)
Definition trailing_zeros (v : N) : N := match v with N0 => 64 | Npos p => tz_pos p end.
Fixpoint to_pos (p : positive) : N :=
  match p with xI p' => N.succ (to_pos p') | xO _ => 0 | xH => 1 end.
(* u64::trailing_ones (v < 2^64) *)
Definition trailing_ones (v : N) : N := match v with N0 => 0 | Npos p => to_pos p end.

Fixpoint popcount_pos (p : positive) : N :=
  match p with xI p' => N.succ (popcount_pos p') | xO p' => popcount_pos p' | xH => 1 end.
Definition popcount (v : N) : N := match v with N0 => 0 | Npos p => popcount_pos p end.
(* u64::count_zeros for v < 2^64 *)
Definition count_zeros64 (v : N) : N := 64 - popcount v.

(* list helpers (total, no defaults leaking into results) *)
Fixpoint upd {A} (l : list A) (i : nat) (x : A) : list A :=
  match l, i with
  | [], _ => []
  | _ :: r, O => x :: r
  | a :: r, S j => a :: upd r j x
  end.

Definition nn (n : N) : nat := N.to_nat n.

Lemma upd_length {A} (l : list A) i x : length (upd l i x) = length l.
Proof. revert i; induction l; destruct i; simpl; auto. Qed.
Lemma nth_error_upd_same {A} (l : list A) i x : (i < length l)%nat -> nth_error (upd l i x) i = Some x.
Proof. revert i; induction l; destruct i; simpl; intros; try lia; auto. apply IHl; lia. Qed.
Lemma nth_error_upd_other {A} (l : list A) i j x : i <> j -> nth_error (upd l i x) j = nth_error l j.
Proof. revert i j; induction l; destruct i, j; simpl; intros; try lia; auto. Qed.
Lemma upd_oob {A} (l : list A) i x : (length l <= i)%nat -> upd l i x = l.
Proof. revert i; induction l; destruct i; simpl; intros; try lia; auto. f_equal; apply IHl; lia. Qed.
