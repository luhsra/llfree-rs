(* Thread-local lemmas of the M2 invariant: the pure continuation part of a step (`resume`, `settle`,
   the `enter_*` functions of UpperMachine.v) preserves the thread's well-formedness `twf` and its ghost.
   No shared memory is involved: only static parts of the state (number of trees, slot counts, `frames`).
   The hypotheses carry no accounting (calls are `call_wf_w`: change_tree with any operation; `vfacts` says nothing about
   counters), so that UpperConcWeak.v can use them: the one thing the continuation can then do wrong is to panic on a failed
   unreserve (`unres_fail`).  The accounting invariant of UpperConcInv.v rules that out (`vfacts_unres_ok`, `K_settle_nopanic`). *)
From Coq Require Import PeanoNat Permutation Setoid Morphisms.
From LLF Require Import Base Row Bitfield Lower Spec Sorted Upper UpperInvDef UpperPrims UpperGetLoops LowerMachine
  ConcBase ConcInvDef UpperMachine UpperConcInvDef UpperConcWf.

(* ghost equivalence *)
Lemma gh_eq_refl a : gh_eq a a.
Proof. split; [reflexivity|]. split; [apply Permutation_refl|reflexivity]. Qed.
Lemma gh_eq_sym a b : gh_eq a b -> gh_eq b a.
Proof. intros (A & B & C). split; [intros i; symmetry; apply A|]. split; [apply Permutation_sym; exact B|symmetry; exact C]. Qed.
Lemma gh_eq_trans a b c : gh_eq a b -> gh_eq b c -> gh_eq a c.
Proof.
  intros (A & B & C) (A' & B' & C'). split; [intros i; rewrite A; apply A'|].
  split; [eapply Permutation_trans; eassumption|congruence].
Qed.
Lemma crsum_app a b i : crsum (a ++ b) i = crsum a i + crsum b i.
Proof. unfold crsum. apply sumf_app. Qed.
Lemma gh_add_eq a a' b b' : gh_eq a a' -> gh_eq b b' -> gh_eq (gh_add a b) (gh_add a' b').
Proof.
  intros (A & B & C) (A' & B' & C'). unfold gh_add. split; cbn [g_cr g_ih g_bl].
  - intros i. rewrite !crsum_app, A, A'. reflexivity.
  - split; [apply Permutation_app; assumption|congruence].
Qed.
Lemma gh_add_nil_l a : gh_add gh_nil a = a.
Proof. destruct a; reflexivity. Qed.
Lemma gh_add_nil_r a : gh_add a gh_nil = a.
Proof. destruct a; unfold gh_add; cbn. rewrite !app_nil_r. reflexivity. Qed.
Lemma gh_add_comm a b : g_bl a = [] \/ g_bl b = [] -> gh_eq (gh_add a b) (gh_add b a).
Proof.
  intros H. unfold gh_add. split; cbn [g_cr g_ih g_bl].
  - intros i. rewrite !crsum_app. lia.
  - split; [apply Permutation_app_comm|]. destruct H as [-> | ->]; rewrite ?app_nil_r; reflexivity.
Qed.
Lemma gh_add_assoc a b c : gh_add (gh_add a b) c = gh_add a (gh_add b c).
Proof. unfold gh_add; cbn. rewrite !app_assoc. reflexivity. Qed.
Lemma gh_cr0 t : gh_eq (gh_cr t 0) gh_nil.
Proof.
  split; [|split; [apply Permutation_refl|reflexivity]]. intros i. cbn. unfold crsum. cbn. destruct (t =? i); reflexivity.
Qed.

(* hypotheses taken apart: conjunctions / existentials; the `tprim` / `sprim` / `lprim` alternatives of a top frame *)
Ltac flat :=
  repeat match goal with
         | H : exists _, _ |- _ => destruct H
         | H : _ /\ _ |- _ => destruct H
         end.
Ltac prims :=
  repeat match goal with
         | H : tprim _ _ _ _ _ _ |- _ => destruct H as [->|(?cur & ?new & -> & ?)]
         | H : sprim _ _ _ _ _ |- _ => destruct H as [->|(?cur & ?new & -> & ?)]
         | H : lprim _ _ |- _ => destruct H as (?pc & ->)
         end.

(* calls: as `call_wf` but change_tree with ANY operation (Online included) *)
Definition call_wf_w (g : geom) (u : upper) (c : ucall) : Prop :=
  match c with
  | UChange _ _ => True
  | _ => call_wf g u c
  end.

Lemma call_wf_weaken g u c : call_wf g u c -> call_wf_w g u c.
Proof. destruct c; intros H; try exact H. exact I. Qed.

(* the bound on the weight of an action (`wt`, below): 1 + 4 * 5, a passive stack is sorted by level and so has at
   most 5 frames (`sorted_len`), each of weight at most 4 (`sw_le`); SETTLE = 64 is well above it *)
Notation WMAX := 21%nat (only parsing).

Section Local.
  Variable g : geom.
  Variable policy : N -> N -> N -> pol.
  Hypothesis WF : wf_geom g.
  Variable u : upper.
  Variable c : ucall.
  Hypothesis SH : ntrees u = ntab g (frames (low u)).
  Hypothesis CW : call_wf_w g u c.
  Notation TF := (TF g).

  (* weights: the return chains of `settle` are short *)
  (* `fw f` bounds how much the action weighs that `resume` continues with when a value is returned to the passive
     frame f (`resume_pas`): most frames are popped or replaced one for one (1); `KGet2` may go on to steal_local (2);
     `KGet1` may go on to search_and_reserve, which puts `KGet2` and a search frame in its place (4) *)
  Definition fw (f : kframe) : nat := match f with KGet1 _ _ => 4 | KGet2 _ _ => 2 | _ => 1 end.
  Definition sw (k : list kframe) : nat := fold_right (fun f a => fw f + a)%nat O k.
  Definition wt (a : act) : nat := match a with ARet _ k => S (sw k) | _ => O end.

  Lemma lvl_le f : (lvl f <= 5)%nat.
  Proof. destruct f; cbn; lia. Qed.
  Lemma sorted_len k : forall lo, (lo <= 5)%nat -> sorted_from lo k -> (lo + length k <= 5)%nat.
  Proof.
    induction k as [|f k IH]; intros lo L; cbn [sorted_from length]; [lia|]. intros [L1 S].
    specialize (IH _ (lvl_le f) S). lia.
  Qed.
  Lemma sw_le k : (sw k <= 4 * length k)%nat.
  Proof. induction k as [|f k IH]; cbn [sw fold_right length]; [lia|]. fold (sw k). destruct f; cbn [fw]; lia. Qed.
  Lemma sorted_weak k lo lo' : (lo' <= lo)%nat -> sorted_from lo k -> sorted_from lo' k.
  Proof. destruct k; cbn [sorted_from]; [tauto|]. intros L [A B]. split; [lia|exact B]. Qed.

  (* passive stacks *)
  Lemma pas_weak k lo lo' : (lo' <= lo)%nat -> pas_stack u c lo k -> pas_stack u c lo' k.
  Proof. intros L [A B]. split; [exact A|eapply sorted_weak; eassumption]. Qed.
  Lemma pas_cons f k lo : pas_wf u c f -> (lo < lvl f)%nat -> pas_stack u c (lvl f) k -> pas_stack u c lo (f :: k).
  Proof. intros P L [A B]. split; [constructor; assumption|]. cbn [sorted_from]. split; assumption. Qed.
  Lemma pas_nil lo : pas_stack u c lo [].
  Proof. split; [constructor|exact I]. Qed.
  Lemma pas_frame_gh f : pas_wf u c f -> frame_gh g f = gh_nil.
  Proof. destruct f; cbn [pas_wf frame_gh]; try reflexivity; try tauto. Qed.
  Lemma pas_frames_gh k : Forall (pas_wf u c) k -> frames_gh g k = gh_nil.
  Proof.
    induction 1 as [|f k P _ IH]; [reflexivity|]. cbn [frames_gh fold_right]. fold (frames_gh g k).
    rewrite IH, (pas_frame_gh _ P). reflexivity.
  Qed.
  Lemma pk_gh_top p f k lo : pas_stack u c lo k ->
    pk_gh g p (f :: k) = gh_add (prim_gh g p (Some f)) (frame_gh g f).
  Proof.
    intros [A _]. unfold pk_gh. cbn [hd_error frames_gh fold_right]. fold (frames_gh g k).
    rewrite (pas_frames_gh _ A), gh_add_nil_r. reflexivity.
  Qed.
  Lemma ret_ty_tail b f k : ret_ty b (f :: k) -> ret_ty false k.
  Proof.
    intros [_ F]. destruct k as [|h r]; [reflexivity|]. inversion F; subst. split; assumption.
  Qed.

  Lemma ret_ty_all k : ret_ty false k <-> Forall (fun x => wants_vg x = false) k.
  Proof.
    destruct k as [|h r]; cbn [ret_ty]; split; intros H; auto.
    - destruct H; constructor; assumption.
    - inversion H; subst. split; assumption.
  Qed.
  Lemma ret_ty_cons f k : wants_vg f = false -> ret_ty false k -> ret_ty false (f :: k).
  Proof. intros W H. apply ret_ty_all. constructor; [exact W|]. apply ret_ty_all. exact H. Qed.

  (* acts *)
  Definition enter_ok (p : prim) : Prop :=
    forall th, p = PLow th ->
      exists cl, th = TRun cl (entry_pc g cl) /\ cwf g (frames (low u)) cl = true /\ is_put cl = false.
  Definition glr_res (x : glr) : res (N * N) :=
    match x with GOk f cl => Ok (f, cl) | GErr e _ => Err e | GPanic z => Panic z end.
  Definition act_ok (G : ugh) (a : act) : Prop :=
    match a with
    | ADo p k => twf g policy u c p k /\ gh_eq (pk_gh g p k) G /\ enter_ok p
    | ARet (VR r) k => pas_stack u c 0 k /\ ret_ty false k /\ (forall z, r <> Panic z) /\ gh_eq (ret_gh c r) G
    | ARet (VG x) k => pas_stack u c 0 k /\ ret_ty true k /\ (forall z, x <> GPanic z) /\ gh_eq (ret_gh c (glr_res x)) G
    | _ => False
    end.
  Definition good (G : ugh) (x : settled) : Prop :=
    match x with
    | SRun p k => twf g policy u c p k /\ gh_eq (pk_gh g p k) G /\ enter_ok p
    | SDone r => (forall z, r <> Panic z) /\ gh_eq (ret_gh c r) G
    | SCrash _ => False
    end.
  Definition aok (G : ugh) (B : nat) (a : act) : Prop := act_ok G a /\ (wt a <= B)%nat.

  Lemma aok_weak G B B' a : (B <= B')%nat -> aok G B a -> aok G B' a.
  Proof. intros L [A W]. split; [exact A|lia]. Qed.
  Lemma aok_eq G G' B a : gh_eq G G' -> aok G B a -> aok G' B a.
  Proof.
    intros E [A W]. split; [|exact W]. destruct a as [p k|v k|z]; cbn [act_ok] in *; try tauto.
    - destruct A as (A1 & A2 & A3). split; [exact A1|]. split; [eapply gh_eq_trans; eassumption|exact A3].
    - destruct v; try tauto; destruct A as (A1 & A2 & A3 & A4); (split; [exact A1|]; split; [exact A2|]; split; [exact A3|]);
        eapply gh_eq_trans; eassumption.
  Qed.

  Lemma ret_gh_err e : ret_gh c (Err e) = gh_nil.
  Proof. destruct c; reflexivity. Qed.

  Lemma not_lprim_enter p : (forall th, p <> PLow th) -> enter_ok p.
  Proof. intros H th E. destruct (H th E). Qed.

  Lemma aok_do G B p k : twf g policy u c p k -> gh_eq (pk_gh g p k) G -> enter_ok p -> aok G B (ADo p k).
  Proof. intros T E N. split; [split; [exact T|split; [exact E|exact N]]|cbn; lia]. Qed.
  Lemma aok_err e k : pas_stack u c 0 k -> ret_ty false k -> aok gh_nil (S (sw k)) (ARet (VR (Err e)) k).
  Proof.
    intros P T. split; [|cbn; lia]. cbn [act_ok]. split; [exact P|]. split; [exact T|]. split; [discriminate|].
    rewrite ret_gh_err. apply gh_eq_refl.
  Qed.
  Lemma aok_gerr e t k : pas_stack u c 0 k -> ret_ty true k -> aok gh_nil (S (sw k)) (ARet (VG (GErr e t)) k).
  Proof.
    intros P T. split; [|cbn; lia]. cbn [act_ok]. split; [exact P|]. split; [exact T|]. split; [discriminate|].
    cbn [glr_res]. rewrite ret_gh_err. apply gh_eq_refl.
  Qed.

  Lemma tree_ok_lt i : i < ntrees u -> UpperMachine.tree_ok u i = true.
  Proof. intros H. unfold UpperMachine.tree_ok. apply N.ltb_lt. exact H. Qed.

  Lemma enter_tu_ok G B i f k :
    i < ntrees u -> twf g policy u c (PTL i f) k -> gh_eq (pk_gh g (PTL i f) k) G -> aok G B (enter_tu u i f k).
  Proof.
    intros L T E. unfold enter_tu. rewrite (tree_ok_lt _ L). apply aok_do; [exact T|exact E|].
    apply not_lprim_enter. discriminate.
  Qed.

  (* the ghost of a freshly started tree / slot primitive with a closure that holds nothing *)
  Lemma gh_top_nil p f k lo : pas_stack u c lo k -> prim_gh g p (Some f) = gh_nil -> frame_gh g f = gh_nil ->
    gh_eq (pk_gh g p (f :: k)) gh_nil.
  Proof. intros P A B. rewrite (pk_gh_top p f k lo P), A, B. apply gh_eq_refl. Qed.

  Lemma ntrees_pos fr r : c = UGet fr r -> ntrees u <> 0.
  Proof.
    intros ->. rewrite SH. assert (Hf : pow2 (r_order r) <= frames (low u)).
    { destruct fr; cbn [call_wf_w call_wf] in CW; [destruct CW as [(_ & H & _) _]|destruct CW as (_ & H & _)]; exact H. }
    pose proof (pow2_pos (r_order r)). intros E.
    assert (Q : 0 < ntab g (frames (low u))) by (apply (ntab_lt g); lia). lia.
  Qed.

  Lemma enter_access_ok B a i k :
    acc_wf u c a -> acc_get a -> i < ntrees u -> pas_stack u c 2 k -> ret_ty false k ->
    aok gh_nil B (enter_access u a i k).
  Proof.
    intros A AG L P T. destruct a as [o cl local|cl o|? ? ?]; cbn [acc_wf acc_get enter_access] in *; [| |destruct AG].
    - apply enter_tu_ok; [exact L| |].
      + cbn [twf]. split; [|split; [exact P|exact T]]. cbn [top_wf]. split; [exact A|]. split; [left; reflexivity|exact L].
      + eapply gh_top_nil; [exact P|reflexivity|reflexivity].
    - destruct A as (r & Ec & -> & ->). apply enter_tu_ok; [exact L| |].
      + cbn [twf]. split; [|split; [exact P|exact T]]. cbn [top_wf]. exists r. split; [exact Ec|]. split; [reflexivity|].
        split; [left; reflexivity|]. split; [exact L|]. intros f E. discriminate.
      + eapply gh_top_nil; [exact P|reflexivity|reflexivity].
  Qed.

  Lemma sb_try_ok sb cands k :
    sb_wf u c sb -> cands_ok u cands -> pas_stack u c 3 k -> ret_ty false k ->
    aok gh_nil (S (sw k)) (UpperMachine.sb_try u sb cands k).
  Proof.
    intros S C P T. destruct cands as [|[x i] r]; cbn [UpperMachine.sb_try].
    - apply aok_err; [eapply pas_weak; [|exact P]; lia|exact T].
    - inversion C as [|? ? Hi Hr]; subst. cbn [snd] in Hi.
      apply enter_access_ok.
      + apply S.
      + apply S.
      + exact Hi.
      + apply pas_cons; [cbn [pas_wf]; split; assumption|cbn; lia|exact P].
      + apply ret_ty_cons; [reflexivity|exact T].
  Qed.

  Lemma cands_rev l : cands_ok u l -> cands_ok u (sb_iter_rev l).
  Proof. unfold cands_ok, sb_iter_rev. intros H. apply Forall_rev. exact H. Qed.

  Lemma sb_next_ok sb k :
    sb_wf u c sb -> pas_stack u c 3 k -> ret_ty false k ->
    aok gh_nil (S (sw k)) (sb_next u sb k).
  Proof.
    intros S P T. unfold sb_next. destruct (sb_n sb).
    - apply sb_try_ok; [exact S|apply cands_rev; apply S|exact P|exact T].
    - destruct S as (A & C & N).
      pose proof (walk_idx_lt (sb_start sb) (ntrees u) (sb_i sb) N) as L. rewrite (tree_ok_lt _ L).
      apply aok_do; [| |apply not_lprim_enter; discriminate].
      + cbn [twf]. split; [|split; [exact P|exact T]]. cbn [top_wf]. split; [eexists; split; [reflexivity|exact L]|].
        split; [exact A|split; [exact C|exact N]].
      + eapply gh_top_nil; [exact P|reflexivity|reflexivity].
  Qed.

  Lemma enter_sb_ok a rt cap start offset len k :
    acc_wf u c a -> acc_get a -> ntrees u <> 0 -> pas_stack u c 3 k -> ret_ty false k ->
    aok gh_nil (S (sw k)) (enter_sb u a rt cap start offset len k).
  Proof.
    intros A AG N P T. unfold enter_sb. apply N.eqb_neq in N. rewrite N, andb_false_r.
    apply sb_next_ok; [|exact P|exact T]. split; [split; [exact A|exact AG]|]. split; [constructor|apply N.eqb_neq; exact N].
  Qed.

  Lemma enter_sar_ok o cl local start k :
    ros_ok u c o cl -> pas_stack u c 4 k -> ret_ty false k ->
    aok gh_nil (S (S (sw k))) (enter_search_and_reserve g u o cl local start k).
  Proof.
    intros R P T. assert (N : ntrees u <> 0) by (destruct R as (r & E & _); eapply ntrees_pos; exact E).
    unfold enter_search_and_reserve. destruct (Nat.ltb o (hord g)).
    - eapply aok_weak; [|apply enter_sb_ok]; [cbn [sw fold_right fw]; fold (sw k); lia|exact R|exact I|exact N| |].
      + apply pas_cons; [exact R|cbn; lia|exact P].
      + apply ret_ty_cons; [reflexivity|exact T].
    - eapply aok_weak; [|apply enter_sb_ok]; [lia|exact R|exact I|exact N|eapply pas_weak; [|exact P]; lia|exact T].
  Qed.

  (* steal_local / demote_local *)
  Lemma steal_scan_slots cl free n : forall i j i' j',
    steal_scan policy u cl free i j n = Some (i', j') ->
    exists l, class_slots u ((i' + cl) mod 8) = Some l /\ j' < N.of_nat (length l).
  Proof.
    induction n as [|n IH]; intros i j i' j'; cbn [steal_scan]; [discriminate|].
    destruct (8 <=? i); [discriminate|].
    destruct (class_slots u ((i + cl) mod 8)) as [l|] eqn:El; [|apply IH].
    destruct (policy cl ((i + cl) mod 8) free); try apply IH;
      (destruct (j <? N.of_nat (length l)) eqn:Ej; [|apply IH]; intros H; inversion H; subst;
       exists l; split; [exact El|apply N.ltb_lt; exact Ej]).
  Qed.
  Lemma demote_scan_slots cl free n : forall i j i' j',
    demote_scan policy u cl free i j n = Some (i', j') ->
    policy cl ((i' + cl) mod 8) free = PDemote /\
    exists l, class_slots u ((i' + cl) mod 8) = Some l /\ j' < N.of_nat (length l).
  Proof.
    induction n as [|n IH]; intros i j i' j'; cbn [demote_scan]; [discriminate|].
    destruct (8 <=? i); [discriminate|].
    destruct (class_slots u ((i + cl) mod 8)) as [l|] eqn:El; [|apply IH].
    destruct (policy cl ((i + cl) mod 8) free) eqn:Ep; try apply IH.
    destruct (j <? N.of_nat (length l)) eqn:Ej; [|apply IH]. intros H; inversion H; subst.
    split; [exact Ep|]. exists l; split; [exact El|apply N.ltb_lt; exact Ej].
  Qed.

  Lemma slot_ok_mod tc l index j :
    class_slots u tc = Some l -> j < N.of_nat (length l) ->
    slot_ok u tc ((index + j) mod match class_locals u tc with Some n => n | None => 1 end) = true.
  Proof.
    intros E L. unfold slot_ok, class_locals. rewrite E. cbn [option_map]. apply N.ltb_lt. apply N.mod_lt. lia.
  Qed.

  Lemma sl_next_ok r fr i j k :
    c = UGet fr r -> pas_stack u c 2 k -> ret_ty false k ->
    aok gh_nil (S (sw k)) (sl_next g policy u r fr i j k).
  Proof.
    intros Ec P T. unfold sl_next.
    destruct (steal_scan policy u (r_class r) (pow2 (r_order r)) i j 9) as [[i' j']|] eqn:E.
    - destruct (steal_scan_slots _ _ _ _ _ _ _ E) as (l & El & Lj).
      apply aok_do; [| |apply not_lprim_enter; discriminate].
      + cbn [twf]. split; [|split; [exact P|exact T]]. cbn [top_wf]. split; [exact Ec|].
        eexists. split; [left; reflexivity|]. apply slot_ok_mod with (l := l); assumption.
      + eapply gh_top_nil; [exact P|reflexivity|reflexivity].
    - apply aok_err; [eapply pas_weak; [|exact P]; lia|exact T].
  Qed.

  Lemma dl_next_ok r fr i j k :
    c = UGet fr r -> pas_stack u c 2 k -> ret_ty false k ->
    aok gh_nil (S (sw k)) (dl_next g policy u r fr i j k).
  Proof.
    intros Ec P T. unfold dl_next.
    destruct (demote_scan policy u (r_class r) (pow2 (r_order r)) i j 9) as [[i' j']|] eqn:E.
    - destruct (demote_scan_slots _ _ _ _ _ _ _ E) as (Ep & l & El & Lj).
      apply aok_do; [| |apply not_lprim_enter; discriminate].
      + cbn [twf]. split; [|split; [exact P|exact T]]. cbn [top_wf]. split; [exact Ec|].
        eexists. split; [left; reflexivity|]. split; [apply slot_ok_mod with (l := l); assumption|exact Ep].
      + eapply gh_top_nil; [exact P|reflexivity|reflexivity].
    - apply aok_err; [eapply pas_weak; [|exact P]; lia|exact T].
  Qed.

  Lemma enter_demote_local_ok r fr k :
    c = UGet fr r -> pas_stack u c 2 k -> ret_ty false k ->
    aok gh_nil (S (sw k)) (enter_demote_local g policy u r fr k).
  Proof.
    intros Ec P T. unfold enter_demote_local. destruct (class_slots u (r_class r)).
    - apply dl_next_ok; assumption.
    - apply aok_err; [eapply pas_weak; [|exact P]; lia|exact T].
  Qed.

  (* facts about the call *)
  Lemma get_req fr r : c = UGet fr r -> req_ok g u r.
  Proof. intros ->. destruct fr; cbn [call_wf_w call_wf] in CW; [exact (proj1 CW)|exact CW]. Qed.
  Lemma get_frame f r : c = UGet (Some f) r -> frame_ok u f (r_order r).
  Proof. intros ->. exact (proj2 CW). Qed.
  Lemma frame_tree_lt f o : frame_ok u f o -> f / TF < ntrees u.
  Proof.
    intros [_ H]. rewrite SH. apply (div_lt_ntab g). pose proof (pow2_pos o). lia.
  Qed.

  Lemma after_local_ok B f r k :
    c = UGet (Some f) r -> pas_stack u c 5 k -> ret_ty false k ->
    aok gh_nil B (after_local g u f r k).
  Proof.
    intros Ec P T. unfold after_local, enter_steal_global.
    pose proof (frame_tree_lt _ _ (get_frame _ _ Ec)) as L.
    assert (P2 : pas_stack u c 2 (KGet2 r (Some f) :: k)) by (apply pas_cons; [exact Ec|cbn; lia|exact P]).
    apply enter_tu_ok; [exact L| |].
    - cbn [twf]. split; [|split; [exact P2|apply ret_ty_cons; [reflexivity|exact T]]].
      cbn [top_wf]. exists r. split; [exact Ec|]. split; [reflexivity|]. split; [left; reflexivity|].
      split; [exact L|]. intros f' E. inversion E; reflexivity.
    - eapply gh_top_nil; [exact P2|reflexivity|reflexivity].
  Qed.

  Lemma slot_ok_local r fr local : c = UGet fr r \/ (exists f, c = UPut f r) -> r_local r = Some local ->
    slot_ok u (r_class r) local = true /\ exists len, class_locals u (r_class r) = Some len /\ local < len.
  Proof.
    intros Ec El. assert (R : req_ok g u r).
    { destruct Ec as [Ec|(f & Ec)]; [eapply get_req; exact Ec|]. rewrite Ec in CW. exact (proj1 CW). }
    destruct R as (_ & _ & len & E & Hl). specialize (Hl _ El). split; [|exists len; split; assumption].
    unfold slot_ok. rewrite E. apply N.ltb_lt. exact Hl.
  Qed.

  Lemma slot_ok_inv cl local : slot_ok u cl local = true -> exists len, class_locals u cl = Some len /\ local < len.
  Proof.
    unfold slot_ok. destruct (class_locals u cl) as [len|]; [|discriminate]. intros H. exists len. split; [reflexivity|apply N.ltb_lt; exact H].
  Qed.

  Lemma enter_get_local_ok B fr r local sync k :
    c = UGet fr r -> slot_ok u (r_class r) local = true -> pas_stack u c 2 k -> ret_ty true k ->
    aok gh_nil B (enter_get_local g u (r_order r) (r_class r) local fr sync k).
  Proof.
    intros Ec S P T. destruct (slot_ok_inv _ _ S) as (len & E & L).
    unfold enter_get_local. rewrite E. apply N.ltb_lt in L. rewrite L.
    apply aok_do; [| |apply not_lprim_enter; discriminate].
    - cbn [twf]. split; [|split; [exact P|exact T]]. cbn [top_wf]. exists r. split; [exact Ec|].
      split; [reflexivity|]. split; [reflexivity|]. split; [left; reflexivity|exact S].
    - eapply gh_top_nil; [exact P|reflexivity|reflexivity].
  Qed.

  (* change_tree: Trees::search over all trees / change_at *)
  Lemma enter_access_change B a i k :
    acc_wf u c a -> (exists mc mf ch, a = AcChange mc mf ch) -> i < ntrees u -> pas_stack u c 2 k -> ret_ty false k ->
    aok gh_nil B (enter_access u a i k).
  Proof.
    intros A (mc & mf & ch & ->) L P T. cbn [acc_wf enter_access] in *. destruct A as (m & Ec & -> & ->).
    rewrite (tree_ok_lt _ L). apply aok_do; [| |apply not_lprim_enter; discriminate].
    - cbn [twf]. split; [|split; [exact P|exact T]]. cbn [top_wf]. exists i, m, ch. split; [exact Ec|].
      split; [left; reflexivity|exact L].
    - eapply gh_top_nil; [exact P|reflexivity|reflexivity].
  Qed.

  Lemma se_next_ok a i n k :
    acc_wf u c a -> (exists mc mf ch, a = AcChange mc mf ch) -> ntrees u <> 0 -> pas_stack u c 3 k -> ret_ty false k ->
    aok gh_nil (S (sw k)) (se_next u a i n k).
  Proof.
    intros A C N P T. destruct n as [|n]; cbn [se_next].
    - apply aok_err; [eapply pas_weak; [|exact P]; lia|exact T].
    - apply enter_access_change; [exact A|exact C|apply walk_idx_lt; exact N| |apply ret_ty_cons; [reflexivity|exact T]].
      apply pas_cons; [cbn [pas_wf]; split; [exact A|split; [exact C|exact N]]|cbn; lia|exact P].
  Qed.

  (* the passive frames: a value is returned to them *)
  Lemma ret_r_ok G r k :
    pas_stack u c 0 k -> ret_ty false k -> (forall z, r <> Panic z) -> gh_eq (ret_gh c r) G ->
    aok G (S (sw k)) (ret_r r k).
  Proof.
    intros P T N E. destruct r as [x|e|z]; cbn [ret_r]; [| |destruct (N z eq_refl)];
      (split; [cbn [act_ok]; split; [exact P|]; split; [exact T|]; split; [exact N|exact E]|cbn; lia]).
  Qed.

  Lemma sorted_tail f k : sorted_from 0 (f :: k) -> sorted_from (lvl f) k.
  Proof. intros [_ H]. exact H. Qed.

  Lemma resume_pas G v f k :
    act_ok G (ARet v (f :: k)) ->
    aok G (sw (f :: k)) (resume g policy u v f k).
  Proof.
    intros A. destruct v as [? ? ?|? ? ?|?|r|x]; cbn [act_ok] in A; try (destruct A; fail).
    - (* VR *)
      destruct A as ((PF & PS) & T & NP & E). inversion PF as [|? ? Pf Pk]; subst.
      pose proof (sorted_tail _ _ PS) as Sk. pose proof (ret_ty_tail _ _ _ T) as Tk.
      assert (P0 : pas_stack u c 0 k) by (split; [exact Pk|eapply sorted_weak; [|exact Sk]; lia]).
      destruct T as [Wf _].
      assert (RR : aok G (sw (f :: k)) (ret_r r k)).
      { eapply aok_weak; [|apply ret_r_ok; assumption]. cbn [sw fold_right]. fold (sw k). destruct f; cbn [fw]; lia. }
      destruct f; cbn [pas_wf] in Pf; try (destruct Pf; fail); cbn [wants_vg] in Wf; try discriminate;
        cbn [resume]; cbn [lvl] in Sk.
      (* every such frame handles Err EMemory and passes any other result on *)
      all: destruct r as [x|e|z]; [exact RR| |exact RR]; destruct e; try exact RR.
      all: apply (aok_eq gh_nil); [rewrite ret_gh_err in E; exact E|].
      + (* KGet2 *)
        unfold enter_steal_local.
        eapply aok_weak; [|apply sl_next_ok; [exact Pf| |]].
        * cbn [sw fold_right fw]. fold (sw k). lia.
        * apply pas_cons; [exact Pf|cbn; lia|split; [exact Pk|exact Sk]].
        * apply ret_ty_cons; [reflexivity|exact Tk].
      + (* KOom1 *)
        eapply aok_weak; [|apply enter_demote_local_ok; [exact Pf| |exact Tk]].
        * cbn [sw fold_right fw]. fold (sw k). lia.
        * split; [exact Pk|eapply sorted_weak; [|exact Sk]; lia].
      + (* KSR1 *)
        eapply aok_weak; [|apply enter_sb_ok; [exact Pf|exact I| | |exact Tk]].
        * cbn [sw fold_right fw]. fold (sw k). lia.
        * destruct Pf as (r0 & Ec & _). eapply ntrees_pos; exact Ec.
        * split; [exact Pk|eapply sorted_weak; [|exact Sk]; lia].
      + (* KSBA *)
        eapply aok_weak; [|apply sb_next_ok; [exact Pf| |exact Tk]].
        * cbn [sw fold_right fw]. fold (sw k). lia.
        * split; [exact Pk|exact Sk].
      + (* KSBT *)
        destruct Pf as [Ps Pc].
        eapply aok_weak; [|apply sb_try_ok; [exact Ps|exact Pc| |exact Tk]].
        * cbn [sw fold_right fw]. fold (sw k). lia.
        * split; [exact Pk|exact Sk].
      + (* KSe *)
        destruct Pf as (Pa & Pc & Pn).
        eapply aok_weak; [|apply se_next_ok; [exact Pa|exact Pc|exact Pn| |exact Tk]].
        * cbn [sw fold_right fw]. fold (sw k). lia.
        * split; [exact Pk|exact Sk].
    - (* VG *)
      destruct A as ((PF & PS) & T & NP & E). inversion PF as [|? ? Pf Pk]; subst.
      pose proof (sorted_tail _ _ PS) as Sk. pose proof (ret_ty_tail _ _ _ T) as Tk.
      assert (P0 : pas_stack u c 0 k) by (split; [exact Pk|eapply sorted_weak; [|exact Sk]; lia]).
      destruct T as [Wf _].
      destruct f; cbn [pas_wf] in Pf; try (destruct Pf; fail); cbn [wants_vg] in Wf; try discriminate;
        cbn [resume]; cbn [lvl] in Sk.
      + (* KGet1 *)
        destruct Pf as (Ec & local & len & El & Ecl & Ll).
        destruct x as [fr cl|e t|z]; [| |destruct (NP z eq_refl)].
        * split; [|cbn [wt sw fold_right fw]; fold (sw k); lia]. cbn [act_ok]. split; [exact P0|]. split; [exact Tk|].
          split; [discriminate|exact E].
        * assert (EG : gh_eq gh_nil G) by (cbn [glr_res] in E; rewrite ret_gh_err in E; exact E).
          apply (aok_eq gh_nil); [exact EG|].
          destruct e; try (eapply aok_weak; [|apply aok_err; assumption]; cbn [sw fold_right fw]; fold (sw k); lia).
          rewrite El.
          eapply aok_weak; [|apply enter_sar_ok].
          -- cbn [sw fold_right fw]. fold (sw k). lia.
          -- exists r. split; [exact Ec|]. split; [reflexivity|]. split; [reflexivity|]. exists len. split; assumption.
          -- apply pas_cons; [exact Ec|cbn; lia|split; [exact Pk|exact Sk]].
          -- apply ret_ty_cons; [reflexivity|exact Tk].
      + (* KAt1 *)
        destruct x as [fr cl|e t|z]; [| |destruct (NP z eq_refl)].
        * split; [|cbn [wt sw fold_right fw]; fold (sw k); lia]. cbn [act_ok]. split; [exact P0|]. split; [exact Tk|].
          split; [discriminate|exact E].
        * assert (EG : gh_eq gh_nil G) by (cbn [glr_res] in E; rewrite ret_gh_err in E; exact E).
          apply (aok_eq gh_nil); [exact EG|].
          destruct e; try (eapply aok_weak; [|apply aok_err; assumption]; cbn [sw fold_right fw]; fold (sw k); lia).
          apply after_local_ok; [exact Pf|split; [exact Pk|exact Sk]|exact Tk].
  Qed.

  (* settle *)
  Lemma settle_good fuel : forall a G, act_ok G a -> (wt a < fuel)%nat -> good G (settle g policy fuel u a).
  Proof.
    induction fuel as [|fuel IH]; intros a G A W; [lia|].
    destruct a as [p k|v k|z]; cbn [act_ok] in A; [exact A| |destruct A].
    destruct k as [|f k].
    - cbn [settle]. destruct v as [? ? ?|? ? ?|?|r|x]; try (destruct A; fail).
      + destruct A as (_ & _ & NP & E). destruct r as [x|e|z]; [split; assumption|split; assumption|destruct (NP z eq_refl)].
      + destruct A as (_ & T & _). discriminate T.
    - cbn [settle]. destruct (resume_pas G v f k A) as [A' W']. apply IH; [exact A'|]. cbn [wt] in W. lia.
  Qed.

  Lemma act_wt_bound G a : act_ok G a -> (wt a <= WMAX)%nat.
  Proof.
    destruct a as [p k|v k|z]; cbn [wt]; [lia| |lia]. intros A.
    assert (S : sorted_from 0 k).
    { cbn [act_ok] in A. destruct v; try (destruct A; fail); destruct A as ((_ & S) & _); exact S. }
    pose proof (sorted_len k 0 ltac:(lia) S). pose proof (sw_le k). lia.
  Qed.

  Lemma settle_ok a G : act_ok G a -> good G (settle g policy SETTLE u a).
  Proof. intros A. apply settle_good; [exact A|]. pose proof (act_wt_bound _ _ A). unfold SETTLE. lia. Qed.

  (* the top frame: a primitive delivers its value *)
  Definition slot_in (s : slot) : Prop :=
    s_pres s = true -> rt g s < ntrees u /\ s_row s * 64 < frames (low u).
  (* what the access guarantees about the delivered value: NO accounting fact (an unreserve may fail, the free
     counter of a slot is unconstrained); a change_at closure (the only one evaluated with `fetch_free`) is unconstrained *)
  Definition vfacts (p : prim) (v : val) : Prop :=
    match p with
    | PLd _ => exists t, v = VT true t t
    | PTL _ f0 | PTC _ f0 _ _ | PTF _ f0 _ _ _ =>
        exists ok old new, v = VT ok old new /\
          ((forall a b ch, f0 <> FChange a b ch) ->
           if ok then tf_apply g policy (dflt u) f0 old 0 = Some (Ok new)
           else tf_apply g policy (dflt u) f0 old 0 = None)
    | PSL _ _ f0 | PSC _ _ f0 _ _ =>
        exists ok old new, v = VS ok old new /\ slot_in old /\
          (if ok then sf_apply g f0 old = Some (Ok new) else sf_apply g f0 old = None)
    | PSW _ _ nw => exists old, v = VS true old nw /\ slot_in old
    | PLow th =>
        exists cl pc, th = TRun cl pc /\
          match v with
          | VL (Ok fr) => is_put cl = false -> fr / TF = c_frame cl / TF /\ fr < frames (low u)
          | VL (Err e) => e = EMemory
          | _ => False
          end
    end.

  (* The one way the continuation of a well-formed thread panics: the compare-exchange of an unreserve closure
     fails ("Unreserve failed").  The accounting invariant excludes it (`vfacts_unres_ok` below). *)
  Definition unres_fail (p : prim) (v : val) : Prop :=
    exists i a cl old new, tprim g policy u p i (FUnres a cl) /\ v = VT false old new.
  Definition aok_or_unres (G : ugh) (B : nat) (p : prim) (v : val) (a : act) : Prop :=
    aok G B a \/ (unres_fail p v /\ exists z, a = APanic z).
  Definition good_or_unres (G : ugh) (p : prim) (v : val) (x : settled) : Prop :=
    match x with SCrash _ => unres_fail p v | _ => good G x end.
  Lemma good_or_unres_intro G p v x : good G x -> good_or_unres G p v x.
  Proof. destruct x; intros H; try exact H. destruct H. Qed.
  Lemma good_of_or_unres G p v x : ~ unres_fail p v -> good_or_unres G p v x -> good G x.
  Proof. intros N. destruct x; intros H; try exact H. exact (N H). Qed.

  Lemma lhold_entry cl : is_put cl = false -> lhold g (TRun cl (entry_pc g cl)) = c_n cl.
  Proof.
    destruct cl; cbn [is_put]; try discriminate; intros _; cbn [entry_pc lhold]; destruct (Nat.leb _ _); cbn [lhold];
      rewrite ?N.mul_0_l, ?N.sub_0_r; reflexivity.
  Qed.
  Lemma low_call_n row o fr : c_n (low_get_call row o fr) = pow2 o.
  Proof. destruct fr; reflexivity. Qed.
  Lemma low_call_put row o fr : is_put (low_get_call row o fr) = false.
  Proof. destruct fr; reflexivity. Qed.
  Lemma cwf_low_get row fr r : c = UGet fr r -> row_ok g u fr row ->
    cwf g (frames (low u)) (low_get_call row (r_order r) fr) = true.
  Proof.
    intros Ec [R _]. destruct (get_req _ _ Ec) as (O & _). unfold cwf.
    replace (c_order (low_get_call row (r_order r) fr)) with (r_order r) by (destruct fr; reflexivity).
    apply Nat.leb_le in O. rewrite O. cbn [andb]. destruct fr as [f|]; cbn [low_get_call].
    - destruct (get_frame _ _ Ec) as [A B]. apply N.eqb_eq in A. apply N.leb_le in B. rewrite A, B. reflexivity.
    - apply N.ltb_lt. rewrite <- SH. exact R.
  Qed.

  Lemma enter_low_get G B F k cl :
    is_put cl = false -> cwf g (frames (low u)) cl = true ->
    top_wf g policy u c (PLow (TRun cl (entry_pc g cl))) F -> pas_stack u c (lvl F) k -> ret_ty (gives_vg F) k ->
    gh_eq (gh_add (low_gh g (c_n cl) (Some F)) (frame_gh g F)) G ->
    aok G B (enter_low g cl (F :: k)).
  Proof.
    intros Pu Cw T P R E. unfold enter_low. apply aok_do.
    - cbn [twf]. split; [exact T|split; [exact P|exact R]].
    - rewrite (pk_gh_top _ _ _ _ P). cbn [prim_gh]. rewrite (lhold_entry _ Pu). exact E.
    - intros th Eth. inversion Eth; subst. exists cl. split; [reflexivity|split; assumption].
  Qed.

  Lemma slot_get_facts s tree n s' : slot_get g s tree n = Some s' ->
    s_pres s = true /\ (forall t, tree = Some t -> rt g s = t) /\ n <= s_free s /\
    s' = {| s_pres := true; s_row := s_row s; s_free := s_free s - n |}.
  Proof.
    unfold slot_get. destruct (s_pres s); cbn [andb]; [|discriminate].
    destruct (match tree with Some i => row_tree g (s_row s) =? i | None => true end) eqn:Et; [|discriminate].
    destruct (n <=? s_free s) eqn:En; [|discriminate]. intros H; inversion H; subst.
    split; [reflexivity|]. split; [|split; [apply N.leb_le; exact En|reflexivity]].
    intros t ->. apply N.eqb_eq. exact Et.
  Qed.

  Lemma fr_tree_otree fr s : (forall t, otree g fr = Some t -> rt g s = t) -> fr_tree g fr (rt g s).
  Proof. intros H f ->. symmetry. apply H. reflexivity. Qed.

  Lemma sw_bound k lo : pas_stack u c lo k -> (S (sw k) <= WMAX)%nat.
  Proof.
    intros [_ S]. assert (S0 : sorted_from 0 k) by (eapply sorted_weak; [|exact S]; lia).
    pose proof (sw_le k). pose proof (sorted_len k 0 ltac:(lia) S0). lia.
  Qed.

  Lemma aok_gret G frm cl fr r k lo :
    c = UGet fr r -> pas_stack u c lo k -> ret_ty true k -> gh_eq (gh_bl frm) G ->
    aok G WMAX (ARet (VG (GOk frm cl)) k).
  Proof.
    intros Ec P T E. split; [|cbn [wt]; eapply sw_bound; exact P]. cbn [act_ok glr_res].
    split; [eapply pas_weak; [|exact P]; lia|]. split; [exact T|]. split; [discriminate|].
    rewrite Ec. exact E.
  Qed.
  Lemma aok_rret G frm cl fr r k lo :
    c = UGet fr r -> pas_stack u c lo k -> ret_ty false k -> gh_eq (gh_bl frm) G ->
    aok G WMAX (ARet (VR (Ok (frm, cl))) k).
  Proof.
    intros Ec P T E. split; [|cbn [wt]; eapply sw_bound; exact P]. cbn [act_ok].
    split; [eapply pas_weak; [|exact P]; lia|]. split; [exact T|]. split; [discriminate|].
    rewrite Ec. exact E.
  Qed.
  Lemma aok_gerr_max e t k lo : pas_stack u c lo k -> ret_ty true k -> aok gh_nil WMAX (ARet (VG (GErr e t)) k).
  Proof.
    intros P T. eapply aok_weak; [eapply sw_bound; exact P|]. apply aok_gerr; [eapply pas_weak; [|exact P]; lia|exact T].
  Qed.
  Lemma aok_err_max e k lo : pas_stack u c lo k -> ret_ty false k -> aok gh_nil WMAX (ARet (VR (Err e)) k).
  Proof.
    intros P T. eapply aok_weak; [eapply sw_bound; exact P|]. apply aok_err; [eapply pas_weak; [|exact P]; lia|exact T].
  Qed.

  (* get_local *)
  Lemma K_GL1 p o cl local fr sy k v :
    twf g policy u c p (KGL1 o cl local fr sy :: k) -> vfacts p v ->
    aok (gh_add (post_gh g p v (KGL1 o cl local fr sy)) gh_nil) WMAX (resume g policy u v (KGL1 o cl local fr sy) k).
  Proof.
    intros (T & P & R) V. cbn [top_wf] in T. destruct T as (r & Ec & -> & -> & Sp & So). cbn [lvl gives_vg] in P, R.
    assert (V' : exists ok old new, v = VS ok old new /\ slot_in old /\
              (if ok then sf_apply g (SGet (otree g fr) (pow2 (r_order r))) old = Some (Ok new)
               else sf_apply g (SGet (otree g fr) (pow2 (r_order r))) old = None) /\
              post_gh g p v (KGL1 (r_order r) (r_class r) local fr sy)
              = if ok then gh_cr (rt g old) (pow2 (r_order r)) else gh_nil).
    { destruct Sp as [->|(cur & new & -> & _)]; cbn [vfacts] in V; destruct V as (ok & old & new' & -> & Si & Ha);
        exists ok, old, new'; (split; [reflexivity|]; split; [exact Si|]; split; [exact Ha|]); destruct ok; reflexivity. }
    clear V Sp. destruct V' as (ok & old & new & -> & Si & Ha & ->). cbn [resume]. rewrite gh_add_nil_r.
    assert (P0 : pas_stack u c 0 k) by (eapply pas_weak; [|exact P]; lia).
    destruct ok.
    - (* the slot had enough: call the lower allocator *)
      cbn [sf_apply] in Ha. destruct (slot_get g old (otree g fr) (pow2 (r_order r))) as [s'|] eqn:Eg; [|discriminate].
      destruct (slot_get_facts _ _ _ _ Eg) as (Pr & Tr & Le & _). destruct (Si Pr) as (L1 & L2).
      assert (RO : row_ok g u fr (s_row old)) by (split; [exact L1|apply fr_tree_otree; exact Tr]).
      apply enter_low_get; [apply low_call_put|apply cwf_low_get; assumption| |exact P|exact R|].
      + cbn [top_wf]. exists fr, r. split; [exact Ec|]. split; [reflexivity|]. split; [reflexivity|]. split; [exact So|].
        split; [eexists; reflexivity|exact RO].
      + rewrite low_call_n. cbn [low_gh frame_gh]. rewrite gh_add_nil_r. apply gh_eq_refl.
    - cbn [sf_apply] in Ha.
      destruct (s_pres old) eqn:Pr; [|eapply aok_gerr_max; eassumption].
      destruct (sy && _) eqn:Es; [|eapply aok_gerr_max; eassumption].
      (* sync with the tree counter *)
      destruct (Si Pr) as (L1 & L2).
      assert (Hlt : pow2 (r_order r) <? s_free old = false).
      { apply N.ltb_ge. destruct (slot_get g old (otree g fr) (pow2 (r_order r))) eqn:Eg; [discriminate|].
        unfold slot_get in Eg. rewrite Pr in Eg. cbn [andb] in Eg.
        apply andb_true_iff in Es. destruct Es as [_ Es].
        assert (Et : match otree g fr with Some i => row_tree g (s_row old) =? i | None => true end = true).
        { destruct fr as [f|]; cbn [otree option_map]; [|reflexivity]. rewrite N.eqb_sym. exact Es. }
        rewrite Et in Eg. destruct (pow2 (r_order r) <=? s_free old) eqn:El; [discriminate|]. apply N.leb_gt in El. lia. }
      rewrite Hlt. apply enter_tu_ok; [exact L1| |].
      + cbn [twf]. split; [|split; [exact P|exact R]]. cbn [top_wf]. exists r, (pow2 (r_order r) - s_free old).
        split; [exact Ec|]. split; [reflexivity|]. split; [reflexivity|]. split; [left; reflexivity|]. split; [exact L1|exact So].
      + eapply gh_top_nil; [exact P|reflexivity|reflexivity].
  Qed.

  (* the value delivered by a tree / slot / lower primitive *)
  Lemma tprim_v p i f0 v : tprim g policy u p i f0 -> vfacts p v ->
    exists ok old new, v = VT ok old new /\
      ((forall a b ch, f0 <> FChange a b ch) ->
       if ok then tf_apply g policy (dflt u) f0 old 0 = Some (Ok new) else tf_apply g policy (dflt u) f0 old 0 = None) /\
      post_gh g p v = post_gh g (PTL i f0) v.
  Proof.
    intros [->|(cur & new & -> & _)] V; cbn [vfacts] in V; destruct V as (ok & old & new' & -> & A);
      exists ok, old, new'; repeat split; assumption.
  Qed.
  Lemma tprim_v_nochange p i f0 v : tprim g policy u p i f0 -> vfacts p v -> (forall a b ch, f0 <> FChange a b ch) ->
    exists ok old new, v = VT ok old new /\
      (if ok then tf_apply g policy (dflt u) f0 old 0 = Some (Ok new) else tf_apply g policy (dflt u) f0 old 0 = None) /\
      post_gh g p v = post_gh g (PTL i f0) v.
  Proof. intros Tp V NC. destruct (tprim_v _ _ _ _ Tp V) as (ok & old & new & E & A & B). exists ok, old, new. split; [exact E|split; [exact (A NC)|exact B]]. Qed.
  Lemma sprim_v p cl idx f0 v : sprim g p cl idx f0 -> vfacts p v ->
    exists ok old new, v = VS ok old new /\ slot_in old /\
      (if ok then sf_apply g f0 old = Some (Ok new) else sf_apply g f0 old = None) /\
      post_gh g p v = post_gh g (PSL cl idx f0) v.
  Proof.
    intros [->|(cur & new & -> & _)] V; cbn [vfacts] in V; destruct V as (ok & old & new' & -> & A & B);
      exists ok, old, new'; (split; [reflexivity|]; split; [exact A|]; split; [exact B|]); destruct ok; reflexivity.
  Qed.
  Lemma lprim_v p cl v : lprim p cl -> vfacts p v ->
    exists pc, p = PLow (TRun cl pc) /\
      ((exists frm, v = VL (Ok frm) /\ (is_put cl = false -> frm / TF = c_frame cl / TF /\ frm < frames (low u))) \/
       v = VL (Err EMemory)).
  Proof.
    intros (pc & ->) V. cbn [vfacts] in V. destruct V as (cl' & pc' & E & V). inversion E; subst cl' pc'.
    exists pc. split; [reflexivity|]. destruct v as [? ? ?|? ? ?|x|?|?]; try (destruct V; fail).
    destruct x as [frm|e|z]; [left; exists frm; split; [reflexivity|exact V]|right; subst; reflexivity|destruct V].
  Qed.

  Lemma tput_gh t n F k lo : pas_stack u c lo k -> frame_gh g F = gh_nil ->
    gh_eq (pk_gh g (PTL t (FPut n)) (F :: k)) (gh_cr t n).
  Proof. intros P E. rewrite (pk_gh_top _ _ _ _ P), E. cbn [prim_gh tf_gh]. rewrite gh_add_nil_r. apply gh_eq_refl. Qed.

  Lemma fput_some d t n : tf_apply g policy d (FPut n) t 0 <> None.
  Proof. cbn [tf_apply]. discriminate. Qed.

  Lemma K_GL2 p o cl local row k v :
    twf g policy u c p (KGL2 o cl local row :: k) -> vfacts p v ->
    aok (gh_add (post_gh g p v (KGL2 o cl local row)) gh_nil) WMAX (resume g policy u v (KGL2 o cl local row) k).
  Proof.
    intros (T & P & R) V. cbn [top_wf] in T. destruct T as (fr & r & Ec & -> & -> & So & Lp & RO). cbn [lvl gives_vg] in P, R.
    destruct (lprim_v _ _ _ Lp V) as (pc & -> & [(frm & -> & Hf)| ->]); cbn [resume post_gh]; rewrite gh_add_nil_r.
    - destruct (Hf (low_call_put _ _ _)) as (Ht & Hl).
      destruct (row =? frm / 64); [eapply aok_gret; [exact Ec|exact P|exact R|apply gh_eq_refl]|].
      destruct (slot_ok_inv _ _ So) as (len & E & L). rewrite E. apply N.ltb_lt in L. rewrite L.
      apply aok_do; [| |apply not_lprim_enter; discriminate].
      + cbn [twf]. split; [|split; [exact P|exact R]]. cbn [top_wf]. exists fr, r, local, (frm / 64).
        split; [exact Ec|]. split; [reflexivity|]. split; [left; reflexivity|]. split; [exact So|].
        pose proof (N.mul_div_le frm 64 ltac:(lia)). lia.
      + rewrite (pk_gh_top _ _ _ _ P). cbn [prim_gh sf_gh frame_gh]. rewrite gh_add_nil_l. apply gh_eq_refl.
    - unfold enter_tput. apply enter_tu_ok; [apply RO| |].
      + cbn [twf]. split; [|split; [exact P|exact R]]. cbn [top_wf]. eexists. split; [left; reflexivity|apply RO].
      + eapply gh_eq_trans; [eapply tput_gh; [exact P|reflexivity]|]. rewrite low_call_n. cbn [low_gh]. apply gh_eq_refl.
  Qed.

  Lemma K_GL3 p frm cl k v :
    twf g policy u c p (KGL3 frm cl :: k) -> vfacts p v ->
    aok (gh_add (post_gh g p v (KGL3 frm cl)) (gh_bl frm)) WMAX (resume g policy u v (KGL3 frm cl) k).
  Proof.
    intros (T & P & R) V. cbn [top_wf] in T. destruct T as (fr & r & local & row' & Ec & -> & Sp & So & Hr). cbn [lvl gives_vg] in P, R.
    destruct (sprim_v _ _ _ _ _ Sp V) as (ok & old & new & -> & Si & Ha & ->). cbn [resume].
    eapply aok_gret; [exact Ec|exact P|exact R|]. destruct ok; cbn [post_gh sf_gh]; rewrite gh_add_nil_l; apply gh_eq_refl.
  Qed.

  Lemma K_GL4 p e t k v :
    twf g policy u c p (KGL4 e t :: k) -> vfacts p v ->
    aok (gh_add (post_gh g p v (KGL4 e t)) gh_nil) WMAX (resume g policy u v (KGL4 e t) k).
  Proof.
    intros (T & P & R) V. cbn [top_wf] in T. destruct T as (n & Tp & L). cbn [lvl gives_vg] in P, R.
    destruct (tprim_v_nochange _ _ _ _ Tp V ltac:(discriminate)) as (ok & old & new & -> & Ha & ->). cbn [resume].
    destruct ok; [|destruct (fput_some _ _ _ Ha)]. cbn [post_gh]. rewrite gh_add_nil_r. eapply aok_gerr_max; eassumption.
  Qed.

  Lemma K_GL5 p o cl local fr t k v :
    twf g policy u c p (KGL5 o cl local fr t :: k) -> vfacts p v ->
    aok (gh_add (post_gh g p v (KGL5 o cl local fr t)) gh_nil) WMAX (resume g policy u v (KGL5 o cl local fr t) k).
  Proof.
    intros (T & P & R) V. cbn [top_wf] in T. destruct T as (r & mn & Ec & -> & -> & Tp & L & So). cbn [lvl gives_vg] in P, R.
    destruct (tprim_v_nochange _ _ _ _ Tp V ltac:(discriminate)) as (ok & old & new & -> & Ha & ->). cbn [resume post_gh]. rewrite gh_add_nil_r.
    destruct ok; [|cbn [tf_gh]; eapply aok_gerr_max; eassumption].
    destruct (slot_ok_inv _ _ So) as (len & E & Ll). rewrite E. apply N.ltb_lt in Ll. rewrite Ll.
    apply aok_do; [| |apply not_lprim_enter; discriminate].
    - cbn [twf]. split; [|split; [exact P|exact R]]. cbn [top_wf]. exists r. split; [exact Ec|]. split; [reflexivity|].
      split; [reflexivity|]. split; [left; reflexivity|]. split; [exact L|exact So].
    - rewrite (pk_gh_top _ _ _ _ P). cbn [prim_gh sf_gh frame_gh]. rewrite gh_add_nil_r. apply gh_eq_refl.
  Qed.

  Lemma K_GL6 p o cl local fr t am k v :
    twf g policy u c p (KGL6 o cl local fr t am :: k) -> vfacts p v ->
    aok (gh_add (post_gh g p v (KGL6 o cl local fr t am)) gh_nil) WMAX (resume g policy u v (KGL6 o cl local fr t am) k).
  Proof.
    intros (T & P & R) V. cbn [top_wf] in T. destruct T as (r & Ec & -> & -> & Sp & L & So). cbn [lvl gives_vg] in P, R.
    destruct (sprim_v _ _ _ _ _ Sp V) as (ok & old & new & -> & Si & Ha & ->). cbn [resume post_gh]. rewrite gh_add_nil_r.
    destruct ok.
    - apply enter_get_local_ok; assumption.
    - unfold enter_tput. apply enter_tu_ok; [exact L| |].
      + cbn [twf]. split; [|split; [exact P|exact R]]. cbn [top_wf]. eexists. split; [left; reflexivity|exact L].
      + eapply tput_gh; [exact P|reflexivity].
  Qed.

  (* search_best *)
  Lemma cands_add cap best key idx : cands_ok u best -> idx < ntrees u -> cands_ok u (sb_add N.leb cap best (key, idx)).
  Proof.
    intros C L. apply Forall_forall. intros y Hy. apply sb_add_In in Hy. destruct Hy as [->|Hy]; [exact L|].
    exact (proj1 (Forall_forall _ _) C y Hy).
  Qed.

  Lemma K_SBL p sb k v :
    twf g policy u c p (KSBL sb :: k) -> vfacts p v ->
    aok (gh_add (post_gh g p v (KSBL sb)) gh_nil) WMAX (resume g policy u v (KSBL sb) k).
  Proof.
    intros (T & P & R) V. cbn [top_wf] in T. destruct T as ((i & -> & Li) & S). cbn [lvl gives_vg] in P, R.
    cbn [vfacts] in V. destruct V as (t & ->). cbn [resume post_gh]. rewrite gh_add_nil_r.
    assert (NX : forall sb', sb_wf u c sb' -> aok gh_nil WMAX (sb_next u sb' k)).
    { intros sb' S'. eapply aok_weak; [eapply sw_bound; exact P|]. apply sb_next_ok; assumption. }
    destruct S as (A & C & N).
    pose proof (walk_idx_lt (sb_start sb) (ntrees u) (sb_i sb - 1) N) as Lw.
    assert (S : sb_wf u c sb) by (split; [exact A|split; [exact C|exact N]]).
    assert (AD : forall key, aok gh_nil WMAX
              (sb_next u {| sb_acc := sb_acc sb; sb_rate := sb_rate sb; sb_cap := sb_cap sb; sb_start := sb_start sb;
                            sb_i := sb_i sb; sb_n := sb_n sb;
                            sb_best := sb_add N.leb (sb_cap sb) (sb_best sb)
                                         (key, walk_idx (sb_start sb) (ntrees u) (sb_i sb - 1)) |} k)).
    { intros key. apply NX. split; [exact A|]. split; [apply cands_add; assumption|exact N]. }
    destruct (t_res t); [apply NX; exact S|].
    destruct (rate_apply g policy (sb_rate sb) (t_class t) (t_free t)) as [n| | |]; try (apply AD); [|apply NX; exact S].
    destruct n as [|q]; [apply AD|].
    (* the rate is compared with the literal 255 (a perfect match): peel the 8 bits of the positive *)
    do 8 (destruct q as [q|q|]; try apply AD).
    apply enter_access_ok; [exact (proj1 A)|exact (proj2 A)|exact Lw| |apply ret_ty_cons; [reflexivity|exact R]].
    apply pas_cons; [exact S|cbn; lia|exact P].
  Qed.

  (* reserve_or_steal *)
  Lemma ros_facts d t n cl new : tf_apply g policy d (FRos n cl) t 0 = Some (Ok new) ->
    n <= t_free t /\ (t_res new = true -> t_class new = cl).
  Proof.
    cbn [tf_apply]. unfold tree_reserve_or_steal.
    destruct ((n <=? t_free t) && negb (t_res t)) eqn:Ec; [|discriminate].
    apply andb_true_iff in Ec. destruct Ec as [Ln Nr]. apply N.leb_le in Ln. apply negb_true_iff in Nr.
    destruct (policy cl (t_class t) n); cbn [option_map]; intros H; inversion H; subst; cbn [t_res t_class];
      (split; [exact Ln|]); try reflexivity; intros Q; congruence.
  Qed.

  Lemma cwf_cget i o : (o <= tord g)%nat -> i < ntrees u -> cwf g (frames (low u)) (CGet (tree_row g i) o) = true.
  Proof.
    intros O L. unfold cwf. cbn [c_order]. apply Nat.leb_le in O. rewrite O. cbn [andb]. apply N.ltb_lt.
    change (tree_row g i * 64 / TF) with (row_tree g (tree_row g i)). rewrite (row_tree_tree_row g WF). rewrite <- SH. exact L.
  Qed.

  Lemma K_RS1 p i o cl local k v :
    twf g policy u c p (KRS1 i o cl local :: k) -> vfacts p v ->
    aok (gh_add (post_gh g p v (KRS1 i o cl local)) gh_nil) WMAX (resume g policy u v (KRS1 i o cl local) k).
  Proof.
    intros (T & P & R) V. cbn [top_wf] in T. destruct T as (RO & Tp & Li). cbn [lvl gives_vg] in P, R.
    destruct (tprim_v_nochange _ _ _ _ Tp V ltac:(discriminate)) as (ok & old & new & -> & Ha & ->). cbn [resume post_gh]. rewrite gh_add_nil_r.
    destruct ok; [|cbn [tf_gh]; eapply aok_err_max; eassumption].
    destruct RO as (r & Ec & -> & -> & len & El & Ll). destruct (ros_facts _ _ _ _ _ Ha) as (Ln & Hc).
    destruct (get_req _ _ Ec) as (O & _).
    apply enter_low_get; [reflexivity|apply cwf_cget; assumption| |exact P|exact R|].
    - cbn [top_wf]. exists r. split; [exact Ec|]. split; [reflexivity|]. split; [eexists; reflexivity|]. split; [exact Li|].
      intros Hr. split; [apply Hc; exact Hr|]. split; [exact Ln|]. exists len. rewrite (Hc Hr). split; assumption.
    - cbn [c_n c_order low_gh frame_gh]. rewrite gh_add_nil_r. apply gh_eq_refl.
  Qed.

  Lemma unres_gh t a cl F k lo : pas_stack u c lo k ->
    pk_gh g (PTL t (FUnres a cl)) (F :: k) = gh_add (gh_ih t cl a) (frame_gh g F).
  Proof. intros P. rewrite (pk_gh_top _ _ _ _ P). reflexivity. Qed.

  Lemma K_RS2 p i o local reserved free tc k v :
    twf g policy u c p (KRS2 i o local reserved free tc :: k) -> vfacts p v ->
    aok (gh_add (post_gh g p v (KRS2 i o local reserved free tc)) gh_nil) WMAX
        (resume g policy u v (KRS2 i o local reserved free tc) k).
  Proof.
    intros (T & P & R) V. cbn [top_wf] in T. destruct T as (r & Ec & -> & Lp & Li & Hres). cbn [lvl gives_vg] in P, R.
    destruct (lprim_v _ _ _ Lp V) as (pc & -> & [(frm & -> & Hf)| ->]); cbn [resume post_gh]; rewrite gh_add_nil_r.
    - destruct (Hf eq_refl) as (Ht & Hl). cbn [c_frame] in Ht.
      change (tree_row g i * 64 / TF) with (row_tree g (tree_row g i)) in Ht. rewrite (row_tree_tree_row g WF) in Ht.
      destruct reserved; [|eapply aok_rret; [exact Ec|exact P|exact R|apply gh_eq_refl]].
      destruct (Hres eq_refl) as (-> & Ln & len & El & Ll). rewrite El. apply N.ltb_lt in Ll. rewrite Ll.
      apply aok_do; [| |apply not_lprim_enter; discriminate].
      + cbn [twf]. split; [|split; [exact P|exact R]]. cbn [top_wf]. eexists r, _, _. split; [exact Ec|]. split; [reflexivity|].
        split; [|split; [reflexivity|]].
        * unfold slot_ok. rewrite El. apply N.ltb_lt. apply N.mod_lt. apply N.ltb_lt in Ll. lia.
        * cbn [s_row]. rewrite (tree_row_64 g WF). pose proof (N.mul_div_le frm TF ltac:(pose proof (TF_pos g); lia)). lia.
      + rewrite (pk_gh_top _ _ _ _ P). cbn [prim_gh frame_gh]. unfold slot_gh. cbn [s_pres s_row s_free].
        rewrite (row_tree_tree_row g WF), Ht. apply gh_eq_refl.
    - destruct reserved.
      + apply enter_tu_ok; [exact Li| |].
        * cbn [twf]. split; [|split; [exact P|exact R]]. cbn [top_wf]. split; [eexists _, _, _; split; [left; reflexivity|exact Li]|].
          split; discriminate.
        * rewrite (unres_gh _ _ _ _ _ _ P). cbn [frame_gh]. rewrite gh_add_nil_r. apply gh_eq_refl.
      + unfold enter_tput. apply enter_tu_ok; [exact Li| |].
        * cbn [twf]. split; [|split; [exact P|exact R]]. cbn [top_wf]. split; [eexists _, _; split; [left; reflexivity|exact Li]|].
          split; discriminate.
        * eapply gh_eq_trans; [eapply tput_gh; [exact P|reflexivity]|]. cbn [c_n c_order low_gh]. apply gh_eq_refl.
  Qed.

  Lemma K_RS3 p frm tc k v :
    twf g policy u c p (KRS3 frm tc :: k) -> vfacts p v ->
    aok (gh_add (post_gh g p v (KRS3 frm tc)) (gh_bl frm)) WMAX (resume g policy u v (KRS3 frm tc) k).
  Proof.
    intros (T & P & R) V. cbn [top_wf] in T. destruct T as (r & idx & new & Ec & -> & So & Pn & Rn). cbn [lvl gives_vg] in P, R.
    cbn [vfacts] in V. destruct V as (old & -> & Si). cbn [resume post_gh]. unfold slot_gh.
    destruct (s_pres old) eqn:Po.
    - destruct (Si Po) as (L1 & L2). apply enter_tu_ok; [exact L1| |].
      + cbn [twf]. split; [|split; [exact P|exact R]]. cbn [top_wf]. split; [eexists _, _, _; split; [left; reflexivity|exact L1]|].
        split; [discriminate|]. intros x _. eexists _, _. exact Ec.
      + rewrite (unres_gh _ _ _ _ _ _ P). cbn [frame_gh]. apply gh_eq_refl.
    - eapply aok_rret; [exact Ec|exact P|exact R|]. rewrite gh_add_nil_l. apply gh_eq_refl.
  Qed.

  Lemma ret_r_ok_max G r k lo :
    pas_stack u c lo k -> ret_ty false k -> (forall z, r <> Panic z) -> gh_eq (ret_gh c r) G -> aok G WMAX (ret_r r k).
  Proof.
    intros P T N E. eapply aok_weak; [eapply sw_bound; exact P|]. apply ret_r_ok; [eapply pas_weak; [|exact P]; lia|exact T|exact N|exact E].
  Qed.

  Lemma K_Unres p rr k v :
    twf g policy u c p (KUnres rr :: k) -> vfacts p v ->
    aok_or_unres (gh_add (post_gh g p v (KUnres rr)) (frame_gh g (KUnres rr))) WMAX p v (resume g policy u v (KUnres rr) k).
  Proof.
    intros (T & P & R) V. cbn [top_wf] in T. destruct T as ((t & a & cl & Tp & L) & NP & HG). cbn [lvl gives_vg] in P, R.
    destruct (tprim_v _ _ _ _ Tp V) as (ok & old & new & -> & Ha & ->). cbn [resume].
    destruct ok; [left|right; split; [eexists _, _, _, _, _; split; [exact Tp|reflexivity]|eexists; reflexivity]]. cbn [post_gh]. rewrite gh_add_nil_l.
    eapply ret_r_ok_max; [exact P|exact R|exact NP|].
    destruct rr as [[fr0 c0]|e|z]; cbn [frame_gh].
    - destruct (HG _ eq_refl) as (fr & r & Ec). rewrite Ec. apply gh_eq_refl.
    - rewrite ret_gh_err. apply gh_eq_refl.
    - destruct (NP z eq_refl).
  Qed.

  Lemma K_RetR p rr k v :
    twf g policy u c p (KRetR rr :: k) -> vfacts p v ->
    aok (gh_add (post_gh g p v (KRetR rr)) gh_nil) WMAX (resume g policy u v (KRetR rr) k).
  Proof.
    intros (T & P & R) V. cbn [top_wf] in T. destruct T as ((t & n & Tp & L) & NP & HP). cbn [lvl gives_vg] in P, R.
    destruct (tprim_v_nochange _ _ _ _ Tp V ltac:(discriminate)) as (ok & old & new & -> & Ha & ->). cbn [resume].
    destruct ok; [|destruct (fput_some _ _ _ Ha)]. cbn [post_gh]. rewrite gh_add_nil_l.
    eapply ret_r_ok_max; [exact P|exact R|exact NP|].
    destruct rr as [x|e|z].
    - destruct (HP _ eq_refl) as (f & r & Ec). rewrite Ec. apply gh_eq_refl.
    - rewrite ret_gh_err. apply gh_eq_refl.
    - destruct (NP z eq_refl).
  Qed.

  (* steal_global *)
  Lemma row_ok_tree fr i : i < ntrees u -> fr_tree g fr i -> row_ok g u fr (tree_row g i).
  Proof. intros L F. unfold row_ok. rewrite (row_tree_tree_row g WF). split; assumption. Qed.

  Lemma K_SG1 p i o fr k v :
    twf g policy u c p (KSG1 i o fr :: k) -> vfacts p v ->
    aok (gh_add (post_gh g p v (KSG1 i o fr)) gh_nil) WMAX (resume g policy u v (KSG1 i o fr) k).
  Proof.
    intros (T & P & R) V. cbn [top_wf] in T. destruct T as (r & Ec & -> & Tp & Li & Ft). cbn [lvl gives_vg] in P, R.
    destruct (tprim_v_nochange _ _ _ _ Tp V ltac:(discriminate)) as (ok & old & new & -> & Ha & ->). cbn [resume post_gh]. rewrite gh_add_nil_r.
    destruct ok; [|cbn [tf_gh]; eapply aok_err_max; eassumption].
    apply enter_low_get; [apply low_call_put|apply cwf_low_get; [exact Ec|apply row_ok_tree; assumption]| |exact P|exact R|].
    - cbn [top_wf]. exists fr, r. split; [exact Ec|]. split; [reflexivity|]. split; [eexists; reflexivity|]. split; assumption.
    - rewrite low_call_n. cbn [low_gh frame_gh]. rewrite gh_add_nil_r. apply gh_eq_refl.
  Qed.

  Lemma K_SG2 p i o cl k v :
    twf g policy u c p (KSG2 i o cl :: k) -> vfacts p v ->
    aok (gh_add (post_gh g p v (KSG2 i o cl)) gh_nil) WMAX (resume g policy u v (KSG2 i o cl) k).
  Proof.
    intros (T & P & R) V. cbn [top_wf] in T. destruct T as (fr & r & Ec & -> & Lp & Li & Ft). cbn [lvl gives_vg] in P, R.
    destruct (lprim_v _ _ _ Lp V) as (pc & -> & [(frm & -> & Hf)| ->]); cbn [resume post_gh]; rewrite gh_add_nil_r.
    - eapply aok_rret; [exact Ec|exact P|exact R|apply gh_eq_refl].
    - unfold enter_tput. apply enter_tu_ok; [exact Li| |].
      + cbn [twf]. split; [|split; [exact P|exact R]]. cbn [top_wf]. split; [eexists _, _; split; [left; reflexivity|exact Li]|].
        split; discriminate.
      + eapply gh_eq_trans; [eapply tput_gh; [exact P|reflexivity]|]. rewrite low_call_n. cbn [low_gh]. apply gh_eq_refl.
  Qed.

  (* steal_local *)
  Lemma K_SL1 p r fr i j k v :
    twf g policy u c p (KSL1 r fr i j :: k) -> vfacts p v ->
    aok (gh_add (post_gh g p v (KSL1 r fr i j)) gh_nil) WMAX (resume g policy u v (KSL1 r fr i j) k).
  Proof.
    intros (T & P & R) V. cbn [top_wf] in T. destruct T as (Ec & idx & Sp & So). cbn [lvl gives_vg] in P, R.
    destruct (sprim_v _ _ _ _ _ Sp V) as (ok & old & new & -> & Si & Ha & ->). cbn [resume post_gh]. rewrite gh_add_nil_r.
    destruct ok.
    - cbn [sf_apply] in Ha. destruct (slot_get g old (otree g fr) (pow2 (r_order r))) as [s'|] eqn:Eg; [|discriminate].
      destruct (slot_get_facts _ _ _ _ Eg) as (Pr & Tr & Le & _). destruct (Si Pr) as (L1 & L2).
      assert (RO : row_ok g u fr (s_row old)) by (split; [exact L1|apply fr_tree_otree; exact Tr]).
      apply enter_low_get; [apply low_call_put|apply cwf_low_get; assumption| |exact P|exact R|].
      + cbn [top_wf]. exists fr. split; [exact Ec|]. split; [eexists; reflexivity|exact RO].
      + rewrite low_call_n. cbn [low_gh frame_gh]. rewrite gh_add_nil_r. apply gh_eq_refl.
    - cbn [sf_gh]. eapply aok_weak; [eapply sw_bound; exact P|]. apply sl_next_ok; assumption.
  Qed.

  Lemma K_SL2 p r row tc k v :
    twf g policy u c p (KSL2 r row tc :: k) -> vfacts p v ->
    aok (gh_add (post_gh g p v (KSL2 r row tc)) gh_nil) WMAX (resume g policy u v (KSL2 r row tc) k).
  Proof.
    intros (T & P & R) V. cbn [top_wf] in T. destruct T as (fr & Ec & Lp & RO). cbn [lvl gives_vg] in P, R.
    destruct (lprim_v _ _ _ Lp V) as (pc & -> & [(frm & -> & Hf)| ->]); cbn [resume post_gh]; rewrite gh_add_nil_r.
    - eapply aok_rret; [exact Ec|exact P|exact R|apply gh_eq_refl].
    - unfold enter_tput. apply enter_tu_ok; [apply RO| |].
      + cbn [twf]. split; [|split; [exact P|exact R]]. cbn [top_wf]. split; [eexists _, _; split; [left; reflexivity|apply RO]|].
        split; discriminate.
      + eapply gh_eq_trans; [eapply tput_gh; [exact P|reflexivity]|]. rewrite low_call_n. cbn [low_gh]. apply gh_eq_refl.
  Qed.

  (* demote_local *)
  Lemma K_DL1 p r fr i j k v :
    twf g policy u c p (KDL1 r fr i j :: k) -> vfacts p v ->
    aok (gh_add (post_gh g p v (KDL1 r fr i j)) gh_nil) WMAX (resume g policy u v (KDL1 r fr i j) k).
  Proof.
    intros (T & P & R) V. cbn [top_wf] in T. destruct T as (Ec & idx & Sp & So & Pd). cbn [lvl gives_vg] in P, R.
    destruct (sprim_v _ _ _ _ _ Sp V) as (ok & old & new & -> & Si & Ha & ->). cbn [resume post_gh]. rewrite gh_add_nil_r.
    destruct ok.
    - cbn [sf_apply] in Ha. destruct (slot_get g old (otree g fr) (pow2 (r_order r))) as [s'|] eqn:Eg; [|discriminate].
      destruct (slot_get_facts _ _ _ _ Eg) as (Pr & Tr & Le & ->). destruct (Si Pr) as (L1 & L2).
      assert (RO : row_ok g u fr (s_row old)) by (split; [exact L1|apply fr_tree_otree; exact Tr]).
      change (option_map (fun f0 : N => f0 / TF) fr) with (otree g fr). rewrite Eg.
      destruct (r_local r) as [lc|] eqn:El.
      + destruct (slot_ok_local r fr lc (or_introl Ec) El) as (Sl & len & E & L). rewrite E. apply N.ltb_lt in L. rewrite L.
        apply aok_do; [| |apply not_lprim_enter; discriminate].
        * cbn [twf]. split; [|split; [exact P|exact R]]. cbn [top_wf]. split; [exact Ec|]. eexists _, _. split; [reflexivity|].
          split; [exact Sl|]. split; [reflexivity|]. split; [reflexivity|]. split; [exact RO|exact L2].
        * rewrite (pk_gh_top _ _ _ _ P). cbn [prim_gh frame_gh]. unfold slot_gh, rt. cbn [s_pres s_row s_free]. apply gh_eq_refl.
      + apply enter_tu_ok; [exact L1| |].
        * cbn [twf]. split; [|split; [exact P|exact R]]. cbn [top_wf]. split; [exact Ec|].
          split; [eexists _, _; split; [left; reflexivity|exact L1]|exact RO].
        * rewrite (unres_gh _ _ _ _ _ _ P). cbn [frame_gh s_row s_free]. unfold rt. apply gh_eq_refl.
    - cbn [sf_gh]. eapply aok_weak; [eapply sw_bound; exact P|]. apply dl_next_ok; assumption.
  Qed.

  Lemma K_DL2 p r fr row k v :
    twf g policy u c p (KDL2 r fr row :: k) -> vfacts p v ->
    aok (gh_add (post_gh g p v (KDL2 r fr row)) (frame_gh g (KDL2 r fr row))) WMAX (resume g policy u v (KDL2 r fr row) k).
  Proof.
    intros (T & P & R) V. cbn [top_wf] in T. destruct T as (Ec & lc & new & -> & So & Pn & Er & RO & Rr). cbn [lvl gives_vg] in P, R.
    cbn [vfacts] in V. destruct V as (old & -> & Si). cbn [resume post_gh frame_gh]. unfold slot_gh.
    destruct (s_pres old) eqn:Po.
    - destruct (Si Po) as (L1 & L2). apply enter_tu_ok; [exact L1| |].
      + cbn [twf]. split; [|split; [exact P|exact R]]. cbn [top_wf]. split; [exact Ec|].
        split; [eexists _, _; split; [left; reflexivity|exact L1]|exact RO].
      + rewrite (unres_gh _ _ _ _ _ _ P). cbn [frame_gh]. apply gh_eq_refl.
    - apply enter_low_get; [apply low_call_put|apply cwf_low_get; assumption| |exact P|exact R|].
      + cbn [top_wf]. exists fr. split; [exact Ec|]. split; [eexists; reflexivity|exact RO].
      + rewrite low_call_n. cbn [low_gh frame_gh]. rewrite gh_add_nil_r, gh_add_nil_l. apply gh_eq_refl.
  Qed.

  Lemma K_DL3 p r fr row k v :
    twf g policy u c p (KDL3 r fr row :: k) -> vfacts p v ->
    aok_or_unres (gh_add (post_gh g p v (KDL3 r fr row)) (frame_gh g (KDL3 r fr row))) WMAX p v (resume g policy u v (KDL3 r fr row) k).
  Proof.
    intros (T & P & R) V. cbn [top_wf] in T. destruct T as (Ec & (t & a & Tp & L) & RO). cbn [lvl gives_vg] in P, R.
    destruct (tprim_v _ _ _ _ Tp V) as (ok & old & new & -> & Ha & ->). cbn [resume].
    destruct ok; [left|right; split; [eexists _, _, _, _, _; split; [exact Tp|reflexivity]|eexists; reflexivity]]. cbn [post_gh frame_gh]. rewrite gh_add_nil_l.
    apply enter_low_get; [apply low_call_put|apply cwf_low_get; assumption| |exact P|exact R|].
    - cbn [top_wf]. exists fr. split; [exact Ec|]. split; [eexists; reflexivity|exact RO].
    - rewrite low_call_n. cbn [low_gh frame_gh]. rewrite gh_add_nil_r. apply gh_eq_refl.
  Qed.

  Lemma K_DL4 p r row k v :
    twf g policy u c p (KDL4 r row :: k) -> vfacts p v ->
    aok (gh_add (post_gh g p v (KDL4 r row)) gh_nil) WMAX (resume g policy u v (KDL4 r row) k).
  Proof.
    intros (T & P & R) V. cbn [top_wf] in T. destruct T as (fr & Ec & Lp & RO). cbn [lvl gives_vg] in P, R.
    destruct (lprim_v _ _ _ Lp V) as (pc & -> & [(frm & -> & Hf)| ->]); cbn [resume post_gh]; rewrite gh_add_nil_r.
    - eapply aok_rret; [exact Ec|exact P|exact R|apply gh_eq_refl].
    - unfold enter_tput. apply enter_tu_ok; [apply RO| |].
      + cbn [twf]. split; [|split; [exact P|exact R]]. cbn [top_wf]. split; [eexists _, _; split; [left; reflexivity|apply RO]|].
        split; discriminate.
      + eapply gh_eq_trans; [eapply tput_gh; [exact P|reflexivity]|]. rewrite low_call_n. cbn [low_gh]. apply gh_eq_refl.
  Qed.

  (* put *)
  Lemma put_facts f r : c = UPut f r -> req_ok g u r /\ frame_ok u f (r_order r).
  Proof. intros Ec. rewrite Ec in CW. exact CW. Qed.

  Lemma aok_unit k lo : (exists f r, c = UPut f r) \/ c = UDrain \/ (exists m ch, c = UChange m ch) ->
    pas_stack u c lo k -> ret_ty false k ->
    aok gh_nil WMAX (ARet (VR (Ok (0, 0))) k).
  Proof.
    intros Ec P T. split; [|cbn [wt]; eapply sw_bound; exact P]. cbn [act_ok].
    split; [eapply pas_weak; [|exact P]; lia|]. split; [exact T|]. split; [discriminate|].
    destruct Ec as [(f & r & ->)|[-> |(m & ch & ->)]]; apply gh_eq_refl.
  Qed.

  Lemma K_Put1 p f r k v :
    twf g policy u c p (KPut1 f r :: k) -> vfacts p v ->
    aok (gh_add (post_gh g p v (KPut1 f r)) gh_nil) WMAX (resume g policy u v (KPut1 f r) k).
  Proof.
    intros (T & P & R) V. cbn [top_wf] in T. destruct T as (Ec & Lp). cbn [lvl gives_vg] in P, R.
    destruct (put_facts _ _ Ec) as (Rq & Fo). pose proof (frame_tree_lt _ _ Fo) as Lt.
    assert (P2 : pas_stack u c 2 k) by (eapply pas_weak; [|exact P]; lia).
    assert (TP : aok (gh_cr (f / TF) (pow2 (r_order r))) WMAX (enter_tput u (f / TF) (pow2 (r_order r)) (KRetR (Ok (0, 0)) :: k))).
    { unfold enter_tput. apply enter_tu_ok; [exact Lt| |].
      - cbn [twf]. split; [|split; [exact P2|exact R]]. cbn [top_wf]. split; [eexists _, _; split; [left; reflexivity|exact Lt]|].
        split; [discriminate|]. intros x _. eexists _, _. exact Ec.
      - eapply tput_gh; [exact P2|reflexivity]. }
    destruct (lprim_v _ _ _ Lp V) as (pc & -> & [(frm & -> & Hf)| ->]); cbn [resume post_gh]; rewrite gh_add_nil_r.
    - destruct (r_local r) as [local|] eqn:El; [|exact TP].
      destruct (slot_ok_local r None local (or_intror (ex_intro _ f Ec)) El) as (Sl & len & E & L).
      rewrite E. apply N.ltb_lt in L. rewrite L.
      apply aok_do; [| |apply not_lprim_enter; discriminate].
      + cbn [twf]. split; [|split; [exact P|exact R]]. cbn [top_wf]. split; [exact Ec|]. eexists. split; [left; reflexivity|exact Sl].
      + rewrite (pk_gh_top _ _ _ _ P). cbn [prim_gh sf_gh frame_gh]. rewrite gh_add_nil_r. apply gh_eq_refl.
    - eapply aok_err_max; eassumption.
  Qed.

  Lemma K_Put2 p f r k v :
    twf g policy u c p (KPut2 f r :: k) -> vfacts p v ->
    aok (gh_add (post_gh g p v (KPut2 f r)) gh_nil) WMAX (resume g policy u v (KPut2 f r) k).
  Proof.
    intros (T & P & R) V. cbn [top_wf] in T. destruct T as (Ec & local & Sp & So). cbn [lvl gives_vg] in P, R.
    destruct (put_facts _ _ Ec) as (Rq & Fo). pose proof (frame_tree_lt _ _ Fo) as Lt.
    assert (P2 : pas_stack u c 2 k) by (eapply pas_weak; [|exact P]; lia).
    destruct (sprim_v _ _ _ _ _ Sp V) as (ok & old & new & -> & Si & Ha & ->). cbn [resume post_gh]. rewrite gh_add_nil_r.
    destruct ok.
    - eapply aok_unit; [left; eexists _, _; exact Ec|exact P|exact R].
    - cbn [sf_gh]. unfold enter_tput. apply enter_tu_ok; [exact Lt| |].
      + cbn [twf]. split; [|split; [exact P2|exact R]]. cbn [top_wf]. split; [eexists _, _; split; [left; reflexivity|exact Lt]|].
        split; [discriminate|]. intros x _. eexists _, _. exact Ec.
      + eapply tput_gh; [exact P2|reflexivity].
  Qed.

  (* drain *)
  Lemma drain_scan_slots n : forall cc j c' j', drain_scan u cc j n = Some (c', j') -> slot_ok u c' j' = true.
  Proof.
    induction n as [|n IH]; intros cc j c' j'; cbn [drain_scan]; [discriminate|].
    destruct (8 <=? cc); [discriminate|]. destruct (class_locals u cc) as [len|] eqn:E; [|apply IH].
    destruct (j <? len) eqn:Ej; [|apply IH]. intros H; inversion H; subst. unfold slot_ok. rewrite E. exact Ej.
  Qed.

  Lemma dr_next_ok cc j k : c = UDrain -> pas_stack u c 5 k -> ret_ty false k -> aok gh_nil WMAX (dr_next u cc j k).
  Proof.
    intros Ec P R. unfold dr_next. destruct (drain_scan u cc j 9) as [[c' j']|] eqn:E.
    - apply aok_do; [| |apply not_lprim_enter; discriminate].
      + cbn [twf]. split; [|split; [exact P|exact R]]. cbn [top_wf]. split; [exact Ec|]. split; [reflexivity|].
        eapply drain_scan_slots; exact E.
      + eapply gh_top_nil; [exact P|reflexivity|reflexivity].
    - eapply aok_unit; [right; left; exact Ec|exact P|exact R].
  Qed.

  Lemma K_Dr1 p cc j k v :
    twf g policy u c p (KDr1 cc j :: k) -> vfacts p v ->
    aok (gh_add (post_gh g p v (KDr1 cc j)) gh_nil) WMAX (resume g policy u v (KDr1 cc j) k).
  Proof.
    intros (T & P & R) V. cbn [top_wf] in T. destruct T as (Ec & -> & So). cbn [lvl gives_vg] in P, R.
    cbn [vfacts] in V. destruct V as (old & -> & Si). cbn [resume post_gh]. unfold slot_gh. rewrite gh_add_nil_r.
    destruct (s_pres old) eqn:Po.
    - destruct (Si Po) as (L1 & L2). apply enter_tu_ok; [exact L1| |].
      + cbn [twf]. split; [|split; [exact P|exact R]]. cbn [top_wf]. split; [exact Ec|]. eexists _, _; split; [left; reflexivity|exact L1].
      + rewrite (unres_gh _ _ _ _ _ _ P). cbn [frame_gh]. rewrite gh_add_nil_r. apply gh_eq_refl.
    - apply dr_next_ok; assumption.
  Qed.

  Lemma K_Dr2 p cc j k v :
    twf g policy u c p (KDr2 cc j :: k) -> vfacts p v ->
    aok_or_unres (gh_add (post_gh g p v (KDr2 cc j)) gh_nil) WMAX p v (resume g policy u v (KDr2 cc j) k).
  Proof.
    intros (T & P & R) V. cbn [top_wf] in T. destruct T as (Ec & t & a & Tp & L). cbn [lvl gives_vg] in P, R.
    destruct (tprim_v _ _ _ _ Tp V) as (ok & old & new & -> & Ha & ->). cbn [resume].
    destruct ok; [left|right; split; [eexists _, _, _, _, _; split; [exact Tp|reflexivity]|eexists; reflexivity]]. cbn [post_gh]. rewrite gh_add_nil_r. apply dr_next_ok; assumption.
  Qed.

  (* change_at *)
  Lemma K_Ch p k v :
    twf g policy u c p (KCh :: k) -> vfacts p v ->
    aok (gh_add (post_gh g p v KCh) gh_nil) WMAX (resume g policy u v KCh k).
  Proof.
    intros (T & P & R) V. cbn [top_wf] in T. destruct T as (i & m & ch & Ec & Tp & L). cbn [lvl gives_vg] in P, R.
    destruct (tprim_v _ _ _ _ Tp V) as (ok & old & new & -> & _ & ->). cbn [resume post_gh]. rewrite gh_add_nil_r.
    destruct ok; cbn [tf_gh].
    - eapply aok_unit; [right; right; eexists _, _; exact Ec|exact P|exact R].
    - eapply aok_err_max; eassumption.
  Qed.

  (* all top frames *)
  Lemma K_top p f k v :
    twf g policy u c p (f :: k) -> vfacts p v ->
    aok_or_unres (gh_add (post_gh g p v f) (frame_gh g f)) WMAX p v (resume g policy u v f k).
  Proof.
    intros T V. destruct f; try (destruct T as (T & _); destruct T; fail).
    - left; exact (K_GL1 _ _ _ _ _ _ _ _ T V).
    - left; exact (K_GL2 _ _ _ _ _ _ _ T V).
    - left; exact (K_GL3 _ _ _ _ _ T V).
    - left; exact (K_GL4 _ _ _ _ _ T V).
    - left; exact (K_GL5 _ _ _ _ _ _ _ _ T V).
    - left; exact (K_GL6 _ _ _ _ _ _ _ _ _ T V).
    - left; exact (K_SBL _ _ _ _ T V).
    - left; exact (K_RS1 _ _ _ _ _ _ _ T V).
    - left; exact (K_RS2 _ _ _ _ _ _ _ _ _ T V).
    - left; exact (K_RS3 _ _ _ _ _ T V).
    - exact (K_Unres _ _ _ _ T V).
    - left; exact (K_RetR _ _ _ _ T V).
    - left; exact (K_SG1 _ _ _ _ _ _ T V).
    - left; exact (K_SG2 _ _ _ _ _ _ T V).
    - left; exact (K_SL1 _ _ _ _ _ _ _ T V).
    - left; exact (K_SL2 _ _ _ _ _ _ T V).
    - left; exact (K_DL1 _ _ _ _ _ _ _ T V).
    - left; exact (K_DL2 _ _ _ _ _ _ T V).
    - exact (K_DL3 _ _ _ _ _ _ T V).
    - left; exact (K_DL4 _ _ _ _ _ T V).
    - left; exact (K_Put1 _ _ _ _ _ T V).
    - left; exact (K_Put2 _ _ _ _ _ T V).
    - left; exact (K_Dr1 _ _ _ _ _ T V).
    - exact (K_Dr2 _ _ _ _ _ T V).
    - left; exact (K_Ch _ _ _ T V).
  Qed.

  Lemma K_settle p f k v :
    twf g policy u c p (f :: k) -> vfacts p v ->
    good_or_unres (gh_add (post_gh g p v f) (frame_gh g f)) p v (settle g policy SETTLE u (ARet v (f :: k))).
  Proof.
    intros T V.
    change (settle g policy SETTLE u (ARet v (f :: k))) with (settle g policy 63 u (resume g policy u v f k)). (* 63 = pred SETTLE *)
    destruct (K_top p f k v T V) as [[A W]|(F & z & ->)]; [|exact F].
    apply good_or_unres_intro, settle_good; [exact A|lia].
  Qed.

  (* with the accounting facts: no panic *)
  (* what the accounting invariant adds about the delivered value: an unreserve closure never fails *)
  Definition vfacts_unres_ok (p : prim) (v : val) : Prop :=
    vfacts p v /\
    match p with
    | PTL _ f0 | PTC _ f0 _ _ | PTF _ f0 _ _ _ => forall a cl ok old new, f0 = FUnres a cl -> v = VT ok old new -> ok = true
    | _ => True
    end.
  Lemma vfacts_unres_ok_tree p i f0 (ok : bool) old new :
    tprim g policy u p i f0 ->
    (if ok then tf_apply g policy (dflt u) f0 old 0 = Some (Ok new) else tf_apply g policy (dflt u) f0 old 0 = None) ->
    (forall a cl, f0 = FUnres a cl -> ok = true) -> vfacts_unres_ok p (VT ok old new).
  Proof.
    intros [->|(cur & nw & -> & _)] A B; (split; [exists ok, old, new; split; [reflexivity|intros _; exact A]|]);
      intros a cl ok' old' new' E Ev; inversion Ev; subst ok'; exact (B _ _ E).
  Qed.
  Lemma vfacts_nofail p v : vfacts_unres_ok p v -> ~ unres_fail p v.
  Proof.
    intros [_ H] (i & a & cl & old & new & [->|(cur & nw & -> & _)] & ->); discriminate (H _ _ _ _ _ eq_refl eq_refl).
  Qed.
  Lemma K_settle_nopanic p f k v :
    twf g policy u c p (f :: k) -> vfacts_unres_ok p v ->
    good (gh_add (post_gh g p v f) (frame_gh g f)) (settle g policy SETTLE u (ARet v (f :: k))).
  Proof. intros T V. exact (good_of_or_unres _ _ _ _ (vfacts_nofail _ _ V) (K_settle p f k v T (proj1 V))). Qed.

  (* the start of a get / drain (c is the call) *)
  Lemma enter_global_ok r k : c = UGet None r -> pas_stack u c 5 k -> ret_ty false k -> aok gh_nil WMAX (enter_global u r k).
  Proof.
    intros Ec P T. unfold enter_global.
    assert (P5 : pas_stack u c 3 (KGet2 r None :: k)) by (apply pas_cons; [exact Ec|cbn; lia|exact P]).
    eapply aok_weak; [eapply sw_bound; exact P5|]. apply enter_sb_ok; [|exact I|eapply ntrees_pos; exact Ec|exact P5|].
    - exists r. split; [exact Ec|]. split; reflexivity.
    - apply ret_ty_cons; [reflexivity|exact T].
  Qed.
End Local.

(* the start of a call *)
Section Start.
  Variable g : geom.
  Variable policy : N -> N -> N -> pol.
  Hypothesis WF : wf_geom g.
  Variable u : upper.
  Hypothesis SH : ntrees u = ntab g (frames (low u)).
  Notation TF := (TF g).

  (* scope restriction "valid parameters": a slot index below the slot count of the class, or none;
     change_tree: Offline or a pure class change onto a configured class (`change_ok`) *)
  Definition call_valid (c : ucall) : Prop :=
    match c with
    | UGet _ r | UPut _ r => forall l len, r_local r = Some l -> class_locals u (r_class r) = Some len -> l < len
    | UDrain => True
    | UChange _ ch => change_ok u ch
    end.
  (* the part of it that the thread-local lemmas need: change_tree with any operation *)
  Definition call_idx_ok (c : ucall) : Prop :=
    match c with
    | UGet _ r | UPut _ r => forall l len, r_local r = Some l -> class_locals u (r_class r) = Some len -> l < len
    | UDrain => True
    | UChange _ _ => True
    end.
  Lemma call_valid_idx c : call_valid c -> call_idx_ok c.
  Proof. destruct c; intros H; try exact H. exact I. Qed.
  Lemma call_valid_wf c : call_valid c -> call_wf_w g u c -> call_wf g u c.
  Proof. destruct c; intros V H; try exact H. exact V. Qed.

  Lemma check_wf frame r :
    check g u frame r = Ok tt ->
    (forall l len, r_local r = Some l -> class_locals u (r_class r) = Some len -> l < len) ->
    req_ok g u r /\ frame_ok u frame (r_order r).
  Proof.
    unfold check. intros H V.
    destruct (Nat.leb (r_order r) (tord g)) eqn:E1; cbn [negb] in H; [|discriminate].
    destruct ((frame + pow2 (r_order r) <? W64) && (frame + pow2 (r_order r) <=? frames (low u))) eqn:E2; cbn [negb] in H; [|discriminate].
    destruct (frame mod pow2 (r_order r) =? 0) eqn:E3; cbn [negb] in H; [|discriminate].
    destruct (class_locals u (r_class r)) as [len|] eqn:E4; [|discriminate].
    apply Nat.leb_le in E1. apply andb_true_iff in E2. destruct E2 as [_ E2]. apply N.leb_le in E2. apply N.eqb_eq in E3.
    split; [|split; assumption]. split; [exact E1|]. split; [pose proof (pow2_pos (r_order r)); lia|]. exists len. split; [exact E4|].
    intros l El. exact (V l len El eq_refl).
  Qed.

  Definition start_good (c : ucall) (x : settled) : Prop :=
    match x with
    | SRun p k =>
        call_wf_w g u c /\ twf g policy u c p k /\ gh_eq (pk_gh g p k) gh_nil /\
        (enter_ok g u p \/
         exists f r, c = UPut f r /\ p = PLow (TRun (CPut f (r_order r)) (entry_pc g (CPut f (r_order r)))) /\
                     cwf g (frames (low u)) (CPut f (r_order r)) = true)
    | SDone r => (forall z, r <> Panic z) /\ ret_gh c r = gh_nil
    | SCrash _ => False
    end.

  Lemma good_start c G x : call_wf_w g u c -> gh_eq G gh_nil -> good g policy u c G x -> start_good c x.
  Proof.
    intros CW E. destruct x as [p k|r|z]; cbn [good start_good]; [| |tauto].
    - intros (T & Ge & En). split; [exact CW|]. split; [exact T|]. split; [eapply gh_eq_trans; eassumption|left; exact En].
    - intros (NP & Ge). split; [exact NP|].
      pose proof (gh_eq_trans _ _ _ Ge E) as (_ & _ & B). destruct c; try reflexivity.
      destruct r as [[fr cl]|e|z]; try reflexivity. cbn in B. discriminate.
  Qed.

  Lemma start_ok c : call_idx_ok c -> start_good c (settle g policy SETTLE u (enter_call g u c)).
  Proof.
    intros V. destruct c as [fr r|f r| |m ch]; cbn [call_idx_ok enter_call] in *.
    - (* get *)
      unfold enter_get. destruct (check g u (match fr with Some f => f | None => 0 end) r) as [[]|e|z] eqn:Ck.
      2:{ unfold SETTLE. cbn [settle start_good]. split; [discriminate|reflexivity]. }
      2:{ exfalso. unfold check in Ck. destruct (negb _); [discriminate|]. destruct (negb _); [discriminate|].
          destruct (negb _); [discriminate|]. destruct (class_locals u (r_class r)); discriminate. }
      destruct (check_wf _ _ Ck V) as (Rq & Fo).
      assert (CW : call_wf_w g u (UGet fr r)) by (destruct fr; cbn [call_wf_w call_wf]; [split; assumption|exact Rq]).
      eapply good_start; [exact CW|apply gh_eq_refl|]. apply settle_ok; [exact SH|exact CW|].
      refine (proj1 (_ : aok g policy u _ gh_nil WMAX _)).
      destruct fr as [f|].
      + unfold enter_get_at. destruct (r_local r) as [local|] eqn:El.
        * destruct (slot_ok_local g u _ CW r (Some f) local (or_introl eq_refl) El) as (Sl & _).
          eapply (enter_get_local_ok g policy u _ SH WMAX); [reflexivity|exact Sl| |].
          -- apply pas_cons; [reflexivity|cbn; lia|apply pas_nil].
          -- split; [reflexivity|constructor].
        * apply (after_local_ok g policy u _ SH CW WMAX); [reflexivity|apply pas_nil|reflexivity].
      + destruct (r_local r) as [local|] eqn:El.
        * destruct (slot_ok_local g u _ CW r None local (or_introl eq_refl) El) as (Sl & len & E & L).
          rewrite E. destruct ((0 <? len) && (len <? ntrees u)) eqn:Eb.
          -- apply andb_true_iff in Eb. destruct Eb as [Eb _]. apply N.ltb_lt in Eb.
             eapply (enter_get_local_ok g policy u _ SH WMAX); [reflexivity|exact Sl| |].
             ++ apply pas_cons; [|cbn; lia|apply pas_nil]. cbn [pas_wf]. split; [reflexivity|]. exists local, len.
                split; [exact El|]. split; [exact E|exact Eb].
             ++ split; [reflexivity|constructor].
          -- apply (enter_global_ok g policy u _ SH CW); [reflexivity|apply pas_nil|reflexivity].
        * apply (enter_global_ok g policy u _ SH CW); [reflexivity|apply pas_nil|reflexivity].
    - (* put *)
      unfold enter_put. destruct (check g u f r) as [[]|e|z] eqn:Ck.
      2:{ unfold SETTLE. cbn [settle start_good]. split; [discriminate|reflexivity]. }
      2:{ exfalso. unfold check in Ck. destruct (negb _); [discriminate|]. destruct (negb _); [discriminate|].
          destruct (negb _); [discriminate|]. destruct (class_locals u (r_class r)); discriminate. }
      destruct (check_wf _ _ Ck V) as (Rq & Fo).
      assert (CW : call_wf_w g u (UPut f r)) by (split; assumption).
      unfold enter_low, SETTLE. cbn [settle start_good]. split; [exact CW|]. split.
      + cbn [twf]. split; [|split; [apply pas_nil|reflexivity]]. cbn [top_wf]. split; [reflexivity|eexists; reflexivity].
      + split.
        * unfold pk_gh. cbn [hd_error prim_gh low_gh frames_gh fold_right frame_gh].
          assert (E0 : lhold g (TRun (CPut f (r_order r)) (entry_pc g (CPut f (r_order r)))) = 0).
          { cbn [entry_pc lhold]. destruct (Nat.leb _ _); cbn [lhold]; [apply N.mul_0_l|reflexivity]. }
          rewrite E0, !gh_add_nil_r. apply gh_cr0.
        * right. exists f, r. split; [reflexivity|]. split; [reflexivity|].
          destruct Rq as (O & _). destruct Fo as [A B]. unfold cwf. cbn [c_order]. apply Nat.leb_le in O. rewrite O.
          apply N.eqb_eq in A. apply N.leb_le in B. rewrite A, B. reflexivity.
    - (* drain *)
      eapply good_start; [exact I|apply gh_eq_refl|]. apply settle_ok; [exact SH|exact I|].
      refine (proj1 (_ : aok g policy u _ gh_nil WMAX _)). apply (dr_next_ok g policy u UDrain SH I); [reflexivity|apply pas_nil|reflexivity].
    - (* change_tree *)
      assert (CW : call_wf_w g u (UChange m ch)) by exact I.
      eapply good_start; [exact CW|apply gh_eq_refl|]. apply settle_ok; [exact SH|exact CW|].
      refine (proj1 (_ : aok g policy u _ gh_nil WMAX _)).
      assert (A : acc_wf u (UChange m ch) (AcChange (m_class m) (m_free m) ch)) by (exists m; repeat split).
      assert (C : exists mc mf ch0, AcChange (m_class m) (m_free m) ch = AcChange mc mf ch0) by (eexists _, _, _; reflexivity).
      unfold enter_change. destruct (m_id m) as [i|].
      + destruct (UpperMachine.tree_ok u i) eqn:Et.
        * apply (enter_access_change g policy u _ SH WMAX); [exact A|exact C|apply N.ltb_lt; exact Et|apply pas_nil|reflexivity].
        * cbn [enter_access]. rewrite Et. apply (aok_weak g policy u _ SH gh_nil 1%nat WMAX); [lia|].
          apply (aok_err g policy u _ SH CW EArgument []); [apply pas_nil|reflexivity].
      + destruct (ntrees u =? 0) eqn:En.
        * apply (aok_weak g policy u _ SH gh_nil 1%nat WMAX); [lia|].
          apply (aok_err g policy u _ SH CW EMemory []); [apply pas_nil|reflexivity].
        * apply (aok_weak g policy u _ SH gh_nil 1%nat WMAX); [lia|].
          apply (se_next_ok g policy u _ SH CW _ 0 (length (trees u)) []); [exact A|exact C|apply N.eqb_neq; exact En|apply pas_nil|reflexivity].
  Qed.
End Start.

(* only static parts of the state are read *)
Section Static.
  Variable g : geom.
  Variable policy : N -> N -> N -> pol.
  Variables u u' : upper.
  Hypothesis SE : static_eq u u'.

  Lemma st_ntrees : ntrees u' = ntrees u. Proof. apply SE. Qed.
  Lemma st_locals cl : class_locals u' cl = class_locals u cl. Proof. apply SE. Qed.
  Lemma st_frames : frames (low u') = frames (low u). Proof. apply SE. Qed.
  Lemma st_dflt : dflt u' = dflt u. Proof. apply SE. Qed.
  Lemma st_slot_ok cl i : slot_ok u' cl i = slot_ok u cl i.
  Proof. unfold slot_ok. rewrite st_locals. reflexivity. Qed.

  (* `st` transports a goal about u' to the same goal about u along `static_eq` (SE).  Plain rewriting first:
     setoid_rewrite is needed only under binders, and is slow where it finds little *)
  Ltac st := unfold req_ok, frame_ok, tprim, row_ok, ros_ok, acc_wf, change_ok;
             rewrite ?st_ntrees, ?st_frames, ?st_dflt, ?st_slot_ok, ?st_locals;
             repeat setoid_rewrite st_ntrees; repeat setoid_rewrite st_frames; repeat setoid_rewrite st_dflt;
             repeat setoid_rewrite st_slot_ok; repeat setoid_rewrite st_locals.

  Lemma req_ok_static r : req_ok g u r -> req_ok g u' r.
  Proof. intros H. st. exact H. Qed.
  Lemma call_idx_ok_static c : call_idx_ok u c -> call_idx_ok u' c.
  Proof.
    destruct c as [fr r|f r| |m ch]; cbn [call_idx_ok]; intros V; try exact V;
      intros l len El Ec; apply (V l len El); rewrite <- st_locals; exact Ec.
  Qed.
  Lemma call_wf_static c : call_wf g u c -> call_wf g u' c.
  Proof. destruct c as [[f|] r|f r| |]; cbn [call_wf]; intros H; st; exact H. Qed.
  Lemma acc_wf_static c a : acc_wf u c a -> acc_wf u' c a.
  Proof. destruct a; cbn [acc_wf]; intros H; st; exact H. Qed.
  Lemma cands_ok_static l : cands_ok u l -> cands_ok u' l.
  Proof. unfold cands_ok. intros H. eapply Forall_impl; [|exact H]. intros x. cbv beta. rewrite st_ntrees. tauto. Qed.
  Lemma sb_wf_static c sb : sb_wf u c sb -> sb_wf u' c sb.
  Proof.
    intros ((A & A') & B & C). split; [split; [apply acc_wf_static; exact A|exact A']|]. split; [apply cands_ok_static; exact B|].
    rewrite st_ntrees. exact C.
  Qed.
  Lemma pas_wf_static c f : pas_wf u c f -> pas_wf u' c f.
  Proof.
    destruct f; cbn [pas_wf]; try tauto; intros H.
    - st. exact H.
    - st. exact H.
    - apply sb_wf_static. exact H.
    - destruct H as [A B]. split; [apply sb_wf_static; exact A|apply cands_ok_static; exact B].
    - destruct H as (A & B & C). split; [apply acc_wf_static; exact A|]. split; [exact B|rewrite st_ntrees; exact C].
  Qed.
  Lemma top_wf_static c p f : top_wf g policy u c p f -> top_wf g policy u' c p f.
  Proof.
    destruct f; cbn [top_wf]; try tauto; intros H; try (st; exact H).
    - destruct H as ((i & E & L) & B). split; [exists i; split; [exact E|rewrite st_ntrees; exact L]|apply sb_wf_static; exact B].
  Qed.
  Lemma twf_static c p k : twf g policy u c p k -> twf g policy u' c p k.
  Proof.
    destruct k as [|f k]; cbn [twf]; [tauto|]. intros (A & (B & C) & D). split; [apply top_wf_static; exact A|].
    split; [|exact D]. split; [|exact C]. eapply Forall_impl; [|exact B]. intros x. apply pas_wf_static.
  Qed.
  Lemma vfacts_static p v : vfacts g policy u p v -> vfacts g policy u' p v.
  Proof.
    destruct p; cbn [vfacts]; unfold slot_in; intros H; rewrite ?st_ntrees, ?st_frames, ?st_dflt; exact H.
  Qed.
  Lemma vfacts_unres_ok_static p v : vfacts_unres_ok g policy u p v -> vfacts_unres_ok g policy u' p v.
  Proof. intros [A B]. split; [apply vfacts_static; exact A|destruct p; exact B]. Qed.
End Static.

Lemma static_refl u : static_eq u u.
Proof. repeat split. Qed.
Lemma static_set_tree u i t : static_eq u (set_tree u i t).
Proof. split; [apply ntrees_set_tree|]. repeat split. Qed.
Lemma static_set_slot u c j s : static_eq u (set_slot u c j s).
Proof.
  split; [apply ntrees_set_slot|]. split; [|split; [rewrite set_slot_low; reflexivity|apply set_slot_dflt]].
  intros c'. unfold class_locals. destruct (N.eq_dec c' c) as [->|Ne].
  - destruct (class_slots u c) as [l|] eqn:E.
    + rewrite (class_slots_set_slot_same u c j s l E). cbn [option_map]. rewrite upd_length. reflexivity.
    + unfold set_slot. rewrite E, E. reflexivity.
  - rewrite class_slots_set_slot_other by exact Ne. reflexivity.
Qed.
