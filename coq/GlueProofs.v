(* Integration ("glue") of the lower- and upper-allocator proofs.

   1. `LS_sum`          : the global free counter of the lower allocator is the sum of the per-tree counters
                          (discharges the hypothesis `LS_sum_P` of UpperStatsProofs.v)
   2. `lower_new_inv_*` : `Lower::new` establishes `LowerInv` in every init mode
   3. `init_inv`        : `LLFree::new` (FreeAll / AllocAll / Recover) returns Ok and establishes `UpperInv`
   4. per-frame queries of the lower allocator against the ownership state
      (`lower_stats_at_0_abs`, `lower_stats_at_huge_abs`, `lower_stats_at_tree_abs`, `lower_is_free_abs`,
       `lower_stats_at_no_panic` is in GlueHistory.v)
   5. `exact_free_tree_sum`, `all_hidden_exact_free`, `all_hidden_none_offline`: the exact free count as the sum
      of the per-tree counts; "every free frame is hidden" in the summed form used by C10 / C11
   The history runner with ghost state and the induction over histories are in GlueHistory.v. *)
From Coq Require Import List NArith Bool Lia PeanoNat.
From LLF Require Import Base Row Bitfield Lower Spec Upper UpperInvDef LowerFacts AbsLemmas BitfieldProofs
  LowerGetProofs LowerFactsGet LowerInitProofs RecoverProofs LowerFactsProofs UpperPrims UpperPutProofs
  UpperStatsProofs Handoff.

(* 1. LS_sum *)
Lemma nsum_sum_seq : forall n f, nsum n f = sum_seq n f.
Proof.
  unfold sum_seq. induction n as [|n IH]; intros f; cbn [nsum seq map sumN fold_right]; [reflexivity|].
  rewrite IH, <- seq_shift, map_map. reflexivity.
Qed.

Lemma at_efree es j : at_ e_free es j = efree_at es j.
Proof. reflexivity. Qed.

Theorem LS_sum : forall g, wf_geom g -> LS_sum_P g.
Proof.
  intros g WF l Inv. pose proof Inv as (_ & Hle & _).
  assert (Hl : length (ents l) = (nn (ntab g (frames l)) * thuge_nat g)%nat) by (rewrite Hle; apply nn_tree_base).
  rewrite (li_stats_sums g l _ Hl). cbn [free_frames].
  rewrite Hl, <- li_nsum_flat, <- nsum_sum_seq.
  apply nsum_ext. intros t _. rewrite tree_free_nsum, nn_tree_base.
  unfold nn at 1. rewrite Nat2N.id. reflexivity.
Qed.

(* 2. Lower::new establishes LowerInv *)
Section LowerNew.
  Variable g : geom.
  Hypothesis WF : wf_geom g.

  Theorem lower_new_inv_free_all fr buf : LowerInv g (lower_new g fr IFreeAll buf).
  Proof. exact (free_all_inv g WF fr). Qed.

  Theorem lower_new_inv_alloc_all fr buf : LowerInv g (lower_new g fr IAllocAll buf).
  Proof. exact (reserve_all_inv g WF fr). Qed.

  Theorem lower_new_inv_recover fr buf :
    LowerPre g {| frames := fr; bfs := bfs buf; ents := ents buf |} -> LowerInv g (lower_new g fr IRecover buf).
  Proof. intros H. exact (recover_inv g WF _ H). Qed.

  Theorem lower_new_inv_none fr buf : LowerInv g buf -> frames buf = fr -> LowerInv g (lower_new g fr INone buf).
  Proof. intros H <-. destruct buf; exact H. Qed.

  (* the precondition of the three writing modes *)
  Definition init_pre (fr : N) (i : init) (lbuf : lower) : Prop :=
    match i with
    | IFreeAll | IAllocAll => True
    | IRecover => LowerPre g {| frames := fr; bfs := bfs lbuf; ents := ents lbuf |}
    | INone => False
    end.

  Lemma lower_new_inv fr i lbuf : init_pre fr i lbuf -> LowerInv g (lower_new g fr i lbuf).
  Proof.
    destruct i; cbn [init_pre]; intros H;
      [apply lower_new_inv_free_all|apply lower_new_inv_alloc_all|apply lower_new_inv_recover; exact H|destruct H].
  Qed.

  (* 3. LLFree::new *)
  Variable policy : N -> N -> N -> pol.

  Theorem init_inv fr i classing d lbuf tbuf sbuf :
    init_pre fr i lbuf ->
    Forall (fun s => s_pres s = false) sbuf ->
    (forall c k, In (c, k) classing -> c < 8) ->
    (exists k, In (d, k) classing) ->
    exists u, llfree_new g fr i classing d lbuf tbuf sbuf = Ok u /\
              UpperInv g policy (ustate_new u) /\
              low u = lower_new g fr i lbuf /\ frames (low u) = fr /\ dflt u = d /\
              present_slots u = [].
  Proof.
    intros Hpre Hbuf Hcl Hd.
    assert (Hi : i <> INone) by (intros ->; exact Hpre).
    destruct (llfree_new_correct g policy (lower_facts_proved g WF) fr i classing d lbuf tbuf sbuf Hi
                (lower_new_inv fr i lbuf Hpre) Hbuf Hcl Hd) as (u & E & HI & Hl & Hdf & _ & HP).
    exists u. splits; auto. rewrite Hl. apply lower_new_frames.
  Qed.
End LowerNew.

(* 4. per-frame / per-huge-frame / per-tree queries against the ownership state *)
Lemma forallb_firstn_skipn {A} (p : A -> bool) (es : list A) : forall n h,
  forallb p (firstn n (skipn h es)) = true <->
  (forall j e, (j < n)%nat -> nth_error es (h + j) = Some e -> p e = true).
Proof.
  induction n as [|n IH]; intros h.
  - cbn. split; auto. intros _ j e Hj. lia.
  - destruct (nth_error es h) as [a|] eqn:E.
    + rewrite (skipn_nth_cons es h a E). cbn [firstn forallb]. rewrite andb_true_iff, IH. split.
      * intros (Ha & Hr) j e Hj Hn. destruct j as [|j].
        -- rewrite Nat.add_0_r in Hn. congruence.
        -- apply (Hr j e); [lia|]. rewrite <- Hn. f_equal. lia.
      * intros H. split.
        -- apply (H O a); [lia|]. rewrite Nat.add_0_r. exact E.
        -- intros j e Hj Hn. apply (H (S j) e); [lia|]. rewrite <- Hn. f_equal. lia.
    + rewrite (skipn_nth_none es h E), firstn_nil. cbn [forallb]. split; auto.
      intros _ j e Hj Hn. exfalso.
      assert (nth_error es (h + j) = None) by (apply nth_error_None; apply nth_error_None in E; lia).
      congruence.
Qed.

Lemma bool_eq_iff (a b : bool) : (a = true <-> b = true) -> a = b.
Proof. destruct a, b; intros [H1 H2]; auto; try (symmetry; auto); auto. Qed.

Section Queries.
  Variable g : geom.
  Hypothesis WF : wf_geom g.

  (* a block inside one huge frame *)
  Lemma small_free_iff l f k e rows :
    LowerInv g l -> (k <= hord g)%nat -> f mod pow2 k = 0 -> f + pow2 k <= frames l ->
    ent l (f / HF g) = Some e -> bf l (f / HF g) = Some rows ->
    (all_free (abs g l) f k = true <->
     e <> MARK /\ N.land (rows_bits rows) (blk (f mod HF g) (pow2 k)) = 0).
  Proof.
    intros Inv Hk Hal Hr He Hb. pose proof (pow2_pos k) as Hp. pose proof (HF_pos g) as HP.
    pose proof (aligned_in_huge g f k Hk Hal) as Hfit.
    pose proof (huge_of_frame g f) as Hf. set (h := f / HF g) in *.
    destruct (in_huge_divmod g h f Hf) as (_ & Emf).
    assert (Ha : forall i, f <= i < f + pow2 k ->
                   N.testbit (o_alloc (abs g l)) i = e_huge e || N.testbit (rows_bits rows) (i - h * HF g)).
    { intros i Hi. rewrite (abs_alloc_testbit g WF l Inv).
      destruct (in_huge_divmod g h i) as (Ed & Em); [clear - Hi Hf Hfit Emf; lia|].
      rewrite (alloc_at_eq g l i e rows) by (rewrite Ed; assumption). rewrite Em.
      destruct (N.ltb_spec i (frames l)) as [|Hge]; [reflexivity|]. exfalso. clear - Hge Hi Hr. lia. }
    rewrite all_free_spec. split.
    - intros H.
      assert (Hne : e <> MARK).
      { intros ->. specialize (H f ltac:(clear - Hp; lia)). rewrite Ha in H by (clear - Hp; lia).
        rewrite e_huge_MARK in H. discriminate. }
      split; [exact Hne|]. apply land_blk_zero. intros i Hi.
      specialize (H (h * HF g + i) ltac:(clear - Hi Emf Hf; lia)).
      rewrite Ha in H by (clear - Hi Emf Hf; lia). rewrite (e_huge_false e Hne) in H. cbn [orb] in H.
      replace (h * HF g + i - h * HF g) with i in H by (clear; lia). exact H.
    - intros (Hne & Z) i Hi. rewrite Ha by exact Hi. rewrite (e_huge_false e Hne). cbn [orb].
      rewrite land_blk_zero in Z. apply Z. clear - Hi Emf Hf. lia.
  Qed.

  (* `is_free(frame, order)` answers whether the block is entirely free in the ownership state *)
  Theorem lower_is_free_abs l f k :
    LowerInv g l -> (k <= tord g)%nat -> aligned f k = true -> f + pow2 k <= frames l ->
    lower_is_free g l f k = Ok (all_free (abs g l) f k).
  Proof.
    intros Inv Hkt Hal Hr. pose proof Hal as Hal'. unfold aligned in Hal. apply N.eqb_eq in Hal.
    pose proof (pow2_pos k) as Hp. pose proof (HF_pos g) as HP. pose proof (HF_lt_MARK g WF) as HM.
    assert (Hf : f < frames l) by (clear - Hp Hr; lia).
    unfold lower_is_free. cbv zeta.
    replace ((f mod pow2 k =? 0) && (f + pow2 k <=? frames l) && Nat.leb k (tord g)) with true.
    2:{ symmetry. rewrite !andb_true_iff. split; [split|]; [apply N.eqb_eq; exact Hal|apply N.leb_le; exact Hr|apply Nat.leb_le; exact Hkt]. }
    cbn [negb].
    rewrite (proj2 (has_tree_spec g l _ Inv) (frame_lt_ntab g _ _ Hf)). cbn [negb].
    destruct (Nat.leb_spec (hord g) k) as [Hk|Hk].
    - (* huge orders *)
      destruct (aligned_huge g f k Hk Hal) as (Ef & Ehm).
      pose proof (huge_index_fits g (f / HF g) k Hk Hkt Ehm) as Hfit.
      set (h := f / HF g) in *. set (n := pow2 (k - hord g)) in *.
      destruct (N.ltb_spec (THUGE g) (h mod THUGE g + n)) as [Hbad|_]; [exfalso; clear - Hbad Hfit; lia|].
      f_equal. apply bool_eq_iff.
      assert (Epow : pow2 k = n * HF g) by (subst n; rewrite HF_pow2; apply pow2_split, Hk).
      assert (Hin : forall h', h <= h' < h + n -> (h' + 1) * HF g <= frames l).
      { intros h' Hh'. assert ((h' + 1) * HF g <= (h + n) * HF g) by (apply N.mul_le_mono_r; clear - Hh'; lia).
        rewrite Ef, Epow in Hr. clear - Hr H. lia. }
      rewrite forallb_firstn_skipn. split.
      + intros H. apply all_free_spec. intros i Hi.
        assert (Hi' : h * HF g <= i < (h + n) * HF g) by (rewrite Ef, Epow in Hi; clear - Hi; lia).
        pose proof (div_range_in g h n i Hi') as Hh'. set (h' := i / HF g) in *.
        assert (Hfull : at_ e_free (ents l) (nn h') = HF g).
        { destruct (LowerInv_frame g l (h' * HF g) Inv) as (e & rows & He & _).
          { specialize (Hin h' Hh'). clear - Hin HP. lia. }
          rewrite N.div_mul in He by apply HF_nz.
          unfold at_. change (nth_error (ents l) (nn h')) with (ent l h'). rewrite He.
          apply N.eqb_eq. apply (H (nn h' - nn h)%nat e).
          - unfold nn. clear - Hh'. lia.
          - replace (nn h + (nn h' - nn h))%nat with (nn h') by (unfold nn; clear - Hh'; lia). exact He. }
        apply (li_huge_all_free g WF l h' Inv (Hin h' Hh')) in Hfull.
        rewrite all_free_spec in Hfull. apply Hfull. rewrite <- (HF_pow2 g).
        pose proof (huge_of_frame g i) as Q. fold h' in Q. clear - Q. lia.
      + intros H j e Hj Hn.
        set (h' := h + N.of_nat j).
        assert (Hh' : h <= h' < h + n) by (subst h'; unfold nn in Hj; clear - Hj; lia).
        assert (He : ent l h' = Some e).
        { unfold ent. replace (nn h') with (nn h + j)%nat by (subst h'; unfold nn; clear; lia). exact Hn. }
        assert (Hfull : all_free (abs g l) (h' * HF g) (hord g) = true).
        { apply all_free_spec. intros i Hi. rewrite all_free_spec in H. apply H.
          rewrite <- (HF_pow2 g) in Hi. rewrite Ef, Epow.
          assert (h * HF g <= h' * HF g) by (apply N.mul_le_mono_r; clear - Hh'; lia).
          assert ((h' + 1) * HF g <= (h + n) * HF g) by (apply N.mul_le_mono_r; clear - Hh'; lia).
          clear - Hi H0 H1. lia. }
        apply (li_huge_all_free g WF l h' Inv (Hin h' Hh')) in Hfull.
        unfold at_ in Hfull. change (nth_error (ents l) (nn h')) with (ent l h') in Hfull. rewrite He in Hfull.
        apply N.eqb_eq. exact Hfull.
    - (* small orders *)
      destruct (LowerInv_frame g l f Inv Hf) as (e & rows & He & Hb). rewrite He.
      destruct (LowerInv_huge_ok g l _ e rows Inv He Hb) as (Hok & _ & Hcnt & _).
      pose proof (small_free_iff l f k e rows Inv ltac:(lia) Hal Hr He Hb) as IFF.
      pose proof (aligned_in_huge g f k ltac:(lia) Hal) as Hfit.
      destruct (N.ltb_spec (e_free e) (pow2 k)) as [Hlt|Hge].
      + f_equal. symmetry. apply not_true_is_false. intros T. apply IFF in T. destruct T as (Hne & Z).
        destruct (Hcnt Hne) as (Ec & _).
        pose proof (count_zeros_ge_block g WF rows _ _ Hok Hfit Z) as G.
        unfold e_free in Hlt. rewrite (e_huge_false e Hne) in Hlt. clear - Hlt G Ec. lia.
      + assert (Hne : e <> MARK).
        { intros ->. change (e_free MARK) with 0 in Hge. clear - Hge Hp. lia. }
        destruct (Hcnt Hne) as (Ec & _).
        assert (Ee : e_free e = e) by (unfold e_free; rewrite (e_huge_false e Hne); reflexivity).
        destruct (N.eqb_spec (e_free e) (HF g)) as [Efull|_].
        * f_equal. symmetry. apply IFF. split; [exact Hne|].
          rewrite Ee, Ec in Efull. pose proof (count_zeros_full_zero g WF rows Hok Efull) as Hz.
          rewrite (rows_zero_bits rows Hz). apply N.land_0_l.
        * rewrite Hb. f_equal. apply bool_eq_iff.
          rewrite (bf_is_zero_spec g WF rows f k Hok ltac:(lia) Hal), IFF. tauto.
  Qed.
End Queries.

Section Queries2.
  Variable g : geom.
  Hypothesis WF : wf_geom g.

  (* `stats_at(frame, 0)`: one frame *)
  Theorem lower_stats_at_0_abs l f :
    LowerInv g l -> f < frames l ->
    lower_stats_at g l f 0 =
      Ok {| free_frames := if N.testbit (o_alloc (abs g l)) f then 0 else 1; free_huge := 0; free_trees := 0 |}.
  Proof.
    intros Inv Hf. pose proof (HF_pos g) as HP.
    unfold lower_stats_at. cbv zeta.
    rewrite (proj2 (has_tree_spec g l _ Inv) (frame_lt_ntab g _ _ Hf)). cbn [negb Nat.eqb].
    destruct (LowerInv_frame g l f Inv Hf) as (e & rows & He & Hb). rewrite He.
    destruct (LowerInv_huge_ok g l _ e rows Inv He Hb) as (Hok & _ & Hcnt & _).
    rewrite (abs_alloc_testbit g WF l Inv), (alloc_at_eq g l f e rows He Hb).
    destruct (N.ltb_spec f (frames l)) as [_|Hge]; [cbn [andb]|exfalso; clear - Hge Hf; lia].
    assert (Hz : bf_is_zero g rows f 0 = negb (N.testbit (rows_bits rows) (f mod HF g))).
    { apply bool_eq_iff. rewrite (bf_is_zero_spec g WF rows f 0 Hok ltac:(lia) (N.mod_1_r f)).
      rewrite land_blk_zero. change (pow2 0) with 1. rewrite negb_true_iff. generalize (f mod HF g). intros m. split.
      - intros H. apply H. clear. lia.
      - intros H i Hi. replace i with m by (clear - Hi; lia). exact H. }
    destruct (N.eq_dec e MARK) as [->|Hne].
    - rewrite e_huge_MARK. change (e_free MARK) with 0. cbn. reflexivity.
    - rewrite (e_huge_false e Hne). cbn [orb]. destruct (Hcnt Hne) as (Ec & _).
      assert (Ee : e_free e = e) by (unfold e_free; rewrite (e_huge_false e Hne); reflexivity).
      rewrite Ee. destruct (N.ltb_spec 0 e) as [Hpos|Hzero].
      + rewrite Hb, Hz. destruct (N.testbit (rows_bits rows) (f mod HF g)); reflexivity.
      + destruct (N.testbit (rows_bits rows) (f mod HF g)) eqn:T; [reflexivity|exfalso].
        assert (Z : N.land (rows_bits rows) (blk (f mod HF g) 1) = 0).
        { apply land_blk_zero. revert T. generalize (f mod HF g). intros m T i Hi. replace i with m by (clear - Hi; lia). exact T. }
        pose proof (N.mod_lt f (HF g) ltac:(clear - HP; lia)) as Hm.
        assert (Hm' : f mod HF g + 1 <= HF g) by (rewrite N.add_1_r; apply N.le_succ_l; exact Hm).
        pose proof (count_zeros_ge_block g WF rows _ _ Hok Hm' Z) as G.
        clear - G Ec Hzero. lia.
  Qed.

  (* number of allocated frames among [lo, lo+n) in the ownership state *)
  Definition alloc_in (s : ospec) (lo n : N) : N := popcount (N.land (o_alloc s) (blk lo n)).
  (* the managed part of huge frame h *)
  Definition huge_len (fr h : N) : N := N.min fr ((h + 1) * HF g) - h * HF g.

  (* `stats_at(frame, HUGE_ORDER)`: the managed frames of the huge frame that are free; it counts as a
     free huge frame iff it is in range and entirely free *)
  Theorem lower_stats_at_huge_abs l f :
    LowerInv g l -> f < frames l ->
    let h := f / HF g in
    exists s, lower_stats_at g l f (hord g) = Ok s /\
      free_frames s + alloc_in (abs g l) (h * HF g) (huge_len (frames l) h) = huge_len (frames l) h /\
      free_huge s = (if in_range (abs g l) (h * HF g) (hord g) && all_free (abs g l) (h * HF g) (hord g) then 1 else 0) /\
      free_trees s = 0.
  Proof.
    intros Inv Hf h. pose proof (HF_pos g) as HP.
    unfold lower_stats_at. cbv zeta.
    rewrite (proj2 (has_tree_spec g l _ Inv) (frame_lt_ntab g _ _ Hf)). cbn [negb].
    destruct WF as (H6 & _).
    replace (Nat.eqb (hord g) 0) with false by (symmetry; apply Nat.eqb_neq; lia).
    rewrite Nat.eqb_refl.
    destruct (LowerInv_frame g l f Inv Hf) as (e & rows & He & Hb). fold h in He, Hb. fold h. rewrite He.
    eexists. split; [reflexivity|]. cbn [free_frames free_huge free_trees].
    assert (Hent : ent l h <> None) by congruence.
    pose proof (child_count g WF l h Inv Hent) as C.
    assert (Ea : efree_at (ents l) (nn h) = e_free e).
    { unfold efree_at. change (nth_error (ents l) (nn h)) with (ent l h). rewrite He. reflexivity. }
    rewrite Ea in C. split; [exact C|]. split; [|reflexivity].
    pose proof (efree_le g l h Inv) as Hle. rewrite Ea in Hle.
    unfold in_range. rewrite abs_frames, <- (HF_pow2 g).
    destruct (N.leb_spec (h * HF g + HF g) (frames l)) as [Hin|Hout]; cbn [andb].
    - pose proof (li_huge_all_free g WF l h Inv ltac:(clear - Hin; lia)) as IFF.
      assert (Eat : at_ e_free (ents l) (nn h) = e_free e) by exact Ea. rewrite Eat in IFF.
      destruct (all_free (abs g l) (h * HF g) (hord g)).
      + rewrite (proj1 IFF eq_refl). apply N.div_same. clear - HP. lia.
      + apply N.div_small. destruct (N.eq_dec (e_free e) (HF g)) as [E|E]; [|clear - E Hle; lia].
        apply IFF in E. discriminate.
    - apply N.div_small.
      assert (Hb' : frames l / HF g <= h).
      { destruct (N.le_gt_cases (frames l / HF g) h) as [|Hgt]; [assumption|exfalso].
        assert (h + 1 <= frames l / HF g) by (clear - Hgt; lia).
        pose proof (N.mul_div_le (frames l) (HF g) ltac:(clear - HP; lia)) as M.
        assert ((h + 1) * HF g <= frames l / HF g * HF g) by (apply N.mul_le_mono_r; assumption).
        clear - Hout M H0. lia. }
      pose proof (li_not_free_beyond g WF l h Inv Hb') as NE.
      assert (Eat : at_ e_free (ents l) (nn h) = e_free e) by exact Ea. rewrite Eat in NE.
      clear - NE Hle. lia.
  Qed.

  (* `stats_at(tree * TREE_FRAMES, TREE_ORDER).free_frames`: the free frames of the tree *)
  Theorem lower_stats_at_tree_abs l t :
    LowerInv g l -> t < ntab g (frames l) ->
    exists s, lower_stats_at g l (t * TF g) (tord g) = Ok s /\
              free_frames s = spec_tree_free g (abs g l) t /\ free_frames s <= TF g.
  Proof.
    intros Inv Ht. destruct (lf_stats_at_tree_proof g WF l t Inv Ht) as (s & E & F).
    destruct (lf_tree_free_proof g WF l t Inv Ht) as (A & B).
    exists s. split; [exact E|]. rewrite F. split; [exact A|exact B].
  Qed.
End Queries2.

(* 5. the exact free count is the sum of the per-tree counts; "every free frame is hidden" *)
Section FreeSums.
  Variable g : geom.
  Hypothesis WF : wf_geom g.

  Theorem exact_free_tree_sum l : LowerInv g l ->
    exact_free (abs g l) = sum_seq (nn (ntab g (frames l))) (fun i => tree_free g l (N.of_nat i)).
  Proof.
    intros Inv. destruct (lower_stats_abs g WF l Inv) as (E & _). rewrite <- E. apply (LS_sum g WF l Inv).
  Qed.

  Variable policy : N -> N -> N -> pol.

  (* if the free frames of every tree are all hidden by offline operations, the number of free frames is the
     total hidden amount *)
  Theorem all_hidden_exact_free x :
    UpperInv g policy x ->
    (forall i, i < ntrees (us x) -> tree_free g (low (us x)) i = nth (nn i) (off x) 0) ->
    exact_free (abs g (low (us x))) = sumN (off x).
  Proof.
    intros HI H. pose proof HI as (HL & H2 & H3 & _).
    rewrite (exact_free_tree_sum _ HL), <- H2.
    rewrite <- (map_id (off x)) at 1. rewrite sumN_by_index, H3.
    unfold sum_seq. apply sumN_map_ext. intros i Hi. apply in_seq in Hi.
    rewrite H by (unfold ntrees; lia). unfold nn. rewrite Nat2N.id.
    destruct (nth_error (off x) i) as [o|] eqn:E.
    - unfold id. apply nth_error_nth. exact E.
    - apply nth_error_None in E. lia.
  Qed.

  (* ... in particular zero when no tree is offline *)
  Corollary all_hidden_none_offline x :
    UpperInv g policy x -> Forall (fun o => o = 0) (off x) ->
    (forall i, i < ntrees (us x) -> tree_free g (low (us x)) i = nth (nn i) (off x) 0) ->
    exact_free (abs g (low (us x))) = 0.
  Proof.
    intros HI Hoff H. rewrite (all_hidden_exact_free x HI H).
    rewrite <- (map_id (off x)). apply sumN_map_zero. rewrite Forall_forall in Hoff. exact Hoff.
  Qed.
End FreeSums.
