(* Preservation of the invariant: put at small orders (P1, the split protocol PP2 / PP3, PS2x). *)
From Coq Require Import PeanoNat.
From LLF Require Import Base BitLemmas Row RowProofs Bitfield Lower Spec LowerMachine
  ConcBase ConcInvDef ConcInvGeom ConcInvStep ConcInvTac ConcInvAt.

Section Put.
  Variable g : geom.
  Hypothesis wf : wf_geom g.
  Notation HF := (HF g).
  Notation THUGE := (THUGE g).
  Notation ROWS := (ROWS g).

  (* a put that owns its block turns to the block's huge frame, whose entry is a counter *)
  Lemma inv_put_focus s t c p : Inv g s -> nth_error (ms_pool s) t = Some (TRun c p) ->
    geq (gpc g c p) (gown (c_frame c) (c_n c)) -> entv s (c_huge g c) <> MARK -> is_put c = true -> small g c = true ->
    Inv g (goto s t c (toggle_entry g XPut c)).
  Proof.
    intros I Ht E Hm Hp Hs. destruct (running_local g s t c p I Ht) as [Hc _]. change (gpc g c p) with (ghost_of g (TRun c p)) in E.
    assert (E' : geq (ghost_of g (TRun c (toggle_entry g XPut c))) (gput (c_huge g c) (c_frame c) (c_n c) 0))
      by (cbn [ghost_of]; rewrite toggle_entry_ghost; apply geq_refl).
    apply (inv_plain g s t _ _ I Ht); [|reflexivity|].
    - intros h. constructor; intros; gread E'; gread E;
        cbn [g_h own_lo own_n tr_lo tr_n p_n nd hu gput gown andb];
        rewrite ?N.mul_0_r, ?N.add_0_r, ?N.sub_0_r, ?inb_empty, ?andb_false_r; try reflexivity.
      + destruct (h =? c_huge g c), (h =? 0); reflexivity.
      + destruct (h =? c_huge g c), (h =? 0); reflexivity.
      + destruct (N.eqb_spec h (c_huge g c)) as [->|]; [contradiction|cbn; lia].
    - cbn [local_b]. rewrite Hc, toggle_entry_local by (cbn [ctx_ok]; assumption). reflexivity.
  Qed.

  Lemma step_P1 s t c c0 : Inv g s -> nth_error (ms_pool s) t = Some (TRun c P1) ->
    Inv g (fst (mstep g s t c0)).
  Proof.
    run_pc I Ht Hc L.
    assert (Hp : is_put c = true) by lia. assert (Hs : small g c = true) by lia.
    destruct (small_call g wf (ms_frames s) c Hc Hs (is_put_not_get c Hp)) as (Hh & He & _).
    destruct (has_ent g s (c_huge g c) I He) as [old Ev]. rewrite Ev. cbn [fst].
    pose proof (entv_rd s _ old Ev) as Ec.
    unfold e_free, e_huge. destruct (N.eqb_spec old MARK) as [->|Hm].
    - (* marker: start the split *)
      apply (inv_goto g s t c _ (toggle_entry g (XSplit MARK) c) I Ht).
      + rewrite toggle_entry_ghost. apply geq_sym, geq_gsplit0.
      + apply toggle_entry_local; [cbn [ctx_ok]; rewrite Hp; reflexivity|exact Hs].
    - pose proof (counter_bound g wf s t _ (c_huge g c) I Ht Hh ltac:(rewrite Ec; exact Hm)) as Kb.
      rewrite (gfr_small g wf (ms_frames s) c) in Kb; try reflexivity; try assumption; [|apply is_put_not_get, Hp].
      rewrite Ec in Kb.
      (* the Err(Memory) test of put_small: the counter and the block the thread still owns fit into HF *)
      destruct (N.leb_spec (old + c_n c) HF) as [Hle|Hgt]; [|exfalso; lia].
      apply (inv_put_focus s t c _ I Ht (geq_refl _)); [rewrite Ec; exact Hm|exact Hp|exact Hs].
  Qed.

  (* the spin_wait(RETRIES) of partial_put_huge: load until the splitter has replaced the marker *)
  Lemma step_PP3 s t c i c0 : Inv g s -> nth_error (ms_pool s) t = Some (TRun c (PP3 i)) ->
    Inv g (fst (mstep g s t c0)).
  Proof.
    run_pc I Ht Hc L.
    assert (Hp : is_put c = true) by lia. assert (Hs : small g c = true) by lia.
    destruct (small_call g wf (ms_frames s) c Hc Hs (is_put_not_get c Hp)) as (Hh & He & _).
    destruct (has_ent g s (c_huge g c) I He) as [cur Ev]. rewrite Ev. cbn [fst].
    pose proof (entv_rd s _ cur Ev) as Ec.
    unfold e_huge. destruct (N.eqb_spec cur MARK) as [->|Hm]; cbn [negb].
    - destruct (i + 1 <? RETRIES).
      + apply (inv_goto g s t c _ (PP3 (i + 1)) I Ht (geq_refl _)). exact L.
      + apply (inv_same g s t _ (TPanic SExceedingRetries c) I Ht (geq_refl _)); [reflexivity|].
        cbn [local_b]. rewrite Hc, Hp, Hs. reflexivity.
    - apply (inv_put_focus s t c _ I Ht (geq_refl _)); [rewrite Ec; exact Hm|exact Hp|exact Hs].
  Qed.

  Lemma step_PS2L s t c c0 : Inv g s -> nth_error (ms_pool s) t = Some (TRun c PS2L) ->
    Inv g (fst (mstep g s t c0)).
  Proof.
    run_pc I Ht Hc L.
    destruct (small_call g wf (ms_frames s) c Hc) as (Hh & He & _); [lia|apply is_put_not_get; lia|].
    destruct (has_ent g s (c_huge g c) I He) as [v Ev]. rewrite Ev. cbn [fst].
    destruct (inc_possible g wf s t _ _ (c_n c) v I Ht Hh (geq_refl _) Ev) as (Ei & _).
    rewrite Ei. apply (inv_goto g s t c _ (PS2C v) I Ht (geq_refl _)). cbn [lpc]. rewrite Ei. cbn [isSome]. lia.
  Qed.

  Lemma step_PS2C s t c v c0 : Inv g s -> nth_error (ms_pool s) t = Some (TRun c (PS2C v)) ->
    Inv g (fst (mstep g s t c0)).
  Proof.
    run_pc I Ht Hc L.
    destruct (small_call g wf (ms_frames s) c Hc) as (Hh & He & _); [lia|apply is_put_not_get; lia|].
    destruct (has_ent g s (c_huge g c) I He) as [cur Ev]. rewrite Ev.
    destruct (e_inc g v (c_n c)) as [v'|] eqn:Ed; [|cbn [isSome] in L; lia].
    destruct (inc_possible g wf s t _ _ (c_n c) cur I Ht Hh (geq_refl _) Ev) as (Ei & Hm & Hle).
    destruct (N.eqb_spec cur v) as [->|Hne]; cbn [fst].
    - rewrite Ei in Ed. inversion Ed; subst v'. rewrite finish_put by lia.
      apply (inv_inc g wf s t _ (TIdle _) _ v (c_n c) I Ht Ev Hh Hm); try reflexivity; apply geq_refl.
    - rewrite Ei. apply (inv_goto g s t c _ (PS2C cur) I Ht (geq_refl _)). cbn [lpc]. rewrite Ei. cbn [isSome]. lia.
  Qed.

  Lemma step_PP2 s t c old c0 : Inv g s -> nth_error (ms_pool s) t = Some (TRun c (PP2 old)) ->
    Inv g (fst (mstep g s t c0)).
  Proof.
    run_pc I Ht Hc L.
    assert (Hp : is_put c = true) by lia. assert (Hs : small g c = true) by lia. pose proof (is_put_not_get c Hp) as Hg.
    destruct (small_call g wf (ms_frames s) c Hc Hs Hg) as (Hh & He & Hk & Hr & Ho & Hn).
    destruct (small_call_decomp g wf (ms_frames s) c Hc Hs Hg) as (Ed & _).
    destruct (has_ent g s (c_huge g c) I He) as [cur Ev]. rewrite Ev. pose proof (entv_rd s _ cur Ev) as Ec.
    assert (Hold : old = MARK) by lia. subst old.
    pose proof (ROWS_pos g wf) as PR.
    set (h := c_huge g c) in *. set (x0 := TRun c (PP2 MARK)) in *. set (x' := TRun c (toggle_entry g XPut c)).
    pose proof (geq_refl (gsplit h (c_frame c) (c_n c) ROWS) : geq (ghost_of g x0) _) as E0.
    assert (E1 : geq (ghost_of g x') (gput h (c_frame c) (c_n c) 0)) by (unfold x'; cbn [ghost_of]; rewrite toggle_entry_ghost; apply geq_refl).
    (* the splitter owns a frame of h and has all rows of h in transit: the entry is still the marker *)
    assert (Hfr0 : fr g h (t_row g XPut c) (t_off XPut c) x0 = 1).
    { rewrite (fr_geq g _ _ _ _ _ E0). cbn [own_lo own_n gsplit]. rewrite <- Ed. unfold inb. lia. }
    assert (Htr0 : forall r, r < ROWS -> tr g h r x0 = 1).
    { intros r Hr'. rewrite (tr_geq g _ _ _ _ E0). cbn [g_h tr_lo tr_n gsplit]. rewrite N.eqb_refl. unfold inb. lia. }
    pose proof (sumf_ge (fr g h (t_row g XPut c) (t_off XPut c)) _ _ _ Ht) as Gf. rewrite Hfr0 in Gf.
    assert (Hcur : cur = MARK).
    { pose proof (I_A g s I h (t_row g XPut c) (t_off XPut c) Hh Hr Ho) as A. rewrite Ec in A.
      pose proof (sumf_ge (tr g h (t_row g XPut c)) _ _ _ Ht) as Gt. rewrite (Htr0 _ Hr) in Gt.
      unfold isMark in A. destruct (N.eqb_spec cur MARK); [assumption|]. cbn [b2n] in A. lia. }
    rewrite Hcur in *. clear Hcur. rewrite N.eqb_refl. cbn [fst].
    destruct (K2 g wf s h I Hh Ec) as [Kp Kz].
    pose proof (I_B g s I h Hh Ec (t_row g XPut c) (t_off XPut c) Hr Ho) as B.
    change (Inv g (mk_ent s h 0 t x' (ms_held s))).
    apply (inv_ent g s t _ _ h MARK 0 (ms_held s) I Ht Ev).
    - intros h' Hne. apply gsame_H. constructor; intros; gread E1; gread E0;
        cbn [g_h own_lo own_n tr_lo tr_n p_n nd hu gput gsplit andb];
        rewrite ?N.mul_0_r, ?N.add_0_r, ?N.sub_0_r, ?inb_empty, ?andb_false_r; try reflexivity;
        destruct (N.eqb_spec h' h); try contradiction; reflexivity.
    - constructor; intros; rewrite ?(mk_ent_entv _ _ _ _ _ _ _ _ Ev), ?N.eqb_refl, ?mk_ent_bit, ?mk_ent_zeros in *;
        try reflexivity; try (unfold MARK in *; discriminate).
      + cbn [ms_held mk_ent set_held]. rewrite Ec, (Htr0 r ltac:(assumption)).
        gread E1. gread E0.
        cbn [g_h own_lo own_n tr_lo tr_n gput gsplit]. rewrite N.mul_0_r, N.sub_0_r, !N.add_0_r, inb_empty, andb_false_r.
        unfold isMark, MARK. cbn. lia.
      + gread E1. gread E0.
        cbn [g_h tr_n p_n gput gsplit]. rewrite N.eqb_refl. pose proof (HF_64 g wf). lia.
      + cbn [ms_held mk_ent set_held]. rewrite (hfr_geq g x' _ h E1), (hfr_geq g x0 _ h E0). cbn [hu gput gsplit andb b2n].
        pose proof (hugec_le_heldc g wf (ms_frames s) (ms_held s) h (t_row g XPut c) (t_off XPut c) (I_H g s I) Hr Ho) as Hhc.
        pose proof (hfr_others g wf s t _ h (t_row g XPut c) (t_off XPut c) I Ht Hr Ho) as Ho'. rewrite Hfr0 in Ho'.
        rewrite (hfr_geq g x0 _ h E0) in Ho'. cbn [hu gsplit andb b2n] in Ho'. clear - Hhc Ho' Gf B. lia.
    - reflexivity.
    - unfold x'. cbn [local_b]. rewrite Hc, toggle_entry_local by (cbn [ctx_ok]; assumption). reflexivity.
    - apply I.
  Qed.
End Put.
