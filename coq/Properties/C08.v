(* C08 - Invalid arguments are rejected with an error and no side effects.
   First half (allocation / free arguments), over the sequential allocator model Upper.v, for every
   geometry, every policy, every state and every argument value (frame numbers are arbitrary N; the
   model's `check` uses the checked addition, so values near 2^64 are covered).
   The second half (zone offset, metadata buffers) is in Properties/C08meta.v. Proofs: ArgsProofs.v. *)
From LLF Require Import Base Row Bitfield Lower Spec Upper ArgsProofs.

(* order above the tree order, block past the managed range, misaligned frame, or unconfigured class *)
Theorem C08_put_rejected : forall g policy u frame r,
  bad_args g u frame r -> llfree_put g policy u frame r = (Err EArgument, u).
Proof. exact put_rejects. Qed.
Print Assumptions C08_put_rejected.

Theorem C08_get_at_rejected : forall g policy u frame r,
  bad_args g u frame r -> llfree_get g policy u (Some frame) r = (Err EArgument, u).
Proof. exact get_at_rejects. Qed.
Print Assumptions C08_get_at_rejected.

Theorem C08_get_rejected : forall g policy u r,
  bad_args g u 0 r -> llfree_get g policy u None r = (Err EArgument, u).
Proof. exact get_rejects. Qed.
Print Assumptions C08_get_rejected.

(* the rejection is exactly these conditions: anything else passes the argument check *)
Theorem C08_check_exact : forall g u frame r, frame + pow2 (r_order r) < W64 ->
  (check g u frame r = Err EArgument <-> bad_args g u frame r).
Proof.
  intros g u frame r Hw. split.
  - intros H.
    assert (D : bad_args g u frame r \/ ~ bad_args g u frame r).
    { unfold bad_args.
      destruct (Compare_dec.lt_dec (tord g) (r_order r)); [tauto|].
      destruct (N.lt_decidable (frames (low u)) (frame + pow2 (r_order r))); [tauto|].
      destruct (N.eq_decidable (frame mod pow2 (r_order r)) 0); [|tauto].
      destruct (class_locals u (r_class r)) eqn:E; [|tauto].
      right. intros [A|[A|[A|A]]]; try tauto; discriminate. }
    destruct D as [D|D]; [exact D|].
    rewrite (check_accepts g u frame r Hw D) in H. discriminate.
  - apply check_rejects.
Qed.
Print Assumptions C08_check_exact.

(* classes 8..255 are never configured *)
Theorem C08_class_ge8 : forall u c, length (locals u) = 8%nat -> 8 <= c -> class_locals u c = None.
Proof. exact class_ge8_unconfigured. Qed.
Print Assumptions C08_class_ge8.

(* non-vacuity: a two-tree allocator rejects order 12, a block past the end, a misaligned frame, class 5 *)
Example C08_example :
  let g := {| hord := 9; tlog := 2 |} in
  let u := {| low := free_all g 4096; trees := []; locals := [Some []; Some []; None; None; None; None; None; None]; dflt := 0 |} in
  check g u 0 {| r_order := 12; r_class := 0; r_local := None |} = Err EArgument /\
  check g u 4095 {| r_order := 1; r_class := 0; r_local := None |} = Err EArgument /\
  check g u 18446744073709551615 {| r_order := 0; r_class := 0; r_local := None |} = Err EArgument /\
  check g u 3 {| r_order := 1; r_class := 0; r_local := None |} = Err EArgument /\
  check g u 0 {| r_order := 0; r_class := 5; r_local := None |} = Err EArgument /\
  check g u 4094 {| r_order := 1; r_class := 1; r_local := None |} = Ok tt.
Proof. vm_compute. repeat split; reflexivity. Qed.
