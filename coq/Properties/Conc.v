(* Whole-allocator concurrency theorems (machine M2 = UpperMachine.v: tree entries, local slots, and the
   lower allocator through the embedded machine M1; one transition per atomic access; any number of
   threads, any schedule of any length).  They serve C01 (through the upper API), C03 part U, the concurrent
   halves of C04 and C15.  Hypotheses: a well-formed geometry; a policy that is reflexive-Match and
   demote-transitive (the repository's policies: PolicyFacts.v); an initial state satisfying the sequential
   invariant with a consistent ghost of held blocks (what LLFree::new yields); `sched_valid`: every call of the
   schedule has valid parameters (slot index below the class's slot count or none; a put passes the argument
   check; change_tree is an Offline or a class change onto a configured class - Online is EXCLUDED: its
   non-atomic re-count of the tree's free frames can double-count a concurrent allocation's credit, which
   the property texts do not cover either).  Proofs: UpperConc*.v on top of Conc*.v. *)
From LLF Require Import Base Row Bitfield Lower Spec Upper UpperInvDef LowerMachine UpperMachine UpperPrims
  ConcInvDef ConcInv UpperStatsProofs UpperConcInvDef UpperConcInv UpperConcProps.

(* C03 part U + C01 through the upper API + C04 at quiescence, with tree changes (ghost `off` along the run) *)
Theorem Conc_upper_safe_with_changes : forall g policy u held0 n sch,
  wf_geom g -> pol_refl_match policy -> pol_demote_trans policy ->
  UpperInv g policy (ustate_new u) -> HeldInit g (low u) held0 -> sched_valid g u sch ->
  let x := grun g policy sch (uboot u held0 n, zeros u) in
  let s := fst x in
  s = urun g policy sch (uboot u held0 n) /\
  (forall z, In z (upanicked s) -> z = SExceedingRetries) /\
  uheld_ok s = true /\
  (uquiescent s -> UpperInv g policy {| us := m2_up s; off := snd x |}).
Proof. exact conc_upper_safe_off. Qed.
Print Assumptions Conc_upper_safe_with_changes.

(* schedules without change_tree: the only reachable panic of the WHOLE allocator is the known one, handed-out
   blocks never overlap, and whenever no call is in flight the sequential invariant holds again *)
Theorem Conc_upper_safe : forall g policy u held0 n sch,
  wf_geom g -> pol_refl_match policy -> pol_demote_trans policy ->
  UpperInv g policy (ustate_new u) -> HeldInit g (low u) held0 ->
  sched_valid g u sch -> Forall (fun tc => no_change (snd tc)) sch ->
  let s := urun g policy sch (uboot u held0 n) in
  (forall x, In x (upanicked s) -> x = SExceedingRetries) /\
  uheld_ok s = true /\
  (uquiescent s -> UpperInv g policy (ustate_new (m2_up s))).
Proof. exact conc_upper_safe. Qed.
Print Assumptions Conc_upper_safe.

(* C04, concurrent half: at the end of every interleaving validate() passes and fast = exact accounting *)
Theorem Conc_quiescent_validate : forall g policy u held0 n sch,
  wf_geom g -> pol_refl_match policy -> pol_demote_trans policy ->
  UpperInv g policy (ustate_new u) -> HeldInit g (low u) held0 ->
  sched_valid g u sch -> Forall (fun tc => no_change (snd tc)) sch ->
  let s := urun g policy sch (uboot u held0 n) in
  uquiescent s -> llfree_validate g (m2_up s) = Ok tt.
Proof. exact conc_quiescent_validate. Qed.
Print Assumptions Conc_quiescent_validate.

Theorem Conc_quiescent_stats : forall g policy u held0 n sch,
  wf_geom g -> pol_refl_match policy -> pol_demote_trans policy ->
  UpperInv g policy (ustate_new u) -> HeldInit g (low u) held0 ->
  sched_valid g u sch -> Forall (fun tc => no_change (snd tc)) sch ->
  let s := urun g policy sch (uboot u held0 n) in
  uquiescent s ->
  exists ts, llfree_tree_stats g (m2_up s) = Ok ts /\
    ts_free ts = free_frames (llfree_stats g (m2_up s)) /\
    ts_free ts = exact_free (abs g (low (m2_up s))).
Proof. exact conc_quiescent_stats. Qed.
Print Assumptions Conc_quiescent_stats.

(* with offline trees: fast count + hidden frames = exact count *)
Theorem Conc_quiescent_stats_with_changes : forall g policy u held0 n sch,
  wf_geom g -> pol_refl_match policy -> pol_demote_trans policy ->
  UpperInv g policy (ustate_new u) -> HeldInit g (low u) held0 -> sched_valid g u sch ->
  let x := grun g policy sch (uboot u held0 n, zeros u) in
  uquiescent (fst x) ->
  exists ts, llfree_tree_stats g (m2_up (fst x)) = Ok ts /\
    ts_free ts + UpperStatsProofs.sumN (snd x) = free_frames (llfree_stats g (m2_up (fst x))) /\
    ts_free ts + UpperStatsProofs.sumN (snd x) = exact_free (abs g (low (m2_up (fst x)))).
Proof. exact conc_quiescent_stats_off. Qed.
Print Assumptions Conc_quiescent_stats_with_changes.

(* C15, concurrent half: an entirely free tree taken offline is never allocated from, along every continuation *)
Theorem Conc_offline_never_allocated : forall g policy u held0 n sch1 sch2 i,
  wf_geom g -> pol_refl_match policy -> pol_demote_trans policy ->
  UpperInv g policy (ustate_new u) -> HeldInit g (low u) held0 -> sched_valid g u (sch1 ++ sch2) ->
  i < ntrees u ->
  let x := grun g policy sch1 (uboot u held0 n, zeros u) in
  nth (nn i) (snd x) 0 = TF g ->
  let y := grun g policy sch2 x in
  y = grun g policy (sch1 ++ sch2) (uboot u held0 n, zeros u) /\
  nth (nn i) (snd y) 0 = TF g /\
  (forall F K, In (F, K) (m2_held (fst y)) -> F / TF g <> i) /\
  (forall t, tree_at (m2_up (fst y)) i = Some t -> t_free t = 0).
Proof. exact conc_offline_hidden. Qed.
Print Assumptions Conc_offline_never_allocated.

(* Composition with construction: from what LLFree::new builds (free-all or allocate-all, EVERY frame
   count, any classing with ids < 8 and a configured default, zeroed local buffer) and for each of the
   repository's policies, every schedule of valid-parameter calls (any number of threads) keeps the whole
   allocator safe - no invariant is left as a hypothesis. *)
From LLF Require Import Policies PolicyFacts GlueHistory ConcFromNew.
Theorem Conc_from_new : forall g, wf_geom g -> forall p, builtin_policy p (TF g) ->
  forall fr i classing d lbuf tbuf sbuf,
    (i = IFreeAll \/ i = IAllocAll) ->
    Forall (fun s => s_pres s = false) sbuf ->
    (forall c k, In (c, k) classing -> c < 8) ->
    (exists k, In (d, k) classing) ->
    exists u, llfree_new g fr i classing d lbuf tbuf sbuf = Ok u /\
      forall n sch, sched_valid g u sch ->
        let x := UpperConcInv.grun g p sch (uboot u (held_of_init g i fr) n, zeros u) in
        let s := fst x in
        s = urun g p sch (uboot u (held_of_init g i fr) n) /\
        (forall z, In z (upanicked s) -> z = SExceedingRetries) /\
        uheld_ok s = true /\
        (uquiescent s -> UpperInv g p {| us := m2_up s; off := snd x |}).
Proof. exact conc_from_new. Qed.
Print Assumptions Conc_from_new.

(* the exclusion of change_tree(.., Online) from `sched_valid` is necessary: a concrete M2 schedule (one tree, thread 0
   frees frame 0, thread 1 onlines the tree between the lower free and the counter increment) ends quiescent with the
   tree counter at 2 and one frame free (UpperOnlineRace.v).  C04's space contains concurrent tree changes: the compiled
   code shows the same end state (scenario group `online-race`), known finding D16 of DESIGN.md 11.2 *)
From LLF Require Import UpperOnlineRace.
Theorem Conc_online_exclusion_necessary :
  upper_invb g7 simple7 (ustate_new u0) = true /\
  upanicked s_end = [] /\ forallb (fun x => match x with UIdle (Some _) => true | _ => false end) (m2_pool s_end) = true /\
  map t_free (trees (m2_up s_end)) = [2] /\
  tree_free g7 (low (m2_up s_end)) 0 = 1 /\
  ~ UpperInv g7 simple7 (ustate_new (m2_up s_end)).
Proof. exact conc_online_put_double_count. Qed.
Print Assumptions Conc_online_exclusion_necessary.

(* ... and what it does to later calls: freeing everything afterwards, the last free of a HELD block panics in Tree::put's
   counter assertion (outside C03's quantifier, which has no concurrent tree changes; part of finding D16) *)
Theorem Conc_online_race_later_free_panics :
  upanicked s_after = [STreeFree] /\
  nth_error (m2_pool s_after) 0 = Some (UPanic STreeFree (UPut 128 {| r_order := 7%nat; r_class := 0; r_local := None |})) /\
  In (128, 7%nat) (m2_held s_end).
Proof. exact conc_online_put_later_free_panics. Qed.
Print Assumptions Conc_online_race_later_free_panics.

(* C01 through the upper API with ANY tree change in the schedule, change_tree(.., Online) included (UpperConcWeak.v).
   The accounting invariant cannot survive an Online racing a put (above); the safety of the blocks handed out does:
   the upper layer is only a client of the lower allocator, it calls Lower::get / get_at with rows / frames in range
   and frees only blocks its caller holds, so M1's invariant is preserved whatever the tree / slot counters say.
   NO hypothesis on the policy.  `sched_valid_w`: a slot index is below the class's slot count (or none) and a put
   passes the argument check; a change_tree call is unrestricted (any matcher, any class, Online / Offline / none).
   What is given up: the upper layer may panic on its (now possibly wrong) counters; a panicked thread just stops. *)
From LLF Require Import UpperConcWeak.
Theorem Conc_held_with_any_tree_change : forall g policy u held0 n sch,
  wf_geom g ->
  UpperInv g policy (ustate_new u) ->
  HeldInit g (low u) held0 ->
  sched_valid_w g u sch ->
  uheld_ok (urun g policy sch (uboot u held0 n)) = true.
Proof. exact conc_upper_held_weak. Qed.
Print Assumptions Conc_held_with_any_tree_change.

(* ... and M1's invariant holds for the M1 view of every reachable M2 state (so every reachable state is a crash point:
   UpperConcWeak.conc_upper_crash_safe_weak), where the view `m1w s L` is `m1_of s` with a ghost list L of LEAKED blocks
   appended to the held list: frames a get had already obtained from the lower allocator when it panicked in upper
   code (e.g. "Unreserve failed" on a counter broken by an Online race); they stay allocated and belong to nobody *)
Theorem Conc_m1_inv_with_any_tree_change : forall g policy u held0 n sch,
  wf_geom g ->
  UpperInv g policy (ustate_new u) ->
  HeldInit g (low u) held0 ->
  sched_valid_w g u sch ->
  exists L, Inv g (m1w g (urun g policy sch (uboot u held0 n)) L).
Proof. exact conc_upper_m1_inv_weak. Qed.
Print Assumptions Conc_m1_inv_with_any_tree_change.

(* non-vacuity: the Online-vs-put race above satisfies the hypotheses *)
Theorem Conc_held_online_race_instance : uheld_ok s_end = true /\ exists L, Inv g7 (m1w g7 s_end L).
Proof. exact WeakExample.conc_weak_instance. Qed.
Print Assumptions Conc_held_online_race_instance.
