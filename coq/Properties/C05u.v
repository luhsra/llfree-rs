(* C05 (whole allocator) - Crash at any point: the crash point is ANY state `s` reachable by machine M2
   (UpperMachine.v: concurrent get / put / drain / change_tree calls of LLFree under any schedule of any number of
   threads, one transition per atomic access of a tree entry, a local slot or the lower allocator).  The persistent
   metadata of the whole allocator is its lower allocator `low (m2_up s)`; trees, local slots and thread states are
   volatile and lost.  Property theorems only; the proofs are in UpperCrash.v (the M2 invariant contains M1's
   invariant for the lower view `m1_of`, over which Crash.v is stated).
   `m2_held s`      blocks returned by completed upper allocations and not passed to a free that has started.
   `in_hand g s`    blocks an in-flight upper get has already taken from the lower allocator (its lower call
                    completed) but not yet returned to its caller: part of "touched by an in-flight call".
   `m1_of g s`      the view of s as a state of the lower machine: pool = the lower calls the upper calls are
                    currently inside of, held = m2_held s ++ in_hand g s.
   scope: as Properties/Conc.v (`sched_valid`: valid parameters, no change_tree(Online) in the schedule). *)
From LLF Require Import Base Row Bitfield Lower Spec Sorted Upper UpperInvDef LowerFacts LowerMachine ConcBase ConcInvDef
  UpperPrims ConcInv RecoverProofs Crash UpperMachine UpperConcInvDef UpperConcInv UpperConcProps UpperCrash.

Theorem C05u_crash_safe : forall g policy u held0 n sch,
  wf_geom g -> pol_refl_match policy -> pol_demote_trans policy ->
  UpperInv g policy (ustate_new u) -> HeldInit g (low u) held0 -> sched_valid g u sch ->
  let s := urun g policy sch (uboot u held0 n) in
  let l := low (m2_up s) in
  let m := lower_recover g l in
  LowerPre g l /\ LowerInv g m /\ abs g m = abs g l /\
  (forall f k, In (f, k) (m2_held s ++ in_hand g s) -> spec_put_enabled g (abs g m) f k = true) /\
  (forall f, N.testbit (o_alloc (abs g m)) f = true ->
     covered_by_held (m1_of g s) f \/ touched g (m1_of g s) f).
Proof. exact conc_upper_crash_safe. Qed.
Print Assumptions C05u_crash_safe.

(* LLFree::new(.., Init::Recover) over the crashed metadata and zeroed volatile buffers: succeeds, sequential
   invariant, fast = exact = free frames of the crashed ownership state, validate() passes *)
Theorem C05u_counts_agree_after_recovery : forall g policy u held0 n sch classing d tbuf sbuf,
  wf_geom g -> pol_refl_match policy -> pol_demote_trans policy ->
  UpperInv g policy (ustate_new u) -> HeldInit g (low u) held0 -> sched_valid g u sch ->
  Forall (fun sl => s_pres sl = false) sbuf ->
  (forall c k, In (c, k) classing -> c < 8) ->
  (exists k, In (d, k) classing) ->
  let s := urun g policy sch (uboot u held0 n) in
  let l := low (m2_up s) in
  exists u' ts,
    llfree_new g (frames l) IRecover classing d l tbuf sbuf = Ok u' /\
    UpperInv g policy (ustate_new u') /\
    low u' = lower_recover g l /\
    llfree_tree_stats g u' = Ok ts /\
    ts_free ts = free_frames (llfree_stats g u') /\
    ts_free ts = exact_free (abs g l) /\
    llfree_validate g u' = Ok tt.
Proof. exact conc_upper_crash_counts. Qed.
Print Assumptions C05u_counts_agree_after_recovery.

(* ... and with ANY tree change in the schedule (a concurrent change_tree(.., Online) included) and NO hypothesis on
   the policy (UpperConcWeak.v: the weak invariant keeps M1's invariant for the lower view although the upper
   accounting may be broken by an Online race, finding D16).  `m1w g s L` is `m1_of g s` with a ghost list L of blocks
   leaked by gets that panicked in upper code after the lower allocator had handed them out. *)
From LLF Require Import UpperConcWeak.
Theorem C05u_crash_safe_with_any_tree_change : forall g policy u held0 n sch,
  wf_geom g ->
  UpperInv g policy (ustate_new u) ->
  HeldInit g (low u) held0 ->
  sched_valid_w g u sch ->
  let s := urun g policy sch (uboot u held0 n) in
  let l := low (m2_up s) in
  let m := lower_recover g l in
  LowerPre g l /\ LowerInv g m /\ abs g m = abs g l /\
  (forall f k, In (f, k) (m2_held s ++ flat_map (inflight g) (m2_pool s)) -> spec_put_enabled g (abs g m) f k = true) /\
  exists L, forall f, N.testbit (o_alloc (abs g m)) f = true -> covered_by_held (m1w g s L) f \/ touched g (m1w g s L) f.
Proof. exact conc_upper_crash_safe_weak. Qed.
Print Assumptions C05u_crash_safe_with_any_tree_change.
