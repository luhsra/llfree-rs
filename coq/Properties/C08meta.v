(* C08 (metadata half) - `MetaData::valid` and the zone wrapper's
   offset check.  Property theorems only; proofs in MetaProofs.v, definitions in Meta.v.
   `meta_valid` is `MetaData::valid` with the `overlap` formula exactly as written (four endpoint
   containments, `end.sub(1)` as a wrapping decrement); `intersects` is real intersection of byte
   ranges; `nowrap b` says the buffer ends below 2^64. *)
From LLF Require Import Base Row Bitfield Lower Meta MetaProofs.

(* accepted => sizes, alignment, no shared byte, and the later checks of Lower::new / Locals::new /
   Trees::new pass (no hypothesis on the buffers at all) *)
Theorem C08_valid_accepts_only_good : forall g fr cl local trees lower,
  meta_valid g fr cl local trees lower = true ->
  local_size cl <= b_len local /\ trees_size g fr <= b_len trees /\ lower_size g fr <= b_len lower
  /\ b_addr local mod 64 = 0 /\ b_addr trees mod 64 = 0 /\ b_addr lower mod 64 = 0
  /\ intersects local trees = false /\ intersects trees lower = false /\ intersects lower local = false
  /\ lower_new_ok g fr lower = true /\ locals_new_ok cl local = true /\ trees_new_ok g fr trees = true.
Proof. exact valid_true. Qed.
Print Assumptions C08_valid_accepts_only_good.

(* rejected when a buffer is too short *)
Theorem C08_valid_rejects_short : forall g fr cl local trees lower,
  b_len local < local_size cl \/ b_len trees < trees_size g fr \/ b_len lower < lower_size g fr ->
  meta_valid g fr cl local trees lower = false.
Proof. exact valid_false_short. Qed.
Print Assumptions C08_valid_rejects_short.

(* rejected when a buffer is not 64-byte aligned *)
Theorem C08_valid_rejects_misaligned : forall g fr cl local trees lower,
  b_addr local mod 64 <> 0 \/ b_addr trees mod 64 <> 0 \/ b_addr lower mod 64 <> 0 ->
  meta_valid g fr cl local trees lower = false.
Proof. exact valid_false_misaligned. Qed.
Print Assumptions C08_valid_rejects_misaligned.

(* rejected when two buffers share a byte: partial overlap, nesting, identical ranges *)
Theorem C08_valid_rejects_intersecting : forall g fr cl local trees lower,
  intersects local trees = true \/ intersects trees lower = true \/ intersects lower local = true ->
  meta_valid g fr cl local trees lower = false.
Proof. exact valid_false_intersect. Qed.
Print Assumptions C08_valid_rejects_intersecting.

(* what the four-endpoint `overlap` answers, exactly: for two non-empty buffers it IS intersection; an
   empty buffer is reported as overlapping a non-empty one iff its address lies in the CLOSED range
   [start, end] (so also when it only touches the start or the end); two empty buffers never overlap *)
Theorem C08_overlap_exact : forall a b, nowrap a -> nowrap b -> overlap a b = negb (separated a b).
Proof. exact overlap_spec. Qed.
Print Assumptions C08_overlap_exact.

(* the complete decision rule of `valid` *)
Theorem C08_valid_decision : forall g fr cl local trees lower,
  nowrap local -> nowrap trees -> nowrap lower ->
  meta_valid g fr cl local trees lower =
    (local_size cl <=? b_len local) && (trees_size g fr <=? b_len trees) && (lower_size g fr <=? b_len lower)
    && aligned64 local && aligned64 trees && aligned64 lower
    && separated local trees && separated trees lower && separated lower local.
Proof. exact valid_iff. Qed.
Print Assumptions C08_valid_decision.

(* the zone wrapper rejects frames below its offset and leaves the inner allocator untouched *)
Theorem C08_zone_get_below : forall (state request class : Type)
    (inner_get : state -> option N -> request -> res (N * class) * state) off s f rq,
  f < off -> zone_get state request class inner_get off s (Some f) rq = (Err EArgument, s).
Proof. exact zone_get_below. Qed.
Print Assumptions C08_zone_get_below.

Theorem C08_zone_put_below : forall (state request : Type)
    (inner_put : state -> N -> request -> res unit * state) off s f rq,
  f < off -> zone_put state request inner_put off s f rq = (Err EArgument, s).
Proof. exact zone_put_below. Qed.
Print Assumptions C08_zone_put_below.
