(* C11 - A single-slot allocator finds every free base frame without draining.

   "One class c with one slot, policy c t _ <> Invalid for every tree class t that can occur, 2..n trees,
    history of base-order calls of class c (allocations through slot 0, frees through slot 0 or no slot):
    get = Err Memory only if exact_free (abs s) = 0."

   Stated for ANY state satisfying the invariant `UpperInv` in which class c is the only configured class and
   has exactly one slot (every state reachable from `llfree_new` with the classing [(c, 1)] by any history of
   valid-parameter calls is such a state: C09 / C04_inv_after_every_history and C07's shape preservation), so
   the restriction of the history to base-order calls is not needed.  The model is the repaired code (D7: the
   sync threshold is `>=`).  With trees taken offline the conclusion is "every free frame is hidden by an
   offline operation"; without offline trees (`off` all zero) it is `exact_free = 0`.
   Hypotheses: wf geometry, `pol_refl_match`, `pol_never_invalid`; at least two trees; frames < 2^64.
   Proofs: UpperGetComplete.v (`get_single_slot_complete`), GlueProofs.v / GlueHistory.v (summed form). *)
From Coq Require Import List NArith.
From LLF Require Import Base Row Bitfield Lower Spec LowerFactsProofs Upper UpperInvDef UpperPrims UpperPutProofs
  UpperStatsProofs UpperGetProofs UpperGetComplete Handoff GlueProofs GlueHistory.

(* per tree: all free frames are hidden *)
Theorem C11_single_slot_complete : forall g policy,
  wf_geom g -> pol_refl_match policy -> pol_never_invalid policy ->
  forall x c x',
    UpperInv g policy x ->
    (forall c', class_slots (us x) c' <> None -> c' = c) -> class_locals (us x) c = Some 1 ->
    1 < ntrees (us x) -> frames (low (us x)) < W64 ->
    ghost_lift (fun u => llfree_get g policy u None {| r_order := 0; r_class := c; r_local := Some 0 |}) x
      = (Err EMemory, x') ->
    (forall i, i < ntrees (us x) -> tree_free g (low (us x)) i = nth (nn i) (off x) 0) /\
    exact_free (abs g (low (us x))) = sumN (off x).
Proof. exact single_slot_fail_all_hidden. Qed.
Print Assumptions C11_single_slot_complete.

(* no tree offline: out of memory only if no frame is free *)
Theorem C11_single_slot_no_free : forall g policy,
  wf_geom g -> pol_refl_match policy -> pol_never_invalid policy ->
  forall x c x',
    UpperInv g policy x ->
    (forall c', class_slots (us x) c' <> None -> c' = c) -> class_locals (us x) c = Some 1 ->
    1 < ntrees (us x) -> frames (low (us x)) < W64 ->
    Forall (fun o => o = 0) (off x) ->
    ghost_lift (fun u => llfree_get g policy u None {| r_order := 0; r_class := c; r_local := Some 0 |}) x
      = (Err EMemory, x') ->
    exact_free (abs g (low (us x))) = 0.
Proof. exact single_slot_fail_no_free. Qed.
Print Assumptions C11_single_slot_no_free.

(* the ghost stays zero as long as no tree is taken offline: get / put / drain never touch it *)
Theorem C11_ghost_untouched : forall A (f : upper -> res A * upper) x r x',
  ghost_lift f x = (r, x') -> off x' = off x.
Proof. exact @ghost_lift_off. Qed.
Print Assumptions C11_ghost_untouched.

(* non-vacuity: geometry 9/2, 4096 frames = 2 trees, the single class 0 with one slot, simple ordered policy.
   D7's scenario: exhaust both trees (two tree-order allocations leave nothing; here: allocate everything by two
   order-11 gets), free one frame without a slot, allocate through the slot: it is found (Ok).  After it is
   taken again the allocator is empty and the get fails with exact_free = 0. *)
Example C11_example :
  let g := {| hord := 9; tlog := 2 |} in
  let pol := PolicyFacts.ordered_policy (fun _ => 1) in
  let lower0 := {| frames := 0; bfs := []; ents := [] |} in
  let rq o l := {| r_order := o; r_class := 0; r_local := l |} in
  exists u, llfree_new g 4096 IFreeAll [(0, 1)] 0 lower0 [] [slot_none] = Ok u /\
    let r := grun g pol (ustate_new u)
               [OGet None (rq 11%nat (Some 0)); OGet None (rq 11%nat (Some 0)); OGet None (rq 0%nat (Some 0));
                OPut 77 (rq 0%nat None); OGet None (rq 0%nat (Some 0)); OGet None (rq 0%nat (Some 0))] in
    fst r = [RGet (Ok (0, 0)); RGet (Ok (2048, 0)); RGet (Err EMemory); RPut (Ok tt); RGet (Ok (77, 0));
             RGet (Err EMemory)] /\
    exact_free (abs g (low (us (snd r)))) = 0 /\ off (snd r) = [0; 0] /\
    class_locals (us (snd r)) 0 = Some 1 /\ ntrees (us (snd r)) = 2.
Proof. cbv zeta. eexists. split; [vm_compute; reflexivity|]. repeat split; vm_compute; reflexivity. Qed.
