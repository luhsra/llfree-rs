(* "Every quiescent state reached by the explored sequential histories AND concurrent interleavings" (C10, C14):
   the sequential theorems of C10 / C14 are stated for any state satisfying the invariant `UpperInv`; the concurrent
   theorem Conc_upper_safe_with_changes says that the state of the whole-allocator machine M2 satisfies it whenever no
   call is in flight, after ANY interleaving (scope of Properties/Conc.v: valid parameters, no
   change_tree(Online) in the schedule - finding D16).  This file only composes them, so that the claim "after every
   interleaving, then a drain, then the checked call" is a theorem and not a reading of two files.
   `st` below is the quiescent end state of the interleaving with the ghost `off` computed along the run. *)
From Coq Require Import List NArith.
From LLF Require Import Base Row Bitfield Lower Spec LowerFactsProofs Upper UpperInvDef UpperPrims UpperPutProofs
  UpperStatsProofs UpperGetProofs UpperGetComplete Handoff GlueProofs GlueHistory
  LowerMachine UpperMachine ConcInvDef ConcInv UpperConcInvDef UpperConcInv UpperConcProps AfterInterleaving.

Theorem C10_after_every_interleaving : forall g policy u held0 n sch,
  wf_geom g -> pol_refl_match policy -> pol_demote_trans policy -> pol_never_invalid policy ->
  UpperInv g policy (ustate_new u) -> HeldInit g (low u) held0 -> sched_valid g u sch ->
  let x := UpperConcInv.grun g policy sch (uboot u held0 n, zeros u) in
  let st := {| us := m2_up (fst x); off := snd x |} in
  uquiescent (fst x) ->
  exists st', ghost_lift (llfree_drain g policy) st = (Ok tt, st') /\ UpperInv g policy st' /\
    low (us st') = low (us st) /\ present_slots (us st') = [] /\
    (* base order *)
    (forall rq st'', valid_req (us st') rq -> r_order rq = 0%nat -> frames (low (us st')) < W64 ->
       ghost_lift (fun v => llfree_get g policy v None rq) st' = (Err EMemory, st'') ->
       (forall i t, tree_at (us st') i = Some t -> t_free t = 0) /\ exact_free (abs g (low (us st'))) = sumN (off st')) /\
    (* targeted *)
    (forall f rq t, valid_req (us st') rq -> check g (us st') f rq = Ok tt -> tree_at (us st') (f / TF g) = Some t ->
       ((exists c st'', ghost_lift (fun v => llfree_get g policy v (Some f) rq) st' = (Ok (f, c), st'')) <->
        (pow2 (r_order rq) <= t_free t /\ spec_get_enabled (abs g (low (us st'))) f (r_order rq) = true))).
Proof. exact c10_after_every_interleaving. Qed.
Print Assumptions C10_after_every_interleaving.

Theorem C14_after_every_interleaving : forall g policy u held0 n sch,
  wf_geom g -> pol_refl_match policy -> pol_demote_trans policy ->
  UpperInv g policy (ustate_new u) -> HeldInit g (low u) held0 -> sched_valid g u sch ->
  let x := UpperConcInv.grun g policy sch (uboot u held0 n, zeros u) in
  uquiescent (fst x) ->
  exists ts, llfree_tree_stats g (m2_up (fst x)) = Ok ts /\
    length (ts_classes ts) = 8%nat /\
    sumN (map cs_free (ts_classes ts)) = ts_free ts /\
    sumN (map (fun c => cs_free c + cs_alloc c) (ts_classes ts)) = ntrees (m2_up (fst x)) * TF g.
Proof. exact c14_after_every_interleaving. Qed.
Print Assumptions C14_after_every_interleaving.
