(* C06 - Free-all and allocate-all initialisation are correct for every frame count.
   `free_all g fr` / `reserve_all g fr` are the models of `Lower::new(.., FreeAll / AllocAll)` (Lower.v);
   `abs` reads the allocation state off the metadata (Spec.v). Every wf geometry, EVERY frame count
   (0 included, partial last trees and partial last huge frames included).
   Proofs: LowerInitProofs.v (over LowerPutProofs.v, LowerGetProofs.v, LowerFactsGet.v, AbsLemmas.v). The upper half (tree counters from the
   lower statistics) is `llfree_new_correct` in UpperStatsProofs.v, used by C09/C04. *)
From LLF Require Import Base Row Bitfield Lower Spec AbsLemmas LowerPutProofs LowerInitProofs.

(* a fresh free-all allocator: consistent metadata, no frame allocated, every frame reported free *)
Theorem C06_free_all : forall g, wf_geom g -> forall fr,
  LowerInv g (free_all g fr) /\
  o_alloc (abs g (free_all g fr)) = 0 /\ o_whole (abs g (free_all g fr)) = 0 /\
  exact_free (abs g (free_all g fr)) = fr /\
  lower_stats g (free_all g fr) = {| free_frames := fr; free_huge := fr / HF g; free_trees := fr / TF g |}.
Proof.
  intros g WF fr.
  split; [apply free_all_inv; exact WF|].
  split; [apply free_all_alloc; exact WF|].
  split; [apply free_all_whole; exact WF|].
  split; [apply free_all_exact_free; exact WF|].
  apply free_all_stats; exact WF.
Qed.
Print Assumptions C06_free_all.

(* a fresh allocate-all allocator: every managed frame allocated, exactly the huge frames h < fr/HF whole,
   nothing reported free *)
Theorem C06_reserve_all : forall g, wf_geom g -> forall fr,
  LowerInv g (reserve_all g fr) /\
  o_alloc (abs g (reserve_all g fr)) = ones fr /\ o_whole (abs g (reserve_all g fr)) = ones (fr / HF g) /\
  lower_stats g (reserve_all g fr) = stats0.
Proof.
  intros g WF fr.
  split; [apply reserve_all_inv; exact WF|].
  split; [apply reserve_all_alloc; exact WF|].
  split; [apply reserve_all_whole; exact WF|].
  apply reserve_all_stats; exact WF.
Qed.
Print Assumptions C06_reserve_all.

(* from allocate-all: freeing every whole huge frame once at huge order and every other managed frame once
   at base order succeeds throughout and ends in exactly the free-all state (all metadata equal) *)
Theorem C06_free_everything : forall g, wf_geom g -> forall fr,
  put_all g (reserve_all g fr) (free_seq g fr) = (Ok tt, free_all g fr).
Proof. exact free_seq_from_reserve_all. Qed.
Print Assumptions C06_free_everything.

(* a second free of the same block is refused: a free succeeds exactly when the block is allocated
   (whole, for huge orders) - so each block of the sequence can be freed exactly once *)
Theorem C06_free_exactly_when_allocated : forall g, wf_geom g -> forall l f k,
  LowerInv g l -> aligned f k = true -> f + pow2 k <= frames l -> (k <= tord g)%nat ->
  (fst (lower_put g l f k) = Ok tt <-> spec_put_enabled g (abs g l) f k = true).
Proof. intros g WF l f k I A R K. apply lower_put_ok_iff; [exact WF | exact (conj I (conj A (conj R K)))]. Qed.
Print Assumptions C06_free_exactly_when_allocated.

(* no frame at or beyond the managed count is ever reported free or allocated to anyone, in any
   consistent state; and the counters always equal the number of free frames of the allocation state *)
Theorem C06_nothing_beyond_range : forall g, wf_geom g -> forall l f, LowerInv g l -> frames l <= f ->
  alloc_at g l f = false /\ N.testbit (o_alloc (abs g l)) f = false /\
  (forall k, lower_is_free g l f k = Panic SIsFreeAssert) /\
  (forall s, lower_stats_at g l f 0 = Ok s -> s = stats0).
Proof. exact beyond_not_alloc_not_free. Qed.
Print Assumptions C06_nothing_beyond_range.

Theorem C06_counts_match_state : forall g, wf_geom g -> forall l, LowerInv g l ->
  free_frames (lower_stats g l) = exact_free (abs g l) /\
  free_huge (lower_stats g l) = free_huge_count g (abs g l) /\
  free_trees (lower_stats g l) = free_tree_count g (abs g l).
Proof. exact lower_stats_abs. Qed.
Print Assumptions C06_counts_match_state.
