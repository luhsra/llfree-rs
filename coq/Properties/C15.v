(* C15 - Offline trees are never allocated from; online restores them exactly.

   "With ghost off_t in UpperInv: change_tree by id on an unreserved entirely free tree with Offline returns Ok;
    while off_t = cap_t no get of any kind returns a frame of t and tree_stats.free_frames excludes cap_t;
    Online with class c restores g_t = lowerfree_t, off_t = 0, class c, after which C10 makes every frame
    allocatable; change returns Err and leaves the entry unchanged if the tree is reserved, the class differs or
    g_t < matcher.free."

   The ghost `off x` (UpperInvDef.v) records per tree the number of frames that are free in the lower allocator
   but hidden from the tree counter by an Offline operation; `ghost_change` is `change_tree` together with the
   ghost update (Offline adds the counter it zeroes, Online resets to 0); every other call leaves the ghost
   alone (`ghost_lift`).  `tree_free g l t` = free frames of tree t in the lower allocator; U3 of the invariant:
   counter_t + reservations on t + off_t = tree_free t.
   What is proved about "while": at every state (of every history) in which off_t = tree_free t, i.e. all free
   frames of t are hidden, a get does not return a frame of t (C15_get_not_hidden, C15_history); more generally a
   get of order k from tree t needs 2^k free frames that are NOT hidden (C15_get_visible).  Offline of an
   unreserved tree establishes off_t = tree_free t (C15_offline_hides) and it persists along every history
   without change_tree and without frees into t (C15_hidden_while).  The ghost of a tree only changes by a
   successful change_tree that matches it (C15_change_frame, C15_ghost_only_by_change).
   Sequential model; no policy hypothesis for change_tree, `pol_refl_match`/`pol_demote_trans` for get.
   Proofs: UpperPutProofs.v (change_tree), UpperGetProofs.v (get), UpperStatsProofs.v, GlueHistory.v. *)
From Coq Require Import List NArith.
From LLF Require Import Base Row Bitfield Lower Spec LowerFactsProofs Upper UpperInvDef UpperPrims UpperPutProofs
  UpperStatsProofs UpperGetProofs Handoff GlueProofs GlueHistory.

(* `change_cfg u ch`: a class set by the change is configured (C09's validity condition) *)

(* Offline by id on an unreserved tree that satisfies the matcher: Ok; the counter becomes 0 and is added to
   the ghost (for an entirely free tree: t_free t = tree_free, so afterwards off = tree_free: all hidden) *)
Theorem C15_offline : forall g policy, wf_geom g -> forall x m ch i t r x',
  UpperInv g policy x -> change_cfg (us x) ch ->
  m_id m = Some i -> tree_at (us x) i = Some t -> t_res t = false ->
  m_free m <= t_free t -> (forall k, m_class m = Some k -> k = t_class t) ->
  c_op ch = Some OpOffline ->
  ghost_change g x m ch = (r, x') ->
  r = Ok tt /\
  tree_at (us x') i = Some {| t_free := 0; t_res := false;
                              t_class := match c_class ch with Some c => c | None => t_class t end |} /\
  nth (nn i) (off x') 0 = nth (nn i) (off x) 0 + t_free t.
Proof. intros g policy WF. exact (ghost_change_offline g policy WF (lower_facts_proved g WF)). Qed.
Print Assumptions C15_offline.

(* a get of order k returning frame f: the tree of f had 2^k free frames beyond the hidden ones *)
Theorem C15_get_visible : forall g policy,
  wf_geom g -> pol_refl_match policy -> pol_demote_trans policy ->
  forall x frame rq f c x',
    UpperInv g policy x -> valid_req (us x) rq ->
    ghost_lift (fun u => llfree_get g policy u frame rq) x = (Ok (f, c), x') ->
    pow2 (r_order rq) + nth (nn (f / TF g)) (off x) 0 <= tree_free g (low (us x)) (f / TF g).
Proof.
  intros g policy WF PR PT x frame rq f c x' HI Hv. apply valid_req_local in Hv.
  exact (llfree_get_visible g policy WF (lower_facts_proved g WF) PR PT x frame rq f c x' HI Hv).
Qed.
Print Assumptions C15_get_visible.

(* no get of any kind (untargeted, targeted, any order, class, slot) returns a frame of a tree whose free
   frames are all hidden *)
Theorem C15_get_not_hidden : forall g policy,
  wf_geom g -> pol_refl_match policy -> pol_demote_trans policy ->
  forall x frame rq f c x' t,
    UpperInv g policy x -> valid_req (us x) rq ->
    nth (nn t) (off x) 0 = tree_free g (low (us x)) t ->
    ghost_lift (fun u => llfree_get g policy u frame rq) x = (Ok (f, c), x') ->
    f / TF g <> t.
Proof.
  intros g policy WF PR PT x frame rq f c x' t HI Hv. apply valid_req_local in Hv.
  exact (llfree_get_not_hidden g policy WF (lower_facts_proved g WF) PR PT x frame rq f c x' t HI Hv).
Qed.
Print Assumptions C15_get_not_hidden.

(* ... at every step of every history *)
Theorem C15_history : forall g policy,
  wf_geom g -> pol_refl_match policy -> pol_demote_trans policy ->
  forall x0 ops, UpperInv g policy x0 -> ops_valid (us x0) ops ->
  forall x frame rq f c x' t, In (x, OGet frame rq, RGet (Ok (f, c)), x') (gtrace g policy x0 ops) ->
    nth (nn t) (off x) 0 = tree_free g (low (us x)) t -> f / TF g <> t.
Proof.
  intros g policy WF PR PT x0 ops HI V x frame rq f c x' t.
  exact (hist_get_not_hidden g policy WF PR PT ops x0 x frame rq f c x' t HI V).
Qed.
Print Assumptions C15_history.

(* "while": `hidden g x t` := off_t = tree_free t (all free frames of t are hidden).  A successful Offline of an
   unreserved tree (in particular of an entirely free one) establishes it ... *)
Theorem C15_offline_hides : forall g policy, wf_geom g -> forall x m ch i t r x',
  UpperInv g policy x -> change_cfg (us x) ch ->
  m_id m = Some i -> tree_at (us x) i = Some t -> t_res t = false ->
  m_free m <= t_free t -> (forall k, m_class m = Some k -> k = t_class t) ->
  c_op ch = Some OpOffline ->
  ghost_change g x m ch = (r, x') ->
  r = Ok tt /\ UpperInv g policy x' /\ nth (nn i) (off x') 0 = tree_free g (low (us x')) i.
Proof. exact offline_hides. Qed.
Print Assumptions C15_offline_hides.

(* ... and it persists, and no get of any kind returns a frame of t, along every history of valid-parameter
   calls that contains no change_tree and no free of a block of t (`quiet_for g t o`: o is not a change_tree
   and not a put of a frame of tree t; gets of every kind - also targeted into t -, drains, frees elsewhere and
   statistics are allowed) *)
Theorem C15_hidden_while : forall g policy,
  wf_geom g -> pol_refl_match policy -> pol_demote_trans policy ->
  forall ops x0 t,
    UpperInv g policy x0 -> ops_valid (us x0) ops ->
    Forall (fun o => match o with OChange _ _ => False | OPut f _ => f / TF g <> t | _ => True end) ops ->
    t < ntrees (us x0) ->
    nth (nn t) (off x0) 0 = tree_free g (low (us x0)) t ->
    let x1 := snd (grun g policy x0 ops) in
    nth (nn t) (off x1) 0 = tree_free g (low (us x1)) t /\
    (forall x frame rq f c x', In (x, OGet frame rq, RGet (Ok (f, c)), x') (gtrace g policy x0 ops) -> f / TF g <> t).
Proof. exact hidden_history. Qed.
Print Assumptions C15_hidden_while.

(* the fast free count excludes the hidden frames *)
Theorem C15_fast_count_excludes_hidden : forall g policy, wf_geom g -> forall x ts,
  UpperInv g policy x -> llfree_tree_stats g (us x) = Ok ts ->
  ts_free ts + sumN (off x) = free_frames (llfree_stats g (us x)).
Proof.
  intros g policy WF x ts HI.
  exact (llfree_tree_stats_free g policy WF (lower_facts_proved g WF) x HI (LS_sum g WF) ts).
Qed.
Print Assumptions C15_fast_count_excludes_hidden.

(* Online by id on an unreserved tree with counter 0: the counter is restored from the lower allocator, the
   ghost is reset, the class is the requested one *)
Theorem C15_online : forall g policy, wf_geom g -> forall x m ch i t r x',
  UpperInv g policy x -> change_cfg (us x) ch ->
  m_id m = Some i -> tree_at (us x) i = Some t -> t_res t = false -> t_free t = 0 ->
  m_free m = 0 -> (forall k, m_class m = Some k -> k = t_class t) ->
  c_op ch = Some OpOnline ->
  ghost_change g x m ch = (r, x') ->
  r = Ok tt /\
  tree_at (us x') i = Some {| t_free := tree_free g (low (us x)) i; t_res := false;
                              t_class := match c_class ch with Some c => c | None => t_class t end |} /\
  nth (nn i) (off x') 0 = 0.
Proof. intros g policy WF. exact (ghost_change_online g policy WF (lower_facts_proved g WF)). Qed.
Print Assumptions C15_online.

(* change_tree in general: never panics, keeps the invariant, the lower allocator and the local slots; an Err
   changes nothing; a non-existent id is Err Argument; trees that are reserved or do not satisfy the matcher
   (`tmatches m j t`: the id if given, the class if given, m_free <= counter) keep entry and ghost *)
Theorem C15_change_frame : forall g policy, wf_geom g -> forall x m ch r x',
  UpperInv g policy x -> change_cfg (us x) ch -> ghost_change g x m ch = (r, x') ->
  (forall s, r <> Panic s) /\ UpperInv g policy x' /\
  low (us x') = low (us x) /\ locals (us x') = locals (us x) /\ dflt (us x') = dflt (us x) /\
  (forall e, r = Err e -> x' = x) /\
  (forall i, m_id m = Some i -> tree_at (us x) i = None -> r = Err EArgument) /\
  (forall j t, tree_at (us x) j = Some t -> t_res t = true \/ ~ tmatches m j t ->
      tree_at (us x') j = Some t /\ nth (nn j) (off x') 0 = nth (nn j) (off x) 0).
Proof. intros g policy WF. exact (ghost_change_correct g policy WF (lower_facts_proved g WF)). Qed.
Print Assumptions C15_change_frame.

(* by id: Err exactly in the three cases of the property text (reserved, class differs, counter below
   matcher.free) - contrapositive of C15_offline's hypotheses; stated for any operation *)
Theorem C15_change_rejected : forall g policy, wf_geom g -> forall x m ch i t r x',
  UpperInv g policy x -> change_cfg (us x) ch -> m_id m = Some i -> tree_at (us x) i = Some t ->
  t_res t = true \/ (exists k, m_class m = Some k /\ k <> t_class t) \/ t_free t < m_free m ->
  ghost_change g x m ch = (r, x') ->
  tree_at (us x') i = Some t /\ nth (nn i) (off x') 0 = nth (nn i) (off x) 0.
Proof.
  intros g policy WF x m ch i t r x' HI Hc Em Ht Hcase H.
  destruct (ghost_change_correct g policy WF (lower_facts_proved g WF) x m ch r x' HI Hc H)
    as (_ & _ & _ & _ & _ & _ & _ & G).
  apply (G i t Ht). destruct Hcase as [A|[(k & A & B)|A]]; [left; exact A| |].
  - right. intros (_ & Q & _). apply B. apply Q. exact A.
  - right. intros (_ & _ & Q). apply N.lt_nge in A. contradiction.
Qed.
Print Assumptions C15_change_rejected.

(* get, put and drain never touch the ghost *)
Theorem C15_ghost_only_by_change : forall A (f : upper -> res A * upper) x r x',
  ghost_lift f x = (r, x') -> off x' = off x.
Proof. exact @ghost_lift_off. Qed.
Print Assumptions C15_ghost_only_by_change.

(* non-vacuity: tree 1 of the 3-tree example allocator is taken offline (all 2048 free frames hidden); a
   targeted get into it fails, untargeted gets are served from the other trees until they are exhausted and
   then fail although 2048 frames are free in the lower allocator; online restores the counter and the frames
   are allocatable again *)
Example C15_example :
  let offl := OChange {| m_id := Some 1; m_class := None; m_free := 0 |} {| c_class := None; c_op := Some OpOffline |} in
  let onl := OChange {| m_id := Some 1; m_class := None; m_free := 0 |} {| c_class := Some 1; c_op := Some OpOnline |} in
  let r := grun GetExamples.g GetExamples.pol GetExamples.x0
             [offl; OGet (Some 2048) (GetExamples.rq 0 1 None); OGet None (GetExamples.rq 11 1 None); OGet None (GetExamples.rq 10 1 None); OTreeStats] in
  fst r = [RChange (Ok tt); RGet (Err EMemory); RGet (Ok (0, 1)); RGet (Err EMemory);
           RTreeStats (Ok {| ts_free := 904; ts_trees := 0;
                             ts_classes := [{| cs_free := 0; cs_alloc := 0 |}; {| cs_free := 904; cs_alloc := 5240 |};
                                            {| cs_free := 0; cs_alloc := 0 |}; {| cs_free := 0; cs_alloc := 0 |};
                                            {| cs_free := 0; cs_alloc := 0 |}; {| cs_free := 0; cs_alloc := 0 |};
                                            {| cs_free := 0; cs_alloc := 0 |}; {| cs_free := 0; cs_alloc := 0 |}] |})] /\
  off (snd r) = [0; 2048; 0] /\ tree_free GetExamples.g (low (us (snd r))) 1 = 2048 /\
  let r2 := grun GetExamples.g GetExamples.pol (snd r) [onl; OGet None (GetExamples.rq 10 1 None)] in
  fst r2 = [RChange (Ok tt); RGet (Ok (2048, 1))] /\ off (snd r2) = [0; 0; 0].
Proof. cbv zeta. repeat split; vm_compute; reflexivity. Qed.
