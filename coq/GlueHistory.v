(* Whole-history form of the sequential upper-allocator theorems.

   `gstep` / `grun`   : Handoff.v's history runner (`step_op` / `run_ops`) on the ghost-extended state `ustate`
                        (get / put / drain through `ghost_lift`, change_tree through `ghost_change`);
                        `grun_erase`: forgetting the ghost gives exactly `run_ops` (the program never reads it).
   `op_valid`         : the valid-parameter condition of property C09; it depends on the configuration shape
                        only (`op_valid_shape`), which no operation changes, hence `ops_valid u0 ops` is stated
                        against the initial state.
   `gtrace`           : the list of steps (state before, call, output, state after) of a run.
   `step_ok`          : what every step satisfies: no panic, UpperInv before and after, shape unchanged and the
                        per-call refinement facts (C02, C13, C15, C04, C14).
   `grun_steps_ok`    : the induction over histories.  `grun_correct` : + no Panic in the outputs, UpperInv of
                        the final state.
   `new_run_*`        : the same from the states built by `llfree_new` (FreeAll / AllocAll / Recover).
   `builtin_*`        : instances for the built-in policies of Policies.v.
   `hidden`, `quiet_for`, `hidden_step`, `hidden_run`, `hidden_history`, `offline_hides` : C15's "while": a
                        tree whose free frames are all hidden stays so, and no get returns a frame of it, along
                        every history without change_tree and without frees into the tree.
   `drained_base_fail_all_hidden`, `single_slot_fail_*` : C10 / C11 in the summed form ("no visible frame is
                        free" as a statement about `exact_free`). *)
From Coq Require Import List NArith Bool Lia PeanoNat.
From LLF Require Import Base BitLemmas Row Bitfield Lower Spec Upper UpperInvDef LowerFacts AbsLemmas LowerFactsGet
  LowerInitProofs RecoverProofs LowerFactsProofs UpperPrims UpperPutProofs UpperStatsProofs UpperGetProofs UpperGetComplete
  Policies PolicyFacts Handoff GlueProofs.

(* validity of a call's parameters *)
(* get / put: the slot index, if given, is below the slot count of the request's class (`valid_req`,
   UpperPutProofs.v; the same condition as `valid_local` of UpperGetProofs.v);
   change_tree: any matcher (any tree id, existing or not); a class set by the change is configured;
   stats_at: a managed frame. *)
Definition op_valid (u : upper) (o : op) : Prop :=
  match o with
  | OGet _ r => valid_req u r
  | OPut _ r => valid_req u r
  | ODrain => True
  | OChange _ ch => change_cfg u ch
  | OStats => True
  | OTreeStats => True
  | OStatsAt f _ => f < frames (low u)
  end.

Definition ops_valid (u0 : upper) (ops : list op) : Prop := Forall (op_valid u0) ops.

Lemma valid_req_local u r : valid_req u r <-> valid_local u r.
Proof.
  unfold valid_req, valid_local. destruct (r_local r) as [j|]; split; intros H.
  - intros lc E. inversion E; subst. exact H.
  - apply H. reflexivity.
  - intros lc E. discriminate.
  - exact I.
Qed.

Lemma valid_req_spec u r :
  valid_req u r <->
  match r_local r with
  | None => True
  | Some j => forall l, class_slots u (r_class r) = Some l -> j < N.of_nat (length l)
  end.
Proof. reflexivity. Qed.

Lemma class_slots_of_len u c : class_slots u c = None <-> class_len u c = None.
Proof. unfold class_len. destruct (class_slots u c); cbn; split; congruence. Qed.

Lemma class_len_of_shape u u' c : full_shape u' = full_shape u -> class_len u' c = class_len u c.
Proof. intros H. unfold full_shape in H. rewrite !class_len_shape. inversion H. reflexivity. Qed.

Lemma idx_ok_shape u u' c j : full_shape u' = full_shape u -> idx_ok u c j -> idx_ok u' c j.
Proof. intros S. apply frame_idx_ok, shape_frame, S. Qed.

Lemma op_valid_shape u u' o : full_shape u' = full_shape u -> op_valid u o -> op_valid u' o.
Proof.
  intros S. destruct o; cbn [op_valid]; auto.
  - unfold valid_req. destruct (r_local r); auto. apply idx_ok_shape; auto.
  - unfold valid_req. destruct (r_local r); auto. apply idx_ok_shape; auto.
  - unfold change_cfg. intros H c0 E. specialize (H c0 E).
    rewrite class_slots_of_len in *. rewrite (class_len_of_shape u u' c0 S). exact H.
  - unfold full_shape in S. inversion S. congruence.
Qed.

(* stats_at on a managed frame never panics *)
Lemma lower_stats_at_no_panic g l f k :
  LowerInv g l -> f < frames l -> exists s, lower_stats_at g l f k = Ok s.
Proof.
  intros Inv Hf. unfold lower_stats_at. cbv zeta.
  assert (HT : has_tree g l (f / TF g) = true).
  { apply has_tree_spec; [exact Inv|]. apply frame_lt_ntab. exact Hf. }
  rewrite HT. cbn [negb].
  destruct (LowerInv_frame g l f Inv Hf) as (e & rows & He & Hb). rewrite He.
  destruct (Nat.eqb k 0).
  - destruct (0 <? e_free e); [rewrite Hb|]; eauto.
  - destruct (Nat.eqb k (hord g)); [eauto|]. destruct (Nat.eqb k (tord g)); eauto.
Qed.

Section History.
  Variable g : geom.
  Variable policy : N -> N -> N -> pol.
  Notation TF := (TF g).
  Notation Inv := (UpperInv g policy).

  (* the runner on ghost states *)
  Definition gstep (x : ustate) (o : op) : out * ustate :=
    match o with
    | OGet f r => let '(y, x') := ghost_lift (fun u => llfree_get g policy u f r) x in (RGet y, x')
    | OPut f r => let '(y, x') := ghost_lift (fun u => llfree_put g policy u f r) x in (RPut y, x')
    | ODrain => let '(y, x') := ghost_lift (llfree_drain g policy) x in (RDrain y, x')
    | OChange m c => let '(y, x') := ghost_change g x m c in (RChange y, x')
    | OStats => (RStats (llfree_stats g (us x)), x)
    | OTreeStats => (RTreeStats (llfree_tree_stats g (us x)), x)
    | OStatsAt f k => (RStatsAt (llfree_stats_at g (us x) f k), x)
    end.

  Definition out_panic (y : out) : bool :=
    match y with
    | RGet r => is_panic r
    | RPut r => is_panic r
    | RDrain r => is_panic r
    | RChange r => is_panic r
    | RStats _ => false
    | RTreeStats r => is_panic r
    | RStatsAt r => is_panic r
    end.

  (* run a history; stop at the first panic, recording it (as `run_ops`) *)
  Fixpoint grun (x : ustate) (ops : list op) : list out * ustate :=
    match ops with
    | [] => ([], x)
    | o :: r =>
        let '(y, x') := gstep x o in
        if out_panic y then ([y], x')
        else let '(ys, x'') := grun x' r in (y :: ys, x'')
    end.

  (* the steps of the run: (state before, call, output, state after) *)
  Definition step : Type := ustate * op * out * ustate.
  Fixpoint gtrace (x : ustate) (ops : list op) : list step :=
    match ops with
    | [] => []
    | o :: r =>
        let '(y, x') := gstep x o in
        (x, o, y, x') :: (if out_panic y then [] else gtrace x' r)
    end.

  Definition st_before (s : step) : ustate := fst (fst (fst s)).
  Definition st_op (s : step) : op := snd (fst (fst s)).
  Definition st_out (s : step) : out := snd (fst s).
  Definition st_after (s : step) : ustate := snd s.

  (* erasing the ghost *)
  Lemma gstep_erase x o : step_op g policy (us x) o = (fst (gstep x o), us (snd (gstep x o)), out_panic (fst (gstep x o))).
  Proof.
    destruct o; cbn [gstep step_op]; unfold ghost_lift.
    - destruct (llfree_get g policy (us x) f r) as [y u']. reflexivity.
    - destruct (llfree_put g policy (us x) f r) as [y u']. reflexivity.
    - destruct (llfree_drain g policy (us x)) as [y u']. reflexivity.
    - unfold ghost_change. destruct (llfree_change_tree g (us x) m c) as [y u']. destruct y; reflexivity.
    - reflexivity.
    - reflexivity.
    - reflexivity.
  Qed.

  Theorem grun_erase : forall ops x,
    run_ops g policy (us x) ops = (fst (grun x ops), us (snd (grun x ops))).
  Proof.
    induction ops as [|o ops IH]; intros x; cbn [run_ops grun]; [reflexivity|].
    rewrite (gstep_erase x o). destruct (gstep x o) as [y x1]. cbn [fst snd].
    destruct (out_panic y); [reflexivity|].
    rewrite (IH x1). destruct (grun x1 ops) as [ys x2]. reflexivity.
  Qed.

  Lemma gstep_shape x o : full_shape (us (snd (gstep x o))) = full_shape (us x).
  Proof. eapply step_op_shape. apply gstep_erase. Qed.

  (* the trace and the run *)
  Lemma gtrace_outs : forall ops x, map st_out (gtrace x ops) = fst (grun x ops).
  Proof.
    induction ops as [|o ops IH]; intros x; cbn [gtrace grun]; [reflexivity|].
    destruct (gstep x o) as [y x1]. cbn [map]. unfold st_out at 1. cbn [fst snd].
    destruct (out_panic y); [reflexivity|].
    rewrite (IH x1). destruct (grun x1 ops) as [ys x2]. reflexivity.
  Qed.

  Lemma gtrace_ops : forall ops x,
    Forall (fun y => out_panic y = false) (fst (grun x ops)) -> map st_op (gtrace x ops) = ops.
  Proof.
    induction ops as [|o ops IH]; intros x; cbn [gtrace grun]; [reflexivity|].
    destruct (gstep x o) as [y x1]. cbn [map]. unfold st_op at 1. cbn [fst snd].
    destruct (out_panic y) eqn:P.
    - intros H. inversion H; subst. congruence.
    - specialize (IH x1). destruct (grun x1 ops) as [ys x2]. cbn [fst] in *. intros H. inversion H; subst.
      f_equal. apply IH. assumption.
  Qed.

  (* every recorded step is a step of the model, from the state reached by the calls before it *)
  Lemma gtrace_sound : forall ops x0 s, In s (gtrace x0 ops) ->
    gstep (st_before s) (st_op s) = (st_out s, st_after s) /\
    exists pre post, ops = pre ++ st_op s :: post /\ st_before s = snd (grun x0 pre) /\
                     Forall (fun y => out_panic y = false) (fst (grun x0 pre)).
  Proof.
    induction ops as [|o ops IH]; intros x0 s; cbn [gtrace]; [intros []|].
    destruct (gstep x0 o) as [y x1] eqn:E. intros [<-|Hin].
    - unfold st_before, st_op, st_out, st_after. cbn [fst snd]. split; [exact E|].
      exists [], ops. cbn. auto.
    - destruct (out_panic y) eqn:P; [destruct Hin|].
      destruct (IH x1 s Hin) as (A & pre & post & -> & B & C). split; [exact A|].
      exists (o :: pre), post. cbn [app grun]. rewrite E, P.
      destruct (grun x1 pre) as [ys x2]. cbn [fst snd] in *. splits; auto.
  Qed.

  (* first and last state of a trace *)
  Lemma gtrace_chain : forall ops x0,
    Forall (fun y => out_panic y = false) (fst (grun x0 ops)) ->
    fold_left (fun _ s => st_after s) (gtrace x0 ops) x0 = snd (grun x0 ops).
  Proof.
    induction ops as [|o ops IH]; intros x0; cbn [gtrace grun]; [reflexivity|].
    destruct (gstep x0 o) as [y x1]. cbn [fold_left]. unfold st_after at 2. cbn [snd].
    destruct (out_panic y) eqn:P.
    - intros H. inversion H; subst. congruence.
    - specialize (IH x1). destruct (grun x1 ops) as [ys x2]. cbn [fst snd] in *. intros H. inversion H; subst. auto.
  Qed.

  (* what a step satisfies *)
  (* C02 + C13 + C15 for get *)
  Definition get_step_ok (x : ustate) (frame : option N) (rq : request) (r : res (N * N)) (x' : ustate) : Prop :=
    off x' = off x /\
    match r with
    | Ok (f, c) =>
        (* C02: the block was enabled in the ownership state, which changes by exactly that block; a targeted
           get returns the requested frame *)
        spec_get_enabled (abs g (low (us x))) f (r_order rq) = true /\
        abs g (low (us x')) = spec_get g (abs g (low (us x))) f (r_order rq) /\
        (forall f0, frame = Some f0 -> f = f0) /\
        (* C13 *)
        class_ok policy (r_class rq) c /\
        (* C15: the tree had that many free frames not hidden by an offline operation *)
        pow2 (r_order rq) + nth (nn (f / TF)) (off x) 0 <= tree_free g (low (us x)) (f / TF)
    | Err e =>
        low (us x') = low (us x) /\ (e = EMemory \/ e = EArgument) /\
        (e = EArgument <-> check g (us x) (get_frame0 frame) rq = Err EArgument) /\
        (e = EArgument -> x' = x)
    | Panic _ => False
    end.

  (* C02 for put *)
  Definition put_step_ok (x : ustate) (f : N) (rq : request) (r : res unit) (x' : ustate) : Prop :=
    off x' = off x /\
    match check g (us x) f rq with
    | Ok _ =>
        (r = Ok tt <-> spec_put_enabled g (abs g (low (us x))) f (r_order rq) = true) /\
        (r = Ok tt -> abs g (low (us x')) = spec_put g (abs g (low (us x))) f (r_order rq)) /\
        (r <> Ok tt -> r = Err EMemory /\ x' = x)
    | Err _ => r = Err EArgument /\ x' = x
    | Panic _ => False
    end.

  Definition drain_step_ok (x : ustate) (r : res unit) (x' : ustate) : Prop :=
    r = Ok tt /\ low (us x') = low (us x) /\ off x' = off x /\ present_slots (us x') = [] /\
    (forall i t, tree_at (us x') i = Some t -> t_res t = false).

  Definition change_step_ok (x : ustate) (m : tree_match) (ch : tree_change) (r : res unit) (x' : ustate) : Prop :=
    low (us x') = low (us x) /\ locals (us x') = locals (us x) /\
    (forall e, r = Err e -> x' = x) /\
    (forall i, m_id m = Some i -> tree_at (us x) i = None -> r = Err EArgument) /\
    (forall j t, tree_at (us x) j = Some t -> t_res t = true \/ ~ tmatches m j t ->
       tree_at (us x') j = Some t /\ nth (nn j) (off x') 0 = nth (nn j) (off x) 0).

  (* C04: exact statistics *)
  Definition stats_ok (x : ustate) (s : stats) : Prop :=
    free_frames s = exact_free (abs g (low (us x))) /\
    free_huge s = free_huge_count g (abs g (low (us x))) /\
    free_trees s = free_tree_count g (abs g (low (us x))).

  (* C14 + C04: fast statistics *)
  Definition tree_stats_ok (x : ustate) (r : res tree_stats) : Prop :=
    exists ts, r = Ok ts /\ length (ts_classes ts) = 8%nat /\
      sumN (map cs_free (ts_classes ts)) = ts_free ts /\
      sumN (map (fun c => cs_free c + cs_alloc c) (ts_classes ts)) = ntrees (us x) * TF /\
      ts_free ts + sumN (off x) = exact_free (abs g (low (us x))).

  Definition step_ok (s : step) : Prop :=
    let '(x, o, y, x') := s in
    out_panic y = false /\ Inv x /\ Inv x' /\ full_shape (us x') = full_shape (us x) /\
    match o, y with
    | OGet frame rq, RGet r => get_step_ok x frame rq r x'
    | OPut f rq, RPut r => put_step_ok x f rq r x'
    | ODrain, RDrain r => drain_step_ok x r x'
    | OChange m ch, RChange r => change_step_ok x m ch r x'
    | OStats, RStats st => x' = x /\ stats_ok x st
    | OTreeStats, RTreeStats r => x' = x /\ tree_stats_ok x r
    | OStatsAt f k, RStatsAt r => x' = x /\ exists st, r = Ok st
    | _, _ => False
    end.

  (* one step *)
  Hypothesis WF : wf_geom g.
  Hypothesis PR : pol_refl_match policy.
  Hypothesis PT : pol_demote_trans policy.
  Let LF : lower_facts g := lower_facts_proved g WF.

  Lemma ghost_lift_off {A} (f : upper -> res A * upper) x r x' : ghost_lift f x = (r, x') -> off x' = off x.
  Proof. unfold ghost_lift. destruct (f (us x)). intros H. inversion H. reflexivity. Qed.

  Lemma get_step x frame rq r x' :
    Inv x -> valid_req (us x) rq ->
    ghost_lift (fun u => llfree_get g policy u frame rq) x = (r, x') ->
    (forall s, r <> Panic s) /\ Inv x' /\ get_step_ok x frame rq r x'.
  Proof.
    intros HI Hv H. apply valid_req_local in Hv.
    destruct (llfree_get_inv g policy WF LF PR PT _ _ _ _ _ HI Hv H) as (NP & HI' & EA & EX & EE).
    pose proof (llfree_get_spec g policy WF LF PR PT _ _ _ _ _ HI Hv H) as SP.
    splits; auto. unfold get_step_ok. split; [eapply ghost_lift_off; eauto|].
    destruct r as [[f c]|e|s]; [| |exact SP].
    - destruct SP as (S1 & S2 & S3). splits; auto.
      + destruct (ghost_lift_get g policy _ _ _ _ _ H) as (u' & Hg & _).
        exact (llfree_get_class g policy _ _ _ _ _ _ Hg).
      + exact (llfree_get_visible g policy WF LF PR PT _ _ _ _ _ _ HI Hv H).
    - destruct SP as (S1 & _). splits; auto.
      + split; intros Q.
        * apply EA. congruence.
        * apply EA in Q. congruence.
      + intros ->. apply EX. reflexivity.
  Qed.

  Lemma put_step x f rq r x' :
    Inv x -> valid_req (us x) rq ->
    ghost_lift (fun u => llfree_put g policy u f rq) x = (r, x') ->
    (forall s, r <> Panic s) /\ Inv x' /\ put_step_ok x f rq r x'.
  Proof.
    intros HI Hv H. pose proof (llfree_put_correct g policy WF LF _ _ _ _ _ HI Hv H) as P.
    unfold put_step_ok. pose proof (ghost_lift_off _ _ _ _ H) as Hoff.
    destruct (check g (us x) f rq) as [[]|e|s]; [| |destruct P].
    - destruct (spec_put_enabled g (abs g (low (us x))) f (r_order rq)).
      + destruct P as (-> & HI' & A & _). splits; auto; try discriminate; try tauto.
      + destruct P as (-> & ->). splits; auto; try discriminate.
        split; discriminate.
    - destruct P as (-> & -> & ->). splits; auto. discriminate.
  Qed.

  Lemma drain_step x r x' :
    Inv x -> ghost_lift (llfree_drain g policy) x = (r, x') ->
    (forall s, r <> Panic s) /\ Inv x' /\ drain_step_ok x r x'.
  Proof.
    intros HI H. destruct (llfree_drain_correct g policy WF LF _ _ _ HI H) as (-> & HI' & A & B & C & D & _).
    unfold drain_step_ok. splits; auto. discriminate.
  Qed.

  Lemma change_step x m ch r x' :
    Inv x -> change_cfg (us x) ch -> ghost_change g x m ch = (r, x') ->
    (forall s, r <> Panic s) /\ Inv x' /\ change_step_ok x m ch r x'.
  Proof.
    intros HI Hc H. destruct (ghost_change_correct g policy WF LF _ _ _ _ _ HI Hc H) as (A & B & C & D & _ & E & F & G).
    unfold change_step_ok. splits; auto.
  Qed.

  Lemma stats_step x : Inv x -> stats_ok x (llfree_stats g (us x)).
  Proof. intros (HL & _). exact (lower_stats_abs g WF _ HL). Qed.

  Lemma tree_stats_step x : Inv x -> tree_stats_ok x (llfree_tree_stats g (us x)).
  Proof.
    intros HI. destruct (tree_stats_correct g policy WF LF x HI) as (ts & E & _ & A & B & C).
    exists ts. splits; auto.
    rewrite (llfree_tree_stats_free g policy WF LF x HI (LS_sum g WF) ts E).
    destruct HI as (HL & _). apply (lower_stats_abs g WF _ HL).
  Qed.

  Lemma is_panic_false {A} (r : res A) : (forall s, r <> Panic s) -> is_panic r = false.
  Proof. destruct r; auto. intros H. exfalso. eapply H. reflexivity. Qed.

  Theorem gstep_ok x o y x' :
    Inv x -> op_valid (us x) o -> gstep x o = (y, x') -> step_ok (x, o, y, x').
  Proof.
    intros HI Hv H. unfold step_ok.
    pose proof (gstep_shape x o) as S. rewrite H in S. cbn [snd] in S.
    destruct o; cbn [gstep op_valid] in *.
    - destruct (ghost_lift _ x) as [r0 x1] eqn:E. inversion H; subst y x1.
      destruct (get_step _ _ _ _ _ HI Hv E) as (A & B & C). cbn [out_panic]. splits; auto using is_panic_false.
    - destruct (ghost_lift _ x) as [r0 x1] eqn:E. inversion H; subst y x1.
      destruct (put_step _ _ _ _ _ HI Hv E) as (A & B & C). cbn [out_panic]. splits; auto using is_panic_false.
    - destruct (ghost_lift _ x) as [r0 x1] eqn:E. inversion H; subst y x1.
      destruct (drain_step _ _ _ HI E) as (A & B & C). cbn [out_panic]. splits; auto using is_panic_false.
    - destruct (ghost_change g x m c) as [r0 x1] eqn:E. inversion H; subst y x1.
      destruct (change_step _ _ _ _ _ HI Hv E) as (A & B & C). cbn [out_panic]. splits; auto using is_panic_false.
    - inversion H; subst y x'. cbn [out_panic]. splits; auto. apply stats_step; auto.
    - inversion H; subst y x'. pose proof (tree_stats_step x HI) as T. cbn [out_panic]. splits; auto.
      destruct T as (ts & -> & _). reflexivity.
    - inversion H; subst y x'. destruct HI as (HL & HR).
      destruct (lower_stats_at_no_panic g _ f k HL Hv) as (st & E).
      unfold llfree_stats_at. rewrite E. cbn [out_panic is_panic]. splits; auto; try (split; auto); eauto.
  Qed.

  (* the induction over histories *)
  Theorem grun_correct : forall ops x0 u0,
    Inv x0 -> full_shape (us x0) = full_shape u0 -> ops_valid u0 ops ->
    Forall step_ok (gtrace x0 ops) /\
    Forall (fun y => out_panic y = false) (fst (grun x0 ops)) /\
    Inv (snd (grun x0 ops)) /\
    full_shape (us (snd (grun x0 ops))) = full_shape u0.
  Proof.
    induction ops as [|o ops IH]; intros x0 u0 HI S V; cbn [gtrace grun].
    - cbn [fst snd]. splits; auto.
    - inversion V as [|? ? Vo Vr]; subst.
      destruct (gstep x0 o) as [y x1] eqn:E.
      assert (Vo' : op_valid (us x0) o) by (eapply op_valid_shape; [exact S|exact Vo]).
      pose proof (gstep_ok x0 o y x1 HI Vo' E) as OK.
      pose proof OK as (P & _ & HI1 & S1 & _).
      rewrite P.
      destruct (IH x1 u0 HI1 ltac:(congruence) Vr) as (A & B & C & D).
      destruct (grun x1 ops) as [ys x2]. cbn [fst snd] in *. splits; auto.
  Qed.

  Theorem grun_steps_ok ops x0 :
    Inv x0 -> ops_valid (us x0) ops -> Forall step_ok (gtrace x0 ops).
  Proof. intros HI V. exact (proj1 (grun_correct ops x0 (us x0) HI eq_refl V)). Qed.

  (* C09 *)
  Theorem grun_no_panic ops x0 :
    Inv x0 -> ops_valid (us x0) ops -> Forall (fun y => out_panic y = false) (fst (grun x0 ops)).
  Proof. intros HI V. exact (proj1 (proj2 (grun_correct ops x0 (us x0) HI eq_refl V))). Qed.

  Theorem grun_inv ops x0 :
    Inv x0 -> ops_valid (us x0) ops -> Inv (snd (grun x0 ops)).
  Proof. intros HI V. exact (proj1 (proj2 (proj2 (grun_correct ops x0 (us x0) HI eq_refl V)))). Qed.

  (* no output of the plain runner of Handoff.v is a panic *)
  Theorem run_ops_no_panic ops x0 :
    Inv x0 -> ops_valid (us x0) ops -> Forall (fun y => out_panic y = false) (fst (run_ops g policy (us x0) ops)).
  Proof. intros HI V. rewrite grun_erase. cbn [fst]. apply grun_no_panic; auto. Qed.

  (* a valid call stays valid after any history *)
  Theorem grun_valid ops x0 o :
    Inv x0 -> ops_valid (us x0) ops -> op_valid (us x0) o -> op_valid (us (snd (grun x0 ops))) o.
  Proof.
    intros HI V Vo. eapply op_valid_shape; [|exact Vo].
    exact (proj2 (proj2 (proj2 (grun_correct ops x0 (us x0) HI eq_refl V)))).
  Qed.

  (* the per-call facts, for every step of every history *)
  Lemma hist_step ops x0 x o y x' :
    Inv x0 -> ops_valid (us x0) ops -> In (x, o, y, x') (gtrace x0 ops) -> step_ok (x, o, y, x').
  Proof.
    intros HI V Hin. pose proof (grun_steps_ok ops x0 HI V) as F. rewrite Forall_forall in F. exact (F _ Hin).
  Qed.

  Theorem hist_get ops x0 x frame rq r x' :
    Inv x0 -> ops_valid (us x0) ops -> In (x, OGet frame rq, RGet r, x') (gtrace x0 ops) ->
    Inv x /\ Inv x' /\ get_step_ok x frame rq r x'.
  Proof. intros HI V Hin. destruct (hist_step _ _ _ _ _ _ HI V Hin) as (_ & A & B & _ & C). auto. Qed.

  Theorem hist_put ops x0 x f rq r x' :
    Inv x0 -> ops_valid (us x0) ops -> In (x, OPut f rq, RPut r, x') (gtrace x0 ops) ->
    Inv x /\ Inv x' /\ put_step_ok x f rq r x'.
  Proof. intros HI V Hin. destruct (hist_step _ _ _ _ _ _ HI V Hin) as (_ & A & B & _ & C). auto. Qed.

  Theorem hist_drain ops x0 x r x' :
    Inv x0 -> ops_valid (us x0) ops -> In (x, ODrain, RDrain r, x') (gtrace x0 ops) ->
    Inv x /\ Inv x' /\ drain_step_ok x r x'.
  Proof. intros HI V Hin. destruct (hist_step _ _ _ _ _ _ HI V Hin) as (_ & A & B & _ & C). auto. Qed.

  Theorem hist_change ops x0 x m ch r x' :
    Inv x0 -> ops_valid (us x0) ops -> In (x, OChange m ch, RChange r, x') (gtrace x0 ops) ->
    Inv x /\ Inv x' /\ change_step_ok x m ch r x'.
  Proof. intros HI V Hin. destruct (hist_step _ _ _ _ _ _ HI V Hin) as (_ & A & B & _ & C). auto. Qed.

  Theorem hist_stats ops x0 x st x' :
    Inv x0 -> ops_valid (us x0) ops -> In (x, OStats, RStats st, x') (gtrace x0 ops) ->
    x' = x /\ stats_ok x st.
  Proof. intros HI V Hin. destruct (hist_step _ _ _ _ _ _ HI V Hin) as (_ & A & B & _ & C). auto. Qed.

  Theorem hist_tree_stats ops x0 x r x' :
    Inv x0 -> ops_valid (us x0) ops -> In (x, OTreeStats, RTreeStats r, x') (gtrace x0 ops) ->
    x' = x /\ tree_stats_ok x r.
  Proof. intros HI V Hin. destruct (hist_step _ _ _ _ _ _ HI V Hin) as (_ & A & B & _ & C). auto. Qed.

  (* C15 along a history: a get never returns a frame of a tree whose free frames are all hidden *)
  Theorem hist_get_not_hidden ops x0 x frame rq f c x' t :
    Inv x0 -> ops_valid (us x0) ops -> In (x, OGet frame rq, RGet (Ok (f, c)), x') (gtrace x0 ops) ->
    nth (nn t) (off x) 0 = tree_free g (low (us x)) t -> f / TF <> t.
  Proof.
    intros HI V Hin Hoff Ef. destruct (hist_get _ _ _ _ _ _ _ HI V Hin) as (_ & _ & _ & _ & _ & _ & _ & Hb).
    rewrite Ef, Hoff in Hb. pose proof (AbsLemmas.pow2_pos (r_order rq)). lia.
  Qed.

  (* from the states built by LLFree::new *)
  Theorem new_run_correct fr i classing d lbuf tbuf sbuf :
    init_pre g fr i lbuf ->
    Forall (fun s => s_pres s = false) sbuf ->
    (forall c k, In (c, k) classing -> c < 8) ->
    (exists k, In (d, k) classing) ->
    exists u, llfree_new g fr i classing d lbuf tbuf sbuf = Ok u /\ Inv (ustate_new u) /\
      forall ops, ops_valid u ops ->
        Forall step_ok (gtrace (ustate_new u) ops) /\
        Forall (fun y => out_panic y = false) (fst (run_ops g policy u ops)) /\
        Inv (snd (grun (ustate_new u) ops)).
  Proof.
    intros Hpre Hbuf Hcl Hd.
    destruct (init_inv g WF policy fr i classing d lbuf tbuf sbuf Hpre Hbuf Hcl Hd) as (u & E & HI & _).
    exists u. splits; auto. intros ops V.
    destruct (grun_correct ops (ustate_new u) u HI eq_refl V) as (A & B & C & _).
    splits; auto. change u with (us (ustate_new u)). rewrite grun_erase. exact B.
  Qed.
End History.

(* C15: hidden trees stay hidden *)
(* a block of order k <= tord that starts aligned stays inside its tree *)
Lemma aligned_in_tree g f k : (k <= tord g)%nat -> f mod pow2 k = 0 ->
  (f / TF g) * TF g <= f /\ f + pow2 k <= (f / TF g) * TF g + TF g.
Proof.
  intros Hk Hf. pose proof (TF_nz g) as Hnz.
  assert (Hfit : f mod TF g + pow2 k <= TF g).
  { apply aligned_block_fits.
    - apply pow2_nz.
    - rewrite TF_pow2. apply pow2_mod. exact Hk.
    - rewrite TF_pow2, (pow2_split k (tord g) Hk), N.mul_comm.
      rewrite mod_mod_mul; [exact Hf|apply pow2_nz|apply pow2_nz].
    - apply N.mod_lt. exact Hnz. }
  pose proof (N.div_mod f (TF g) Hnz) as D.
  revert Hfit D. generalize (f mod TF g) (f / TF g) (TF g) (pow2 k). clear. intros r q T n Hfit D. lia.
Qed.

(* the free count of a tree depends only on the allocation bits of its frames *)
Lemma spec_tree_free_other g s s' f n T t :
  o_frames s' = o_frames s ->
  (forall i, ~ (f <= i < f + n) -> N.testbit (o_alloc s') i = N.testbit (o_alloc s) i) ->
  T * TF g <= f -> f + n <= T * TF g + TF g -> T <> t ->
  spec_tree_free g s' t = spec_tree_free g s t.
Proof.
  intros Hfr Hbits H1 H2 Hne. unfold spec_tree_free. cbv zeta. rewrite Hfr.
  set (lo := t * TF g). set (hi := N.min (o_frames s) (lo + TF g)).
  f_equal. f_equal. apply N.bits_inj. intros i. rewrite !N.land_spec, blk_testbit.
  destruct (N.leb_spec lo i) as [L|L]; [|rewrite !andb_false_r; reflexivity].
  destruct (N.ltb_spec i (lo + (hi - lo))) as [R|R]; [|rewrite !andb_false_r; reflexivity].
  rewrite Hbits; [reflexivity|].
  assert (Hi : t * TF g <= i < t * TF g + TF g) by (subst lo hi; clear - L R; lia).
  intros Hb. apply Hne.
  revert H1 H2 Hi Hb. generalize (TF g). clear. intros X H1 H2 Hi Hb.
  destruct (N.lt_trichotomy T t) as [Q|[Q|Q]]; [exfalso|exact Q|exfalso]; nia.
Qed.

Section Hidden.
  Variable g : geom.
  Variable policy : N -> N -> N -> pol.
  Hypothesis WF : wf_geom g.
  Notation TF := (TF g).

  Lemma tree_free_other l l' f k s' t :
    LowerInv g l -> LowerInv g l' -> frames l' = frames l -> t < ntab g (frames l) ->
    (k <= tord g)%nat -> f mod pow2 k = 0 -> f / TF <> t ->
    abs g l' = s' -> o_frames s' = o_frames (abs g l) ->
    (forall i, ~ (f <= i < f + pow2 k) -> N.testbit (o_alloc s') i = N.testbit (o_alloc (abs g l)) i) ->
    tree_free g l' t = tree_free g l t.
  Proof.
    intros Inv Inv' Hfr Ht Hk Hal Hne Ea Hof Hbits.
    destruct (lf_tree_free_proof g WF l t Inv Ht) as (E & _).
    destruct (lf_tree_free_proof g WF l' t Inv' ltac:(rewrite Hfr; exact Ht)) as (E' & _).
    rewrite E, E', Ea. destruct (aligned_in_tree g f k Hk Hal) as (A & B).
    exact (spec_tree_free_other g (abs g l) s' f (pow2 k) (f / TF) t Hof Hbits A B Hne).
  Qed.

  Hypothesis PR : pol_refl_match policy.
  Hypothesis PT : pol_demote_trans policy.
  Let LF : lower_facts g := lower_facts_proved g WF.
  Notation Inv := (UpperInv g policy).

  (* all free frames of tree t are hidden by offline operations *)
  Definition hidden (x : ustate) (t : N) : Prop := nth (nn t) (off x) 0 = tree_free g (low (us x)) t.

  (* calls that do not concern tree t directly: no change_tree, no free of a block of t *)
  Definition quiet_for (t : N) (o : op) : Prop :=
    match o with
    | OChange _ _ => False
    | OPut f _ => f / TF <> t
    | _ => True
    end.

  Lemma Inv_ntrees x : Inv x -> ntrees (us x) = ntab g (frames (low (us x))).
  Proof. intros (_ & H & _). unfold ntrees. rewrite H. unfold nn. apply N2Nat.id. Qed.

  Lemma hidden_step x o y x' t :
    Inv x -> op_valid (us x) o -> quiet_for t o -> t < ntrees (us x) ->
    gstep g policy x o = (y, x') -> hidden x t ->
    hidden x' t /\ (forall f c, y = RGet (Ok (f, c)) -> f / TF <> t).
  Proof.
    intros HI Hv Hq Ht H Hh. unfold hidden in *.
    pose proof (gstep_shape g policy x o) as S. rewrite H in S. cbn [snd] in S.
    assert (Hfr : frames (low (us x')) = frames (low (us x))) by (unfold full_shape in S; inversion S; reflexivity).
    rewrite (Inv_ntrees x HI) in Ht.
    pose proof (gstep_ok g policy WF PR PT x o y x' HI Hv H) as (_ & _ & HI' & _ & OK).
    pose proof HI as (HL & _). pose proof HI' as (HL' & _).
    destruct o; cbn [gstep quiet_for] in *.
    - (* get *)
      destruct (ghost_lift _ x) as [r0 x1] eqn:E. inversion H; subst y x1. clear H.
      destruct OK as (Hoff & OK). rewrite Hoff.
      pose proof Hv as Hv'. apply valid_req_local in Hv'.
      destruct (llfree_get_inv g policy WF LF PR PT _ _ _ _ _ HI Hv' E) as (_ & _ & EA & _).
      destruct r0 as [[f0 c0]|e|s]; [| |destruct OK].
      + destruct OK as (S1 & S2 & _ & _ & Vis).
        assert (Hne : f0 / TF <> t).
        { intros Ef. rewrite Ef, Hh in Vis. pose proof (AbsLemmas.pow2_pos (r_order r)). clear - Vis H. lia. }
        split; [|intros f1 c1 Q; inversion Q; subst; exact Hne].
        rewrite Hh. symmetry.
        assert (Hk : (r_order r <= tord g)%nat).
        { pose proof (check_inv g (us x) (get_frame0 f) r) as CI.
          destruct (check g (us x) (get_frame0 f) r) as [[]|e|s]; [tauto| |destruct CI].
          subst e. exfalso. assert (Q : Ok (f0, c0) = Err EArgument) by (apply EA; reflexivity). discriminate. }
        apply spec_get_enabled_spec in S1. destruct S1 as (Hal & _ & _).
        apply (tree_free_other (low (us x)) (low (us x')) f0 (r_order r) _ t HL HL' Hfr Ht Hk Hal Hne S2).
        * apply spec_get_frames.
        * intros i Hi. rewrite spec_get_alloc_testbit.
          destruct (N.leb_spec f0 i), (N.ltb_spec i (f0 + pow2 (r_order r))); cbn [andb]; try apply orb_false_r.
          exfalso. apply Hi. split; assumption.
      + destruct OK as (Hl & _). rewrite Hl. split; [exact Hh|]. intros f1 c1 Q. discriminate.
    - (* put *)
      destruct (ghost_lift _ x) as [r0 x1] eqn:E. inversion H; subst y x1. clear H.
      split; [|intros f1 c1 Q; discriminate].
      destruct OK as (Hoff & OK). rewrite Hoff.
      pose proof (check_inv g (us x) f r) as CI.
      destruct (check g (us x) f r) as [[]|e|s]; [| |destruct OK].
      + destruct CI as (Hk & _ & Hal & _). destruct OK as (_ & OK2 & OK3).
        destruct r0 as [[]|e|s].
        * rewrite Hh. symmetry. specialize (OK2 eq_refl). unfold aligned in Hal. apply N.eqb_eq in Hal.
          apply (tree_free_other (low (us x)) (low (us x')) f (r_order r) _ t HL HL' Hfr Ht Hk Hal Hq OK2).
          -- apply spec_put_frames.
          -- intros i Hi. rewrite spec_put_alloc_testbit.
             destruct (N.leb_spec f i), (N.ltb_spec i (f + pow2 (r_order r))); cbn [andb negb]; try apply andb_true_r.
             exfalso. apply Hi. split; assumption.
        * destruct (OK3 ltac:(discriminate)) as (_ & ->). exact Hh.
        * destruct (OK3 ltac:(discriminate)) as (_ & ->). exact Hh.
      + destruct OK as (_ & ->). exact Hh.
    - (* drain *)
      destruct (ghost_lift _ x) as [r0 x1] eqn:E. inversion H; subst y x1. clear H.
      destruct OK as (_ & Hl & Hoff & _). rewrite Hl, Hoff. split; [exact Hh|]. intros f1 c1 Q. discriminate.
    - destruct Hq.
    - inversion H; subst. split; [exact Hh|]. intros f1 c1 Q. discriminate.
    - inversion H; subst. split; [exact Hh|]. intros f1 c1 Q. discriminate.
    - inversion H; subst. split; [exact Hh|]. intros f1 c1 Q. discriminate.
  Qed.

  (* C15 "while": once all free frames of tree t are hidden they stay hidden, and no get returns a frame of t,
     along every history without change_tree and without frees into t *)
  Theorem hidden_run : forall ops x0 u0 t,
    Inv x0 -> full_shape (us x0) = full_shape u0 -> ops_valid u0 ops -> Forall (quiet_for t) ops ->
    t < ntrees (us x0) -> hidden x0 t ->
    hidden (snd (grun g policy x0 ops)) t /\
    Forall (fun s => hidden (st_before s) t /\ hidden (st_after s) t /\
                     forall f c, st_out s = RGet (Ok (f, c)) -> f / TF <> t) (gtrace g policy x0 ops).
  Proof.
    induction ops as [|o ops IH]; intros x0 u0 t HI S V Q Ht Hh; cbn [gtrace grun].
    - cbn [snd]. split; [exact Hh|constructor].
    - inversion V as [|? ? Vo Vr]; subst. inversion Q as [|? ? Qo Qr]; subst.
      destruct (gstep g policy x0 o) as [y x1] eqn:E.
      assert (Vo' : op_valid (us x0) o) by (eapply op_valid_shape; [exact S|exact Vo]).
      pose proof (gstep_ok g policy WF PR PT x0 o y x1 HI Vo' E) as (P & _ & HI1 & S1 & _).
      destruct (hidden_step x0 o y x1 t HI Vo' Qo Ht E Hh) as (Hh1 & Hg).
      rewrite P.
      assert (Ht1 : t < ntrees (us x1)).
      { unfold ntrees in *. unfold full_shape in S1. inversion S1 as [[A B C D]]. rewrite B. exact Ht. }
      destruct (IH x1 u0 t HI1 ltac:(congruence) Vr Qr Ht1 Hh1) as (A & B).
      destruct (grun g policy x1 ops) as [ys x2]. cbn [fst snd] in *. split; [exact A|].
      constructor; [|exact B]. unfold st_before, st_after, st_out. cbn [fst snd]. auto.
  Qed.

  Corollary hidden_history ops x0 t :
    Inv x0 -> ops_valid (us x0) ops -> Forall (quiet_for t) ops -> t < ntrees (us x0) -> hidden x0 t ->
    hidden (snd (grun g policy x0 ops)) t /\
    (forall x frame rq f c x', In (x, OGet frame rq, RGet (Ok (f, c)), x') (gtrace g policy x0 ops) -> f / TF <> t).
  Proof.
    intros HI V Q Ht Hh. destruct (hidden_run ops x0 (us x0) t HI eq_refl V Q Ht Hh) as (A & B).
    split; [exact A|]. intros x frame rq f c x' Hin. rewrite Forall_forall in B.
    destruct (B _ Hin) as (_ & _ & C). apply (C f c). reflexivity.
  Qed.

  (* a successful Offline of an unreserved tree hides all its free frames *)
  Theorem offline_hides x m ch i t r x' :
    Inv x -> change_cfg (us x) ch ->
    m_id m = Some i -> tree_at (us x) i = Some t -> t_res t = false ->
    m_free m <= t_free t -> (forall k, m_class m = Some k -> k = t_class t) ->
    c_op ch = Some OpOffline ->
    ghost_change g x m ch = (r, x') ->
    r = Ok tt /\ Inv x' /\ hidden x' i.
  Proof.
    intros HI Hc Em Ht Hr Hf Hk Hop H.
    destruct (ghost_change_offline g policy WF LF x m ch i t r x' HI Hc Em Ht Hr Hf Hk Hop H) as (-> & _ & Hoff).
    destruct (ghost_change_correct g policy WF LF x m ch _ x' HI Hc H) as (_ & HI' & Hl & _).
    splits; auto. unfold hidden. rewrite Hoff, Hl.
    rewrite <- (counter_unres g policy x i t HI Ht Hr). lia.
  Qed.
End Hidden.

(* completeness (C10, C11) in the summed form *)
Section Complete.
  Variable g : geom.
  Variable policy : N -> N -> N -> pol.
  Hypothesis WF : wf_geom g.
  Hypothesis PR : pol_refl_match policy.
  Hypothesis PN : pol_never_invalid policy.
  Let LF : lower_facts g := lower_facts_proved g WF.

  (* C10 (a): right after a drain a base-order get fails with Err Memory only if every free frame is hidden by
     an offline operation: the number of free frames is the total hidden amount *)
  Theorem drained_base_fail_all_hidden x rq x' :
    UpperInv g policy x -> valid_req (us x) rq -> present_slots (us x) = [] -> r_order rq = 0%nat ->
    frames (low (us x)) < W64 ->
    ghost_lift (fun u => llfree_get g policy u None rq) x = (Err EMemory, x') ->
    (forall i t, tree_at (us x) i = Some t -> t_free t = 0) /\
    (forall i, i < ntrees (us x) -> tree_free g (low (us x)) i = nth (nn i) (off x) 0) /\
    exact_free (abs g (low (us x))) = sumN (off x).
  Proof.
    intros HI Hv Hp Ho Hfr Hg. apply valid_req_local in Hv.
    pose proof (ntrees_small g policy WF x HI Hfr) as Hsz.
    pose proof (get_base_complete g policy WF LF PR PN x rq x' HI Hv Hp Ho Hsz Hg) as A.
    pose proof (get_base_complete_free g policy WF LF PR PN x rq x' HI Hv Hp Ho Hsz Hg) as B.
    splits; auto. apply (all_hidden_exact_free g WF policy x HI B).
  Qed.

  (* C11: one class with one slot, at least two trees: a base-order get through the slot fails with Err Memory
     only if every free frame is hidden by an offline operation; without offline trees: only if no frame is
     free *)
  Theorem single_slot_fail_all_hidden x c x' :
    UpperInv g policy x -> (forall c', class_slots (us x) c' <> None -> c' = c) -> class_locals (us x) c = Some 1 ->
    1 < ntrees (us x) -> frames (low (us x)) < W64 ->
    ghost_lift (fun u => llfree_get g policy u None {| r_order := 0; r_class := c; r_local := Some 0 |}) x
      = (Err EMemory, x') ->
    (forall i, i < ntrees (us x) -> tree_free g (low (us x)) i = nth (nn i) (off x) 0) /\
    exact_free (abs g (low (us x))) = sumN (off x).
  Proof.
    intros HI Ho Hc Hn Hfr Hg.
    pose proof (ntrees_small g policy WF x HI Hfr) as Hsz.
    pose proof (get_single_slot_complete g policy WF LF PR PN x c x' HI Ho Hc Hn Hsz Hg) as B.
    split; [exact B|]. apply (all_hidden_exact_free g WF policy x HI B).
  Qed.

  Corollary single_slot_fail_no_free x c x' :
    UpperInv g policy x -> (forall c', class_slots (us x) c' <> None -> c' = c) -> class_locals (us x) c = Some 1 ->
    1 < ntrees (us x) -> frames (low (us x)) < W64 ->
    Forall (fun o => o = 0) (off x) ->
    ghost_lift (fun u => llfree_get g policy u None {| r_order := 0; r_class := c; r_local := Some 0 |}) x
      = (Err EMemory, x') ->
    exact_free (abs g (low (us x))) = 0.
  Proof.
    intros HI Ho Hc Hn Hfr Hoff Hg.
    destruct (single_slot_fail_all_hidden x c x' HI Ho Hc Hn Hfr Hg) as (B & _).
    exact (all_hidden_none_offline g WF policy x HI Hoff B).
  Qed.
End Complete.

(* the built-in policies *)
Definition builtin_policy (p : N -> N -> N -> pol) (TFv : N) : Prop :=
  p = pol_simple TFv \/ p = pol_movable TFv \/ p = pol_zeroed TFv \/ p = pol_zeroslot TFv.

Lemma builtin_facts p TFv : builtin_policy p TFv ->
  pol_refl_match p /\ pol_kind_indep p /\ pol_demote_trans p /\ pol_never_invalid p.
Proof.
  intros [-> | [-> | [-> | ->]]];
    [apply pol_simple_facts|apply pol_movable_facts|apply pol_zeroed_facts|apply pol_zeroslot_facts].
Qed.

(* C09: every geometry, frame count, init mode FreeAll / AllocAll (Recover over a buffer satisfying
   LowerPre), classing with ids < 8 and configured default (any slot counts), built-in policy, and every
   history of valid-parameter calls: `llfree_new` returns Ok and no call returns Panic *)
Theorem builtin_no_panic g policy fr i classing d lbuf tbuf sbuf :
  wf_geom g -> builtin_policy policy (TF g) ->
  init_pre g fr i lbuf ->
  Forall (fun s => s_pres s = false) sbuf ->
  (forall c k, In (c, k) classing -> c < 8) ->
  (exists k, In (d, k) classing) ->
  exists u, llfree_new g fr i classing d lbuf tbuf sbuf = Ok u /\
    forall ops, ops_valid u ops ->
      Forall (fun y => out_panic y = false) (fst (run_ops g policy u ops)).
Proof.
  intros WF BP Hpre Hbuf Hcl Hd. destruct (builtin_facts _ _ BP) as (PR & _ & PT & _).
  destruct (new_run_correct g policy WF PR PT fr i classing d lbuf tbuf sbuf Hpre Hbuf Hcl Hd) as (u & E & _ & H).
  exists u. split; [exact E|]. intros ops V. apply (H ops V).
Qed.
