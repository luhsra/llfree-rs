(* Lemmas for UpperSolo.v (a call running ALONE on M2 computes the big-step function of Upper.v):
   - M1: a one-thread view stays one while the call runs (`mstep_view`, from UpperProgress.mstep_thr);
   - the thread-level view of M2: configurations (memory, settled thread state), `sstep`, `sruns`, `Reach`;
     `At d u a cf`: the thread is about to process the action `a` with at least SETTLE - d steps of return-chain
     fuel left (`settle` follows return chains with bounded fuel, reset by every primitive step);
   - `Lands` / `Delivers`: what a function of the code hands to its continuation, and the frames that retry on
     Err EMemory (`retry_sim`);
   - the embedded lower call (`PLow`) = the big-step lower model, from SoloRun.v's `call_entry` (`low_sim`);
   - the primitives when nobody interferes: tree try_update/update (`tu_sim`: load, fetch_free loads, one successful
     compare-exchange), slot try_update (`su_sim`, `slot_enter`), swap (`sw_sim`), load (`ld_sim`);
   - from `sruns` to the fuel-bounded solo run of `ustep` (`usolo_fuel`, `sruns_fuel`). *)
From Coq Require Import PeanoNat ZifyBool.
From LLF Require Import Base BitLemmas Row RowProofs Bitfield Lower Spec Sorted Upper LowerMachine
  UpperInvDef LowerFacts LowerFactsProofs UpperPrims SoloRunLemmas SoloRun Progress UpperMachine.
From LLF Require UpperProgress UpperThread.

Section M1Shape.
  Variable g : geom.
  (* a one-thread view stays a one-thread view while the call runs *)
  Lemma mstep_view l c pc c' p' :
    let s1 := fst (mstep g (mk l [TRun c pc] []) 0 c) in
    nth_error (ms_pool s1) 0 = Some (TRun c' p') -> s1 = mk (lower_of s1) [TRun c' p'] [] /\ c' = c.
  Proof.
    intros s1 H1.
    assert (Hth : nth_error (ms_pool (mk l [TRun c pc] [])) 0 = Some (TRun c pc)) by reflexivity.
    pose proof (UpperProgress.mstep_thr g _ 0 c pc c Hth) as (x & Hx & _ & Hh).
    pose proof (step_dec g _ 0 c pc c Hth) as [_ Hd].
    fold s1 in Hx, Hh, Hd. cbn [ms_pool mk upd] in Hx.
    rewrite Hx in H1. cbn [nth_error] in H1. injection H1 as ->.
    destruct Hh as [Hh | (r & Hr)]; [|discriminate Hr].
    cbn [ms_held mk] in Hh. split.
    - clearbody s1. destruct s1 as [fr es bs pl hd]. cbn [ms_pool ms_held] in *. subst. reflexivity.
    - destruct Hd as [Hs | (p1 & Hp1 & _)].
      + unfold Progress.settled in Hs. rewrite Hx in Hs. discriminate Hs.
      + rewrite Hx in Hp1. cbn [nth_error] in Hp1. injection Hp1 as -> _. reflexivity.
  Qed.
End M1Shape.

(* the thread-level machine: (memory, settled thread state) *)
Definition CF := (upper * UpperMachine.settled)%type.
Definition Crashed (s : site) (c' : CF) : Prop := exists u'', c' = (u'', SCrash s).

Section ThreadMachine.
  Variable g : geom.
  Variable policy : N -> N -> N -> pol.
  Notation settle := (settle g policy).
  Notation resume := (resume g policy).
  Notation prim_step := (prim_step g policy).

  Definition sstep (u : upper) (p : prim) (k : list kframe) : CF :=
    let '(u', _, o) := prim_step u p in
    (u', match o with
         | OStay p' => SRun p' k
         | OVal v => settle SETTLE u' (ARet v k)
         | OCrash x => SCrash x
         end).

  Inductive sruns : CF -> CF -> Prop :=
  | sr_refl c : sruns c c
  | sr_step u p k c' : sruns (sstep u p k) c' -> sruns (u, SRun p k) c'.

  Lemma sruns_trans a b c : sruns a b -> sruns b c -> sruns a c.
  Proof. induction 1; auto. intros. apply sr_step. auto. Qed.

  (* `sstep` on each primitive *)
  Definition cf_of (u : upper) (o : outcome) (k : list kframe) : CF :=
    (u, match o with OStay p => SRun p k | OVal v => settle SETTLE u (ARet v k) | OCrash x => SCrash x end).

  Lemma sstep_PLd u i k : sstep u (PLd i) k =
    match tree_at u i with Some t => cf_of u (OVal (VT true t t)) k | None => (u, SCrash (SIndex 35)) end.
  Proof. unfold sstep. cbn [UpperMachine.prim_step]. destruct (tree_at u i); reflexivity. Qed.
  Lemma sstep_PTL u i f k : sstep u (PTL i f) k =
    match tree_at u i with Some t => cf_of u (tu_eval g policy u i f t) k | None => (u, SCrash (SIndex (tf_site f))) end.
  Proof. unfold sstep. cbn [UpperMachine.prim_step]. destruct (tree_at u i); reflexivity. Qed.
  Lemma sstep_PTF u i f cur j a k : sstep u (PTF i f cur j a) k =
    match nth_error (ents (low u)) (nn (i * THUGE g + j)) with
    | Some e => cf_of u (if j + 1 <? THUGE g then OStay (PTF i f cur (j + 1) (a + e_free e))
                         else tu_eval_fetched g policy u i f cur (a + e_free e)) k
    | None => (u, SCrash (SIndex 36))
    end.
  Proof. unfold sstep. cbn [UpperMachine.prim_step]. destruct (nth_error _ _); reflexivity. Qed.
  Lemma sstep_PTC u i f cur new k : sstep u (PTC i f cur new) k =
    match tree_at u i with
    | Some t => if tree_eqb t cur then cf_of (set_tree u i new) (OVal (VT true cur new)) k
                else cf_of u (tu_eval g policy u i f t) k
    | None => (u, SCrash (SIndex (tf_site f)))
    end.
  Proof. unfold sstep. cbn [UpperMachine.prim_step]. destruct (tree_at u i) as [t|]; [destruct (tree_eqb t cur)|]; reflexivity. Qed.
  Lemma sstep_PSL u c idx f k : sstep u (PSL c idx f) k =
    match slot_at u c idx with Some s => cf_of u (su_eval g c idx f s) k | None => (u, SCrash (SIndex 40)) end.
  Proof. unfold sstep. cbn [UpperMachine.prim_step]. destruct (slot_at u c idx); reflexivity. Qed.
  Lemma sstep_PSC u c idx f cur new k : sstep u (PSC c idx f cur new) k =
    match slot_at u c idx with
    | Some s => if slot_eqb s cur then cf_of (set_slot u c idx new) (OVal (VS true cur new)) k
                else cf_of u (su_eval g c idx f s) k
    | None => (u, SCrash (SIndex 40))
    end.
  Proof. unfold sstep. cbn [UpperMachine.prim_step]. destruct (slot_at u c idx) as [s|]; [destruct (slot_eqb s cur)|]; reflexivity. Qed.
  Lemma sstep_PSW u c idx new k : sstep u (PSW c idx new) k =
    match slot_at u c idx with
    | Some s => cf_of (set_slot u c idx new) (OVal (VS true s new)) k
    | None => (u, SCrash (SIndex 42))
    end.
  Proof. unfold sstep. cbn [UpperMachine.prim_step]. destruct (slot_at u c idx); reflexivity. Qed.
  Lemma sstep_PLow u c pc k : sstep u (PLow (TRun c pc)) k =
    let ms1 := fst (mstep g (mk (low u) [TRun c pc] []) 0 c) in
    let u1 := with_low u (lower_of ms1) in
    match nth_error (ms_pool ms1) 0 with
    | Some (TRun c' p') => (u1, SRun (PLow (TRun c' p')) k)
    | Some (TIdle (Some (Ok x))) => cf_of u1 (OVal (VL (Ok x))) k
    | Some (TIdle (Some (Err e))) => cf_of u1 (OVal (VL (Err e))) k
    | Some (TIdle (Some (Panic x))) => (u1, SCrash x)
    | Some (TPanic x _) => (u1, SCrash x)
    | _ => (u1, SCrash (SArith 95))
    end.
  Proof.
    unfold sstep. cbn [UpperMachine.prim_step]. change (m1_view u (TRun c pc)) with (mk (low u) [TRun c pc] []).
    destruct (mstep g (mk (low u) [TRun c pc] []) 0 c) as [ms1 ev]. cbn [fst].
    destruct (nth_error (ms_pool ms1) 0) as [[[[x|e|x]|]|c' p'|x c']|]; reflexivity.
  Qed.

  (* the thread is about to process `a` and at least SETTLE - d steps of the return chain remain *)
  Definition At (d : nat) (u : upper) (a : act) (c : CF) : Prop :=
    exists n, (SETTLE <= n + d)%nat /\ c = (u, settle n u a).

  Lemma At_0 u a : At 0 u a (u, settle SETTLE u a).
  Proof. exists SETTLE. split; [lia | reflexivity]. Qed.
  Lemma At_mono d d' u a c : At d u a c -> (d <= d')%nat -> At d' u a c.
  Proof. intros (n & Hn & E) H. exists n. split; [lia | exact E]. Qed.
  Lemma At_do d u p k c : At d u (ADo p k) c -> c = (u, SRun p k).
  Proof. intros (n & _ & E). rewrite E. destruct n; reflexivity. Qed.
  Lemma At_panic d u s c : At d u (APanic s) c -> Crashed s c.
  Proof. intros (n & _ & E). exists u. rewrite E. destruct n; reflexivity. Qed.
  Lemma At_ret d u v f k c : At d u (ARet v (f :: k)) c -> (d < SETTLE)%nat -> At (S d) u (resume u v f k) c.
  Proof.
    intros (n & Hn & E) Hd. destruct n as [|n]; [lia|]. exists n. split; [lia|]. rewrite E. reflexivity.
  Qed.
  Lemma At_done d u r c : At d u (ARet (VR r) []) c ->
    c = (u, match r with Panic s => SCrash s | _ => SDone r end).
  Proof. intros (n & _ & E). rewrite E. destruct n, r; reflexivity. Qed.

End ThreadMachine.

(* reaching a configuration with a property *)
Section Reach.
  Variable g : geom.
  Variable policy : N -> N -> N -> pol.
  Definition Reach (cf : CF) (Q : CF -> Prop) : Prop := exists c', sruns g policy cf c' /\ Q c'.
  Lemma Reach_trans cf c1 Q : sruns g policy cf c1 -> Reach c1 Q -> Reach cf Q.
  Proof. intros R (c' & R' & H). exists c'. split; [eapply sruns_trans; eassumption | exact H]. Qed.
  Lemma Reach_here cf (Q : CF -> Prop) : Q cf -> Reach cf Q.
  Proof. intros H. exists cf. split; [apply sr_refl | exact H]. Qed.
  Lemma Reach_weaken cf (Q Q' : CF -> Prop) : Reach cf Q -> (forall c, Q c -> Q' c) -> Reach cf Q'.
  Proof. intros (c' & R & H) HQ. exists c'. split; [exact R | apply HQ, H]. Qed.
  Lemma Reach_bind cf (Q Q' : CF -> Prop) : Reach cf Q -> (forall c, Q c -> Reach c Q') -> Reach cf Q'.
  Proof. intros (c' & R & H) HQ. eapply Reach_trans; [exact R | apply HQ, H]. Qed.
  Lemma Reach_step u p k Q : Reach (sstep g policy u p k) Q -> Reach (u, SRun p k) Q.
  Proof. intros (c' & R & H). exists c'. split; [apply sr_step; exact R | exact H]. Qed.
  (* the step at a primitive, for the outcomes that leave it *)
  Lemma Reach_val u' v k (Q : CF -> Prop) : (forall c', At g policy 0 u' (ARet v k) c' -> Q c') ->
    Reach (cf_of g policy u' (OVal v) k) Q.
  Proof. intros H. apply Reach_here, H, At_0. Qed.
  Lemma Reach_crash u' s (Q : CF -> Prop) : (forall c', Crashed s c' -> Q c') -> Reach (u', SCrash s) Q.
  Proof. intros H. apply Reach_here, H. exists u'. reflexivity. Qed.
End Reach.

Inductive out := ORet (v : val) | OPanic (s : site).

Lemma tree_ok_at u i : tree_ok u i = true <-> tree_at u i <> None.
Proof.
  unfold tree_ok, tree_at, ntrees. rewrite N.ltb_lt. split; intros H.
  - apply nth_error_Some. unfold nn. lia.
  - apply nth_error_Some in H. unfold nn in H. lia.
Qed.
Lemma tree_ok_some u i t : tree_at u i = Some t -> tree_ok u i = true.
Proof. intros H. apply tree_ok_at. rewrite H. discriminate. Qed.
Lemma tree_ok_none u i : tree_at u i = None -> tree_ok u i = false.
Proof. intros H. apply Bool.not_true_iff_false. intros E. apply tree_ok_at in E. contradiction. Qed.

(* the bound test of a slice index, as the code writes it, against the lookup of the model *)
Lemma ltb_nth {A} (l : list A) idx :
  (idx <? N.of_nat (length l)) = match nth_error l (nn idx) with Some _ => true | None => false end.
Proof.
  destruct (nth_error l (nn idx)) eqn:E.
  - apply N.ltb_lt. apply ConcBase.nth_error_some_lt in E. unfold nn in E. lia.
  - apply N.ltb_ge. apply nth_error_None in E. unfold nn in E. lia.
Qed.

Section Delivery.
  Variable g : geom.
  Variable policy : N -> N -> N -> pol.
  Notation settle := (settle g policy).
  Notation resume := (resume g policy).
  Notation sstep := (sstep g policy).
  Notation cf_of := (cf_of g policy).
  Notation At := (At g policy).
  Notation Reach := (Reach g policy).

  (* What a function of the code hands to its continuation.
     Running alone from its entry action, the thread reaches a configuration where the value v that the function
     returns in the sequential model is about to be processed by the continuation k, at return depth <= d and in
     a memory u' with I u'; or where it has stopped at the site of the model's panic. *)
  Definition Lands (d : nat) (k : list kframe) (I : upper -> Prop) (o : out) (u' : upper) (c' : CF) : Prop :=
    match o with
    | ORet v => At d u' (ARet v k) c' /\ I u'
    | OPanic s => Crashed s c'
    end.
  (* results of llfree.rs functions travel as `VR`; `val` turns the model's Ok value into the pair the code returns *)
  Definition out_res {A} (val : A -> N * N) (r : res A) : out :=
    match r with Ok a => ORet (VR (Ok (val a))) | Err e => ORet (VR (Err e)) | Panic s => OPanic s end.
  Definition Delivers {A} (val : A -> N * N) (d : nat) (k : list kframe) (I : upper -> Prop) (x : res A * upper) : CF -> Prop :=
    Lands d k I (out_res val (fst x)) (snd x).

  Lemma Lands_mono d d' k (I I' : upper -> Prop) o u' c' : (d <= d')%nat -> (I u' -> I' u') ->
    Lands d k I o u' c' -> Lands d' k I' o u' c'.
  Proof.
    intros Hd HI. destruct o; cbn [Lands]; [|exact (fun H => H)].
    intros [H1 H2]. split; [eapply At_mono; eassumption | apply HI, H2].
  Qed.
  Lemma Delivers_mono {A} (val : A -> N * N) d d' k I x cf : (d <= d')%nat ->
    Reach cf (Delivers val d k I x) -> Reach cf (Delivers val d' k I x).
  Proof. intros Hd H. eapply Reach_weaken; [exact H|]. intros c'. apply Lands_mono; [exact Hd | exact (fun H => H)]. Qed.
  (* the return into the frame on top of the continuation *)
  Lemma Lands_ret d f k I v u' c' : (d < SETTLE)%nat -> Lands d (f :: k) I (ORet v) u' c' ->
    At (S d) u' (resume u' v f k) c' /\ I u'.
  Proof. intros Hd [H1 H2]. split; [apply At_ret; assumption | exact H2]. Qed.

  (* the model's `match x with (Err EMemory, u') => next u' | other => other end`, as it is compiled when x is
     not a variable *)
  Definition or_else {A} (x : res A * upper) (next : upper -> res A * upper) : res A * upper :=
    match x with
    | (Ok a, u') => (Ok a, u')
    | (Err EMemory, u') => next u'
    | (Err EArgument, u') => (Err EArgument, u')
    | (Err EInit, u') => (Err EInit, u')
    | (Panic s, u') => (Panic s, u')
    end.

  (* a frame f that retries on Err EMemory (`next`) and passes every other result on: if what follows is
     simulated, so is the whole *)
  Lemma retry_sim {A} (val : A -> N * N) f k (next : upper -> act) (nextm : upper -> res A * upper) (I : upper -> Prop)
        d d' x cf :
    (forall u r, resume u (VR r) f k = match r with Err EMemory => next u | o => ret_r o k end) ->
    (d < d')%nat -> (d < SETTLE)%nat ->
    (forall u1 c1, I u1 -> At (S d) u1 (next u1) c1 -> Reach c1 (Delivers val d' k I (nextm u1))) ->
    Delivers val d (f :: k) I x cf -> Reach cf (Delivers val d' k I (or_else x nextm)).
  Proof.
    intros Hf Hd Hs Hnext. unfold Delivers. destruct x as [[a|[| |]|s] u']; cbn [fst snd out_res or_else].
    2: { intros H. apply (Lands_ret _ _ _ _ _ _ _ Hs) in H. destruct H as [H HI]. rewrite Hf in H. apply Hnext; assumption. }
    4: { intros H. apply Reach_here. exact H. }
    all: intros H; apply (Lands_ret _ _ _ _ _ _ _ Hs) in H; destruct H as [H HI]; rewrite Hf in H; apply Reach_here;
      (split; [eapply At_mono; [exact H | lia] | exact HI]).
  Qed.

  (* the embedded lower call = the big-step lower model (SoloRun.v) *)
  Hypothesis WF : wf_geom g.

  Definition low_out (r : res N) : out :=
    match r with Ok f => ORet (VL (Ok f)) | Err e => ORet (VL (Err e)) | Panic x => OPanic x end.

  Lemma runs_settled t c0 s s' : runs g t c0 s s' ->
    (forall c p, nth_error (ms_pool s) t <> Some (TRun c p)) -> s' = s.
  Proof. intros R Hn. inversion R; subst; [reflexivity|]. exfalso. eapply Hn; eassumption. Qed.

  Lemma runs_sruns c k rl s s' : runs g 0 c s s' -> Post [TIdle None] 0 c [] rl s' ->
    forall u pc, s = mk (low u) [TRun c pc] [] ->
    Reach (u, SRun (PLow (TRun c pc)) k) (Lands 0 k (fun _ => True) (low_out (fst rl)) (with_low u (snd rl))).
  Proof.
    induction 1 as [s|s c1 p1 s' E R IH]; intros HP u pc ->.
    - exfalso. unfold Post in HP. destruct (fst rl); try discriminate HP.
    - cbn [mk ms_pool nth_error] in E. injection E as <- <-.
      apply Reach_step. rewrite sstep_PLow. cbv zeta.
      set (ms1 := fst (mstep g (mk (low u) [TRun c pc] []) 0 c)) in *.
      destruct (nth_error (ms_pool ms1) 0) as [th|] eqn:En.
      2: { exfalso. assert (Es : s' = ms1) by (apply (runs_settled 0 c _ _ R); intros c2 p2; rewrite En; discriminate).
           subst s'. unfold Post in HP. destruct (fst rl); rewrite HP in En; discriminate En. }
      destruct th as [r|c' p'|x c'].
      2: { (* the lower call goes on *)
           destruct (mstep_view g (low u) c pc c' p' En) as [Ev ->]. fold ms1 in Ev.
           refine (IH HP (with_low u (lower_of ms1)) p' _). rewrite Ev at 1. reflexivity. }
      all: assert (Es : s' = ms1) by (apply (runs_settled 0 c _ _ R); intros c2 p2; rewrite En; discriminate);
        subst s'; unfold Post in HP; destruct (fst rl) as [f|e|x'];
        rewrite HP in En; cbn [fin st mk ms_pool upd nth_error] in En; try discriminate En.
      + injection En as <-. rewrite HP. unfold fin, st. rewrite lower_of_mk.
        apply Reach_val. intros c' H. exact (conj H I).
      + injection En as <-. rewrite HP. unfold fin, st. rewrite lower_of_mk.
        apply Reach_val. intros c' H. exact (conj H I).
      + injection En as <- _. apply Reach_crash. intros c2 H. exact H.
  Qed.

  (* entering a lower call whose parameters the upper layer guarantees *)
  Lemma low_sim u c k d cf : Shape g (low u) -> call_ok g (mk (low u) [TIdle None] []) c = true ->
    At d u (enter_low g c k) cf ->
    Reach cf (Lands 0 k (fun _ => True) (low_out (fst (big g (low u) c))) (with_low u (snd (big g (low u) c)))).
  Proof.
    intros Sh Hok HA. unfold enter_low in HA. apply At_do in HA. subst cf.
    destruct (call_entry g WF [TIdle None] 0 ltac:(cbn; lia) c (low u) [] c Sh Hok) as (s' & R & Q).
    eapply runs_sruns; [exact R | exact Q | reflexivity].
  Qed.

  (* the primitives when nobody interferes *)

  (* fetch_free: the loads of the huge entries j.. of tree i, sum so far a *)
  Fixpoint ptf_loop (u : upper) (i j a : N) (n : nat) : option N :=
    match n with
    | O => None
    | S n' =>
        match nth_error (ents (low u)) (nn (i * THUGE g + j)) with
        | None => None
        | Some e => if j + 1 <? THUGE g then ptf_loop u i (j + 1) (a + e_free e) n' else Some (a + e_free e)
        end
    end.
  Definition fetch_of (u : upper) (i : N) (f : tfun) (t : tree) : option N :=
    if needs_fetch f t then ptf_loop u i 0 0 (thuge_nat g) else Some 0.

  (* where the update of tree entry i (value t) by closure f arrives; the closure was evaluated with `fetch` *)
  Definition tu_land (u : upper) (i : N) (f : tfun) (t : tree) (k : list kframe) (fetch : N) (c' : CF) : Prop :=
    match tf_apply g policy (dflt u) f t fetch with
    | None => At 0 u (ARet (VT false t t) k) c'
    | Some (Ok new) => At 0 (set_tree u i new) (ARet (VT true t new) k) c'
    | Some (Panic s) => Crashed s c'
    | Some (Err _) => Crashed (SArith 96) c'
    end.
  Definition tu_post (u : upper) (i : N) (f : tfun) (t : tree) (k : list kframe) (c' : CF) : Prop :=
    match fetch_of u i f t with
    | None => Crashed (SIndex 36) c'
    | Some fetch => tu_land u i f t k fetch c'
    end.

  (* after the closure was evaluated on the value t just read: one successful compare-exchange *)
  Lemma tu_eval_sim u i f t k fetch : tree_at u i = Some t ->
    Reach (cf_of u (tu_eval_fetched g policy u i f t fetch) k) (tu_land u i f t k fetch).
  Proof.
    intros Et. unfold tu_eval_fetched, tu_land.
    destruct (tf_apply g policy (dflt u) f t fetch) as [[new|e'|x]|].
    - apply Reach_step. rewrite sstep_PTC, Et, UpperProgress.tree_eqb_refl. apply Reach_val. intros c' H; exact H.
    - apply Reach_crash. intros c' H; exact H.
    - apply Reach_crash. intros c' H; exact H.
    - apply Reach_val. intros c' H; exact H.
  Qed.

  Lemma ptf_sim u i f t k n : tree_at u i = Some t -> forall j a, (nn j + S n = nn (THUGE g))%nat ->
    Reach (u, SRun (PTF i f t j a) k)
      (fun c' => match ptf_loop u i j a (S n) with
                 | None => Crashed (SIndex 36) c'
                 | Some fetch => tu_land u i f t k fetch c'
                 end).
  Proof.
    intros Et. induction n as [|n IH]; intros j a Hn; apply Reach_step; rewrite sstep_PTF.
    - cbn [ptf_loop]. destruct (nth_error (ents (low u)) (nn (i * THUGE g + j))) as [e|]; [|apply Reach_crash; intros c' H; exact H].
      replace (j + 1 <? THUGE g) with false by (symmetry; apply N.ltb_ge; unfold nn in Hn; lia).
      apply tu_eval_sim. exact Et.
    - remember (S n) as m. cbn [ptf_loop].
      destruct (nth_error (ents (low u)) (nn (i * THUGE g + j))) as [e|]; [|apply Reach_crash; intros c' H; exact H].
      replace (j + 1 <? THUGE g) with true by (symmetry; apply N.ltb_lt; unfold nn in Hn; lia).
      subst m. apply IH. unfold nn in *. lia.
  Qed.

  (* `entries[i].try_update(f)` / `.update(f)` alone: one load (+ fetch_free), one compare-exchange *)
  Lemma ptl_sim u i f t k d cf : tree_at u i = Some t -> At d u (ADo (PTL i f) k) cf -> Reach cf (tu_post u i f t k).
  Proof.
    intros Et HA. apply At_do in HA. subst cf. apply Reach_step. rewrite sstep_PTL, Et.
    unfold tu_post, fetch_of, tu_eval. destruct (needs_fetch f t).
    - pose proof (AbsLemmas.THUGE_nat g) as HTn. pose proof (AbsLemmas.THUGE_pos g) as HTp.
      destruct (thuge_nat g) as [|n] eqn:En; [lia|].
      apply (ptf_sim u i f t k n Et 0 0). unfold nn. lia.
    - apply (tu_eval_sim u i f t k 0 Et).
  Qed.
  Lemma tu_sim u i f k d cf : At d u (enter_tu u i f k) cf ->
    Reach cf (fun c' => match tree_at u i with
                        | None => Crashed (SIndex (tf_site f)) c'
                        | Some t => tu_post u i f t k c'
                        end).
  Proof.
    intros HA. unfold enter_tu in HA. destruct (tree_at u i) as [t|] eqn:Et.
    - rewrite (tree_ok_some u i t Et) in HA. exact (ptl_sim u i f t k d cf Et HA).
    - rewrite (tree_ok_none u i Et) in HA. apply Reach_here. apply At_panic in HA. exact HA.
  Qed.

  (* slot try_update alone *)
  Definition su_post (u : upper) (c idx : N) (f : sfun) (s : slot) (k : list kframe) (c' : CF) : Prop :=
    match sf_apply g f s with
    | None => At 0 u (ARet (VS false s s) k) c'
    | Some (Ok new) => At 0 (set_slot u c idx new) (ARet (VS true s new) k) c'
    | Some (Panic x) => Crashed x c'
    | Some (Err _) => Crashed (SArith 96) c'
    end.
  Lemma su_sim u c idx f s k d cf : slot_at u c idx = Some s -> At d u (ADo (PSL c idx f) k) cf ->
    Reach cf (su_post u c idx f s k).
  Proof.
    intros Es HA. apply At_do in HA. subst cf. apply Reach_step. rewrite sstep_PSL, Es.
    unfold su_eval, su_post. destruct (sf_apply g f s) as [[new|e'|x]|].
    - apply Reach_step. rewrite sstep_PSC, Es, UpperProgress.slot_eqb_refl. apply Reach_val. intros c' H; exact H.
    - apply Reach_crash. intros c' H; exact H.
    - apply Reach_crash. intros c' H; exact H.
    - apply Reach_val. intros c' H; exact H.
  Qed.

  (* `locals(class)[idx].try_update(f)` behind the D15 check and the bound check of the slice index: the three
     cases are those of the model's `class_slots` / `nth_error` *)
  Lemma slot_enter u c idx f k (none : act) s0 d cf :
    At d u (match class_locals u c with
            | None => none
            | Some len => if idx <? len then ADo (PSL c idx f) k else APanic s0
            end) cf ->
    match class_slots u c with
    | None => At d u none cf
    | Some l => match nth_error l (nn idx) with
                | None => Crashed s0 cf
                | Some s => Reach cf (su_post u c idx f s k)
                end
    end.
  Proof.
    unfold class_locals. destruct (class_slots u c) as [l|] eqn:Ecs; cbn [option_map]; [|exact (fun H => H)].
    rewrite ltb_nth. destruct (nth_error l (nn idx)) as [s|] eqn:En.
    - apply su_sim. unfold slot_at. rewrite Ecs. exact En.
    - apply At_panic.
  Qed.

  Lemma sw_sim u c idx new k d cf : At d u (ADo (PSW c idx new) k) cf ->
    Reach cf (fun c' => match slot_at u c idx with
                        | None => Crashed (SIndex 42) c'
                        | Some s => At 0 (set_slot u c idx new) (ARet (VS true s new) k) c'
                        end).
  Proof.
    intros HA. apply At_do in HA. subst cf. apply Reach_step. rewrite sstep_PSW.
    destruct (slot_at u c idx) as [s|]; [apply Reach_val | apply Reach_crash]; intros c' H; exact H.
  Qed.

  Lemma ld_sim u i k d cf : At d u (ADo (PLd i) k) cf ->
    Reach cf (fun c' => match tree_at u i with
                        | None => Crashed (SIndex 35) c'
                        | Some t => At 0 u (ARet (VT true t t) k) c'
                        end).
  Proof.
    intros HA. apply At_do in HA. subst cf. apply Reach_step. rewrite sstep_PLd.
    destruct (tree_at u i) as [t|]; [apply Reach_val | apply Reach_crash]; intros c' H; exact H.
  Qed.
End Delivery.

(* one step of a return chain *)
Ltac ret_step H := apply At_ret in H; [cbn [UpperMachine.resume] in H | unfold SETTLE in *; lia].
(* continue from where the primitive that H is about to run arrives when the thread is alone: Q describes it *)
Ltac use_tu H Q :=
  eapply Reach_bind; [exact (tu_sim _ _ _ _ _ _ _ _ H)|]; clear H; intros ? Q;
  unfold tu_post, tu_land, fetch_of in Q; cbn [needs_fetch tf_apply tf_site] in Q.
Ltac use_sw H Q := eapply Reach_bind; [exact (sw_sim _ _ _ _ _ _ _ _ _ H)|]; clear H; intros ? Q.

(* from the thread-level machine to `ustep` *)
Fixpoint usolo_fuel (g : geom) (policy : N -> N -> N -> pol) (n : nat) (s : m2state) (t : nat) (c : ucall) : m2state :=
  match n with
  | O => s
  | S n' => let s' := fst (ustep g policy s t c) in
            match nth_error (m2_pool s') t with
            | Some (URun _ _ _) => usolo_fuel g policy n' s' t c
            | _ => s'
            end
  end.

Definition is_final (x : UpperMachine.settled) : bool := match x with SRun _ _ => false | _ => true end.

Section Glue.
  Variable g : geom.
  Variable policy : N -> N -> N -> pol.
  Variable P : list uthr.
  Variable t : nat.
  Variable c : ucall.
  Hypothesis Ht : (t < length P)%nat.

  (* memory u, thread t as described by x, ghost H *)
  Definition ust (u : upper) (H : list (N * nat)) (x : UpperMachine.settled) : m2state :=
    apply_settled {| m2_up := u; m2_pool := P; m2_held := H |} t c x.

  Lemma apply_settled_base u H a x :
    apply_settled {| m2_up := u; m2_pool := upd P t a; m2_held := H |} t c x = ust u H x.
  Proof.
    unfold ust. destruct x as [p k|r|x]; cbn [apply_settled].
    - unfold set_uthr. cbn [m2_up m2_pool m2_held]. rewrite sr_upd_upd. reflexivity.
    - unfold ufinish, set_uthr, with_held. cbn [m2_up m2_pool m2_held]. rewrite sr_upd_upd. reflexivity.
    - unfold set_uthr. cbn [m2_up m2_pool m2_held]. rewrite sr_upd_upd. reflexivity.
  Qed.

  Lemma ust_thread u H x : nth_error (m2_pool (ust u H x)) t =
    Some (match x with SRun p k => URun c p k | SDone r => UIdle (Some r) | SCrash y => UPanic y c end).
  Proof. unfold ust. rewrite UpperThread.apply_settled_pool. apply nth_error_upd_same. exact Ht. Qed.

  Lemma ustep_ust u H p k c0 :
    fst (ustep g policy (ust u H (SRun p k)) t c0) = ust (fst (sstep g policy u p k)) H (snd (sstep g policy u p k)).
  Proof.
    unfold ustep. rewrite ust_thread. unfold sstep. cbn [ust apply_settled set_uthr m2_up m2_pool m2_held].
    destruct (prim_step g policy u p) as [[u' ev] o]. cbn [fst snd].
    destruct o as [p'|v|x]; unfold with_up; cbn [m2_up m2_pool m2_held].
    - unfold set_uthr. cbn [m2_up m2_pool m2_held]. rewrite sr_upd_upd. reflexivity.
    - apply apply_settled_base.
    - unfold set_uthr. cbn [m2_up m2_pool m2_held]. rewrite sr_upd_upd. reflexivity.
  Qed.

  Lemma sruns_final cf cf' : sruns g policy cf cf' -> is_final (snd cf) = true -> cf' = cf.
  Proof. intros R H. inversion R; subst; [reflexivity|]. discriminate H. Qed.

  Lemma sruns_fuel H cf cf' : sruns g policy cf cf' -> is_final (snd cf') = true -> is_final (snd cf) = false ->
    exists n, usolo_fuel g policy n (ust (fst cf) H (snd cf)) t c = ust (fst cf') H (snd cf').
  Proof.
    induction 1 as [cf|u p k cf' R IH]; intros Hf Hr.
    - rewrite Hf in Hr. discriminate.
    - cbn [fst snd]. destruct (is_final (snd (sstep g policy u p k))) eqn:Es.
      + pose proof (sruns_final _ _ R Es) as ->.
        exists 1%nat. cbn [usolo_fuel]. rewrite ustep_ust, ust_thread.
        destruct (snd (sstep g policy u p k)); [discriminate Es | reflexivity | reflexivity].
      + destruct (IH Hf eq_refl) as (n & Hn). exists (S n). cbn [usolo_fuel]. rewrite ustep_ust, ust_thread.
        destruct (snd (sstep g policy u p k)) eqn:E2; [|discriminate Es|discriminate Es].
        exact Hn.
  Qed.
End Glue.
