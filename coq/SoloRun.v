(* A call run ALONE on the small-step machine M1 (LowerMachine.v) computes the big-step function of the
   sequential model (Lower.v + Bitfield.v), for every outcome (Ok / Err / Panic).
   Hypotheses: `wf_geom`, `Shape g l` (table sizes, row counts, rows are 64-bit words: a fragment of
   `LowerInv`, see `LowerInv_Shape`) and the machine's own `call_ok` (what the upper allocator guarantees).
   On `Panic x` only the thread state `TPanic x c` is claimed (the machine has already written the counter
   when e.g. SUndoFailed fires, the big-step function returns the unchanged state).
   One simulation lemma per loop; see /verif/notes/m1-solo-status.md.  Stdlib only. *)
From Coq Require Import PeanoNat ZArith ZifyN ZifyBool.
From LLF Require Import Base BitLemmas Row RowProofs Bitfield Lower Spec AbsLemmas LowerMachine
  ConcBase ConcInvDef ConcInvGeom SoloRunLemmas.


(* the big-step function of a call, with the machine's result convention *)
Definition big (g : geom) (l : lower) (c : call) : res N * lower :=
  match c with
  | CGet st k => lower_get g l st k
  | CGetAt f k => match lower_get_at g l f k with
                  | (Ok _, l') => (Ok f, l') | (Err e, l') => (Err e, l') | (Panic x, l') => (Panic x, l') end
  | CPut f k => match lower_put g l f k with
                | (Ok _, l') => (Ok 0, l') | (Err e, l') => (Err e, l') | (Panic x, l') => (Panic x, l') end
  end.

Definition Shape (g : geom) (l : lower) : Prop :=
  length (bfs l) = nn (nbf g (frames l)) /\
  length (ents l) = nn (ntab g (frames l) * THUGE g) /\
  Forall (rows_ok g) (bfs l).

Lemma LowerInv_Shape g l : LowerInv g l -> Shape g l.
Proof.
  intros (H1 & H2 & H3 & _). split; [exact H1|]. split; [exact H2|].
  apply Forall_forall. intros rows Hin. apply In_nth_error in Hin. destruct Hin as (h & Hh).
  destruct (nth_error (ents l) h) as [e|] eqn:He.
  - exact (proj1 (H3 h e rows He Hh)).
  - (* a bitfield without a table entry: there are at least as many entries as bitfields *)
    exfalso. apply nth_error_None in He. apply nth_error_some_lt in Hh.
    pose proof (nbf_le_ntab g (frames l)). unfold nn in *. lia.
Qed.

Section ShapeFacts.
  Variable g : geom.
  Notation HF := (HF g).
  Notation TF := (TF g).
  Notation THUGE := (THUGE g).
  Variable l : lower.
  Hypothesis Sh : Shape g l.

  Lemma shape_has_tree_idx tr : tr < ntab g (frames l) -> has_tree g l tr = true.
  Proof.
    intros Hlt. destruct Sh as (_ & He & _). unfold has_tree. rewrite He. unfold nn. rewrite N2Nat.id.
    apply N.leb_le. apply N.mul_le_mono_r. lia.
  Qed.
  Lemma shape_has_tree f : f < frames l -> has_tree g l (f / TF) = true.
  Proof. intros Hf. apply shape_has_tree_idx, frame_lt_ntab, Hf. Qed.
  Lemma shape_bf f : f < frames l -> exists rows, bf l (f / HF) = Some rows /\ rows_ok g rows.
  Proof.
    intros Hf. destruct Sh as (Hb & _ & Hr).
    assert (Hlt : (nn (f / HF) < length (bfs l))%nat).
    { rewrite Hb. pose proof (frame_lt_nbf g _ _ Hf). unfold nn. lia. }
    unfold bf. destruct (nth_error (bfs l) (nn (f / HF))) as [rows|] eqn:E; [|apply nth_error_None in E; lia].
    exists rows. split; auto. eapply Forall_nth_error; eauto.
  Qed.
  Lemma shape_ent_tree tr i : has_tree g l tr = true -> i < THUGE -> exists e, ent l (tr * THUGE + i) = Some e.
  Proof.
    intros Htr Hi. unfold has_tree in Htr. apply N.leb_le in Htr.
    assert (Hlt : (nn (tr * THUGE + i) < length (ents l))%nat).
    { unfold nn. clear - Htr Hi. remember (tr * THUGE) as X. replace ((tr + 1) * THUGE) with (X + THUGE) in Htr by (subst X; ring).
      clear HeqX. remember THUGE as T. clear HeqT. lia. }
    unfold ent. destruct (nth_error (ents l) (nn (tr * THUGE + i))) as [e|] eqn:E; [eauto|apply nth_error_None in E; lia].
  Qed.
  Lemma shape_ent f : f < frames l -> exists e, ent l (f / HF) = Some e.
  Proof.
    intros Hf. pose proof (THUGE_pos g) as HT.
    replace (f / HF) with ((f / TF) * THUGE + (f / HF) mod THUGE).
    - apply shape_ent_tree; [apply shape_has_tree, Hf|apply N.mod_lt; lia].
    - rewrite (div_TF g f), N.mul_comm. symmetry. apply N.div_mod. lia.
  Qed.

  Lemma shape_group c gi : cwf g (frames l) c = true -> (hord g <= c_order c)%nat ->
    (nn (group_h g c gi) + nn (c_hnum g c) <= length (ents l))%nat.
  Proof.
    intros Hc Hk. destruct (huge_group g _ c gi Hc Hk) as (Hg & _). destruct Sh as (_ & He & _).
    rewrite He. unfold nn. lia.
  Qed.
End ShapeFacts.

Lemma leb_true a b : (a <= b)%nat -> Nat.leb a b = true. Proof. apply Nat.leb_le. Qed.

(* the step of the running thread t of a state `st ..`, as a match on the memory reads *)
Ltac mstep_tac := unfold mstep; rewrite pool_st by assumption; cbv beta iota zeta; rewrite ?rd_ent_st, ?rd_row_st.

Section Huge.
  Variable g : geom.
  Variable P : list thr.
  Variable t : nat.
  Hypothesis Ht : (t < length P)%nat.
  Variable c0 : call.
  Local Notation runs := (runs g t c0).
  Local Notation Runs := (Runs g P t c0).
  Notation HF := (HF g).
  Notation TF := (TF g).
  Notation THUGE := (THUGE g).

  Definition ngroup (c : call) (H : list (N * nat)) (l : lower) (gi : N) : mstate :=
    if gi + 1 <? group_cnt g c then st l P H t (TRun c (HC (gi + 1) 0)) else fin c l P H t (Err EMemory).
  Lemma next_group_st c H l x gi : next_group g (st l P H t x) t c gi = ngroup c H l gi.
  Proof. unfold next_group, ngroup. rewrite goto_st, finish_st. reflexivity. Qed.

  Definition hc_res (c : call) (gi : N) : res N :=
    match c with CPut _ _ => Ok 0 | _ => Ok (group_h g c gi * HF) end.

  Lemma hc_run c H l gi es :
    (nn (group_h g c gi) + nn (c_hnum g c) <= length es)%nat ->
    runs (st (with_ents l es) P H t (TRun c (HC gi 0)))
         (match cas_all es (nn (group_h g c gi)) (nn (c_hnum g c)) (cas_cur g c) (cas_new g c) with
          | Some es' => fin c (with_ents l es') P H t (hc_res c gi)
          | None => ngroup c H (with_ents l es) gi
          end).
  Proof.
    intros Hl.
    apply (mcn_run g P t Ht c0 c H (with_ents l) (HC gi) (HU gi)
             (fun l' => fin c l' P H t (hc_res c gi)) (fun l' => ngroup c H l' gi)
             (group_h g c gi) (c_hnum g c) (cas_cur g c) (cas_new g c)); [| |exact Hl|apply pow2_pos].
    - intros q cs e He. mstep_tac. unfold ent. cbn [ents with_ents]. rewrite He.
      destruct (e =? cas_cur g c); cbn [fst].
      + rewrite wr_ent_st. destruct (q + 1 <? c_hnum g c); [apply goto_st|apply finish_st].
      + destruct (q =? 0); [apply next_group_st|apply goto_st].
    - intros q cs He. mstep_tac. unfold ent. cbn [ents with_ents]. rewrite He, N.eqb_refl. cbn [fst].
      rewrite wr_ent_st. destruct (q =? 0); [apply next_group_st|apply goto_st].
  Qed.

  Lemma huge_in_tree fr c : cwf g fr c = true -> (hord g <= c_order c)%nat -> is_get c = false ->
    c_huge g c mod THUGE + c_hnum g c <= THUGE.
  Proof.
    intros Hc Hk Hg. pose proof (pow2_nz (c_order c - hord g)) as Hn. fold (c_hnum g c) in Hn.
    assert (Hto : (c_order c <= tord g)%nat) by (unfold cwf in Hc; lia).
    pose proof (hnum_divides g c Hk Hto) as ET. pose proof (pow2_nz (tlog g - (c_order c - hord g))) as Hm.
    apply aligned_fit; [exact Hn| | |apply N.mod_lt, THUGE_nz].
    - rewrite ET. apply N.mod_mul, Hn.
    - rewrite ET, N.mul_comm. apply mod_mod_aligned; [exact Hn|exact Hm|].
      apply div_of_aligned; [apply HF_nz|exact Hn|].
      destruct (huge_call_aligned_geom g fr c Hc Hk Hg) as (_ & E). rewrite N.mul_comm, <- E.
      unfold cwf in Hc. destruct c; try discriminate; cbn [c_frame c_order c_n] in *; unfold c_n; cbn [c_order]; lia.
  Qed.

  (* get_at and put of a huge-order block: one compare_exchange_all *)
  Lemma huge_at_call l H c : Shape g l -> cwf g (frames l) c = true -> (hord g <= c_order c)%nat -> is_get c = false ->
    Runs c H (st l P H t (TRun c (HC 0 0))) (big g l c).
  Proof.
    intros Sh Hc Hk Hg.
    assert (Hf : c_frame c < frames l).
    { pose proof (pow2_pos (c_order c)). unfold cwf in Hc. destruct c; try discriminate; cbn [c_frame c_order] in *; lia. }
    pose proof (huge_in_tree _ c Hc Hk Hg) as Hfit. apply N.ltb_ge in Hfit.
    destruct (huge_call_aligned_geom g _ c Hc Hk Hg) as (Ef & _).
    eapply Runs_runs.
    { rewrite <- (with_ents_id l) at 1. apply (hc_run c H l 0 (ents l)), shape_group; assumption. }
    destruct c as [|f k|f k]; [discriminate| |]; cbn [big c_frame c_order] in *;
      [unfold lower_get_at|unfold lower_put]; rewrite (shape_has_tree g l Sh f Hf), (leb_true _ _ Hk); cbn [negb]; cbv zeta.
    all: match goal with |- context [group_h g ?c 0] => change (group_h g c 0) with (f / HF); change (c_hnum g c) with (pow2 (k - hord g)) in * end.
    all: change (c_huge g _) with (f / HF) in *; rewrite Hfit; cbn [cas_cur cas_new].
    all: destruct (cas_all _ _ _ _ _) as [es|].
    - replace (hc_res (CGetAt f k) 0) with (@Ok N f); [apply Runs_ok|].
      cbn [hc_res group_h]. rewrite Ef at 1. reflexivity.
    - unfold ngroup. cbn [group_cnt]. change (0 + 1 <? 1) with false. cbv iota. rewrite with_ents_id. apply Runs_err.
    - apply Runs_ok.
    - unfold ngroup. cbn [group_cnt]. change (0 + 1 <? 1) with false. cbv iota. rewrite with_ents_id. apply Runs_err.
  Qed.
End Huge.


Section GetHuge.
  Variable g : geom.
  Variable P : list thr.
  Variable t : nat.
  Hypothesis Ht : (t < length P)%nat.
  Variable c0 : call.
  Local Notation runs := (runs g t c0).
  Local Notation Runs := (Runs g P t c0).
  Notation HF := (HF g).
  Notation TF := (TF g).
  Notation THUGE := (THUGE g).

  Variables (start : N) (k : nat).
  Local Notation c := (CGet start k).
  Local Notation hn := (pow2 (k - hord g)).
  Local Notation tstart := ((start * 64) / TF * THUGE).
  Local Notation co := (((start * 64) / HF) mod THUGE / hn * hn).

  Variable l : lower.
  Hypothesis Sh : Shape g l.
  Hypothesis Hc : cwf g (frames l) c = true.
  Hypothesis Hk : (hord g <= k)%nat.

  Lemma get_huge_run H : forall n gi, N.of_nat n + gi = THUGE / hn -> (0 < n)%nat ->
    Runs c H (st l P H t (TRun c (HC gi 0))) (get_huge_loop g l tstart co hn gi n).
  Proof.
    induction n; intros gi Hn Hpos; [lia|]. cbn [get_huge_loop].
    eapply Runs_runs.
    { rewrite <- (with_ents_id l) at 1. apply (hc_run g P t Ht c0 c H l gi (ents l)), shape_group; assumption. }
    change (group_h g c gi) with (tstart + (co + gi * hn) mod THUGE). change (c_hnum g c) with hn.
    change (cas_cur g c) with HF. change (cas_new g c) with MARK.
    destruct (cas_all (ents l) (nn (tstart + (co + gi * hn) mod THUGE)) (nn hn) HF MARK) as [es|].
    - apply Runs_ok.
    - rewrite with_ents_id. unfold ngroup. change (group_cnt g c) with (THUGE / hn).
      destruct n.
      + destruct (N.ltb_spec (gi + 1) (THUGE / hn)); [lia|]. cbn [get_huge_loop]. apply Runs_err.
      + destruct (N.ltb_spec (gi + 1) (THUGE / hn)); [|lia]. apply IHn; lia.
  Qed.

  Lemma get_huge_call H : Runs c H (st l P H t (TRun c (HC 0 0))) (big g l c).
  Proof.
    assert (Htree : has_tree g l ((start * 64) / TF) = true).
    { apply (shape_has_tree_idx g l Sh). unfold cwf in Hc. lia. }
    cbn [big]. unfold lower_get. rewrite Htree, (leb_true _ _ Hk). cbn [negb]. cbv zeta.
    (* THUGE = m * hn with m > 0 groups *)
    assert (Hto : (k <= tord g)%nat) by (unfold cwf in Hc; cbn [c_order] in Hc; lia).
    pose proof (hnum_divides g c Hk Hto) as ET. change (c_hnum g c) with hn in ET.
    pose proof (pow2_pos (k - hord g)). pose proof (pow2_pos (tlog g - (k - hord g))) as Hm.
    assert (Ecnt : THUGE / hn = pow2 (tlog g - (k - hord g))) by (rewrite ET at 1; apply N.div_mul; lia).
    destruct (N.ltb_spec THUGE hn); [nia|].
    apply get_huge_run; rewrite Ecnt; unfold nn; lia.
  Qed.
End GetHuge.

Section Toggle.
  Variable g : geom.
  Hypothesis wf : wf_geom g.
  Variable P : list thr.
  Variable t : nat.
  Hypothesis Ht : (t < length P)%nat.
  Variable c0 : call.
  Local Notation runs := (runs g t c0).
  Local Notation Runs := (Runs g P t c0).
  Local Notation runs_st := (runs_st g P t Ht c0).
  Local Notation Runs_st := (Runs_st g P t Ht c0).
  Notation HF := (HF g).
  Notation TF := (TF g).
  Notation THUGE := (THUGE g).
  Notation ROWS := (ROWS g).

  Definition tframe (x : tctx) (c : call) : N := match x with XSplit _ => 0 | _ => c_frame c end.
  Definition tok (c : call) (H : list (N * nat)) (l : lower) (x : tctx) : mstate :=
    match x with
    | XGetAt => fin c l P H t (Ok (c_frame c))
    | XPut => st l P H t (TRun c PS2L)
    | XSplit old => st l P H t (TRun c (PP2 old))
    end.
  Definition tfail (c : call) (H : list (N * nat)) (l : lower) (x : tctx) : mstate :=
    match x with
    | XGetAt => st l P H t (TRun c A3L)
    | XPut => fin c l P H t (Err EMemory)
    | XSplit _ => st l P H t (TRun c (PP3 0))
    end.
  Lemma toggle_ok_st c H l y x : toggle_ok (st l P H t y) t c x = tok c H l x.
  Proof. destruct x; cbn [toggle_ok tok]; rewrite ?finish_st, ?goto_st; reflexivity. Qed.
  Lemma toggle_fail_st c H l y x : toggle_fail (st l P H t y) t c x = tfail c H l x.
  Proof. destruct x; cbn [toggle_fail tfail]; rewrite ?finish_st, ?goto_st; reflexivity. Qed.

  Lemma trow_eq x c : (tframe x c / 64) mod ROWS = t_row g x c.
  Proof. destruct x; cbn [tframe t_row]; reflexivity. Qed.
  Lemma toff_eq x c : tframe x c mod 64 = t_off x c.
  Proof. destruct x; cbn [tframe t_off]; auto. Qed.

  Lemma bf_toggle_small x c rows e : (t_order g x c <= 6)%nat -> nth_error rows (nn (t_row g x c)) = Some e ->
    bf_toggle g rows (tframe x c) (t_order g x c) (t_expected x) =
    match toggle_f g x c e with Some v' => Some (upd rows (nn (t_row g x c)) v') | None => None end.
  Proof.
    intros Ho He. unfold bf_toggle. rewrite (leb_true _ _ Ho). cbv zeta. rewrite trow_eq, toff_eq.
    unfold row_at. rewrite He. unfold toggle_f, t_mask. cbv zeta.
    destruct (t_expected x); destruct (_ =? _); reflexivity.
  Qed.

  (* the narrow compare-exchange on a lane is the masked test-and-flip *)
  Lemma toggle_f_lane x c e : e < W64 ->
    toggle_f g x c e =
    if N.land (N.shiftr e (t_off x c)) (ones (pow2 (t_order g x c))) =? (if t_expected x then ones (pow2 (t_order g x c)) else 0)
    then Some (N.lxor e (N.shiftl (ones (pow2 (t_order g x c))) (t_off x c))) else None.
  Proof.
    intros He. unfold toggle_f, t_mask. cbv zeta. destruct (t_expected x).
    - rewrite lane_test_ones. unfold mask64.
      destruct (N.eqb_spec (N.land e (N.shiftl (ones (pow2 (t_order g x c))) (t_off x c)))
                           (N.shiftl (ones (pow2 (t_order g x c))) (t_off x c))) as [E|E]; auto.
      rewrite lxor_clear; auto.
    - rewrite lane_test_zero. unfold mask64.
      destruct (N.eqb_spec (N.land e (N.shiftl (ones (pow2 (t_order g x c))) (t_off x c))) 0) as [E|E]; auto.
      rewrite N.lxor_lor; auto.
  Qed.

  Lemma tw_run c H l x rows : bf l (c_huge g c) = Some rows ->
    (nn (t_row g x c) + nn (t_nrows g x c) <= length rows)%nat ->
    runs (st l P H t (TRun c (TW x 0)))
         (match cas_all rows (nn (t_row g x c)) (nn (t_nrows g x c))
                  (if t_expected x then MAX64 else 0) (if t_expected x then 0 else MAX64) with
          | Some rs => tok c H (set_bf l (c_huge g c) rs) x
          | None => tfail c H l x
          end).
  Proof.
    intros Hbf Hl. set (h := c_huge g c) in *.
    rewrite <- (set_bf_id l h rows Hbf) at 1.
    replace (tfail c H l x) with (tfail c H (set_bf l h rows) x) by (rewrite (set_bf_id l h rows Hbf); reflexivity).
    apply (mcn_run g P t Ht c0 c H (set_bf l h) (TW x) (TU x) (fun l' => tok c H l' x) (fun l' => tfail c H l' x)
             (t_row g x c) (t_nrows g x c) (if t_expected x then MAX64 else 0) (if t_expected x then 0 else MAX64));
      [| |exact Hl|apply pow2_pos].
    - intros q rs e He. mstep_tac. fold h. rewrite (row_set_bf l h rows rs _ Hbf), He.
      destruct (e =? (if t_expected x then MAX64 else 0)); cbn [fst].
      + rewrite (wr_row_st P t _ H _ h _ _ rs) by (eapply bf_set_bf; eauto). rewrite set_bf_set_bf.
        destruct (q + 1 <? t_nrows g x c); [apply goto_st|apply toggle_ok_st].
      + destruct (q =? 0); [apply toggle_fail_st|apply goto_st].
    - intros q rs He. mstep_tac. fold h. rewrite (row_set_bf l h rows rs _ Hbf), He, N.eqb_refl. cbn [fst].
      rewrite (wr_row_st P t _ H _ h _ _ rs) by (eapply bf_set_bf; eauto). rewrite set_bf_set_bf.
      destruct (q =? 0); [apply toggle_fail_st|apply goto_st].
  Qed.

  Lemma toggle_run c H l x rows :
    bf l (c_huge g c) = Some rows -> length rows = rows_nat g -> Forall (fun r => r < W64) rows ->
    ((6 < t_order g x c)%nat -> (nn (t_row g x c) + Nat.pow 2 (t_order g x c - 6) <= length rows)%nat) ->
    runs (st l P H t (TRun c (toggle_entry g x c)))
         (match bf_toggle g rows (tframe x c) (t_order g x c) (t_expected x) with
          | Some rows' => tok c H (set_bf l (c_huge g c) rows') x
          | None => tfail c H l x
          end).
  Proof.
    intros Hbf Hlen Hw Hbig. set (h := c_huge g c) in *.
    assert (Hr : (nn (t_row g x c) < length rows)%nat).
    { rewrite Hlen, <- trow_eq. pose proof (ROWS_pos g wf). pose proof (N.mod_lt (tframe x c / 64) ROWS ltac:(lia)) as Hm.
      rewrite (ROWS_nat g wf) in Hm at 2. unfold nn. lia. }
    destruct (nth_error rows (nn (t_row g x c))) as [e|] eqn:He; [|apply nth_error_None in He; lia].
    assert (Hrow : row l h (t_row g x c) = Some e). { unfold row. rewrite Hbf. exact He. }
    assert (He64 : e < W64). { eapply Forall_nth_error in Hw; eauto. }
    unfold toggle_entry.
    destruct (Nat.leb_spec (t_order g x c) 2) as [H2|H2].
    - (* TL / TC *)
      rewrite (bf_toggle_small x c rows e) by (auto; lia).
      eapply runs_st.
      { mstep_tac. fold h. rewrite Hrow.
        cbn [fst]. reflexivity. }
      destruct (toggle_f g x c e) as [v'|] eqn:Tf.
      + rewrite goto_st.
        eapply runs_st; [|apply runs_refl].
        mstep_tac. fold h. rewrite Hrow, Tf.
        rewrite N.eqb_refl. cbn [fst]. rewrite (wr_row_st P t _ H _ h _ _ rows) by assumption. apply toggle_ok_st.
      + rewrite toggle_fail_st. apply runs_refl.
    - destruct (Nat.leb_spec (t_order g x c) 6) as [H6|H6].
      + (* TN *)
        rewrite (bf_toggle_small x c rows e) by (auto; lia).
        eapply runs_st; [|apply runs_refl].
        mstep_tac. fold h. rewrite Hrow.
        rewrite (toggle_f_lane x c e He64).
        destruct (_ =? _); cbn [fst].
        * rewrite (wr_row_st P t _ H _ h _ _ rows) by assumption. apply toggle_ok_st.
        * apply toggle_fail_st.
      + (* TW / TU *)
        unfold bf_toggle. destruct (Nat.leb_spec (t_order g x c) 6); [lia|]. cbv zeta.
        rewrite trow_eq, toggle_rows_cas, <- nn_pow2. fold (t_nrows g x c).
        apply tw_run; auto. unfold t_nrows. rewrite nn_pow2. auto.
  Qed.
End Toggle.


Lemma dec_inc g e n e' v : e_dec e n = Some e' -> e_inc g e' n = Some v -> v = e.
Proof.
  unfold e_dec, e_inc, e_free. destruct (e_huge e); cbn [negb andb]; [discriminate|].
  destruct (N.leb_spec n e); [|discriminate]. intros E; inversion E; subst e'; clear E.
  destruct (e_huge (e - n)); cbn [negb andb]; [discriminate|].
  destruct (_ <=? _); [|discriminate]. intros E; inversion E. lia.
Qed.

Section Small.
  Variable g : geom.
  Hypothesis wf : wf_geom g.
  Variable P : list thr.
  Variable t : nat.
  Hypothesis Ht : (t < length P)%nat.
  Variable c0 : call.
  Local Notation runs := (runs g t c0).
  Local Notation Runs := (Runs g P t c0).
  Local Notation runs_st := (runs_st g P t Ht c0).
  Local Notation Runs_st := (Runs_st g P t Ht c0).
  Notation HF := (HF g).
  Notation TF := (TF g).
  Notation THUGE := (THUGE g).
  Notation ROWS := (ROWS g).

  (* the toggle entry on a missing bitfield *)
  Lemma toggle_nobf c H l x : bf l (c_huge g c) = None ->
    fst (mstep g (st l P H t (TRun c (toggle_entry g x c))) t c0) = st l P H t (TPanic (SIndex 7) c).
  Proof.
    intros Hbf. unfold toggle_entry.
    destruct (Nat.leb _ 2); [|destruct (Nat.leb _ 6)]; mstep_tac; unfold row; rewrite Hbf; apply crash_st.
  Qed.

  (* the rows of a multi-row toggle exist *)
  Lemma toggle_bound x c : c_frame c mod pow2 (c_order c) = 0 -> (c_order c < hord g)%nat ->
    (6 < t_order g x c)%nat -> (nn (t_row g x c) + Nat.pow 2 (t_order g x c - 6) <= rows_nat g)%nat.
  Proof.
    intros Hal Hk H6.
    assert (Hb : t_row g x c + pow2 (t_order g x c - 6) <= ROWS).
    { destruct x; cbn [t_order t_row] in *; try apply (small_rows7 g wf _ _ Hal Hk H6).
      rewrite (ROWS_pow2 g wf). lia. }
    rewrite (ROWS_nat g wf), pow2_of_nat in Hb. unfold nn. lia.
  Qed.

  Lemma get_at_small_call l H f k : Shape g l -> (k < hord g)%nat ->
    f mod pow2 k = 0 -> f + pow2 k <= frames l ->
    Runs (CGetAt f k) H (st l P H t (TRun (CGetAt f k) A1L)) (big g l (CGetAt f k)).
  Proof.
    intros Sh Hk Hal Hin. cbn [big]. set (c := CGetAt f k).
    assert (Hf : f < frames l) by (pose proof (pow2_pos k); lia).
    unfold lower_get_at. rewrite (shape_has_tree g l Sh f Hf). cbn [negb].
    destruct (Nat.leb_spec (hord g) k); [lia|]. cbv zeta.
    change (f / HF) with (c_huge g c). set (h := c_huge g c).
    destruct (ent l h) as [e|] eqn:He.
    2:{ eapply Runs_st; [|apply Runs_panic].
        mstep_tac. fold h. rewrite He. apply crash_st. }
    change (pow2 k) with (c_n c).
    destruct (e_dec e (c_n c)) as [e'|] eqn:Hd.
    2:{ eapply Runs_st; [|apply Runs_err].
        mstep_tac. fold h. rewrite He, Hd. cbn [fst]. apply finish_st. }
    eapply Runs_st.
    { mstep_tac. fold h. rewrite He, Hd. cbn [fst]. apply goto_st. }
    eapply Runs_st.
    { mstep_tac. fold h. rewrite He, Hd, N.eqb_refl. cbn [fst]. rewrite wr_ent_st. apply goto_st. }
    set (l1 := set_ent l h e').
    destruct (shape_bf g l Sh f Hf) as (rows & Hbf & Hlen & Hw). change (f / HF) with h in Hbf.
    rewrite Hbf.
    assert (Hbf1 : bf l1 (c_huge g c) = Some rows) by exact Hbf.
    eapply Runs_runs.
    { apply (toggle_run g wf P t Ht c0 c H l1 XGetAt rows Hbf1 Hlen Hw).
      intros H6. rewrite Hlen. apply toggle_bound; auto. }
    change (tframe XGetAt c) with f. change (t_order g XGetAt c) with k. change (t_expected XGetAt) with false.
    destruct (bf_toggle g rows f k false) as [rows'|].
    - cbn [tok]. cbv beta iota. apply Runs_ok.
    - cbn [tfail].
      assert (He1 : ent l1 h = Some e') by (eapply ent_set_ent; eauto).
      destruct (e_inc g e' (c_n c)) as [v|] eqn:Hi.
      2:{ eapply Runs_st; [|apply Runs_panic].
          mstep_tac. fold h. rewrite He1, Hi. cbn [fst]. apply crash_st. }
      eapply Runs_st.
      { mstep_tac. fold h. rewrite He1, Hi. cbn [fst]. apply goto_st. }
      eapply Runs_st; [|apply Runs_err].
      mstep_tac. fold h. rewrite He1, Hi, N.eqb_refl. cbn [fst]. rewrite wr_ent_st, finish_st.
      unfold l1. rewrite set_ent_set_ent, (dec_inc g e (c_n c) e' v Hd Hi), (set_ent_id l h e He). reflexivity.
  Qed.

  Definition putmap (rl : res unit * lower) : res N * lower :=
    match rl with (Ok _, l') => (Ok 0, l') | (Err e, l') => (Err e, l') | (Panic x, l') => (Panic x, l') end.

  Lemma put_small_run l H f k rows : (k < hord g)%nat -> f mod pow2 k = 0 ->
    bf l (f / HF) = Some rows -> rows_ok g rows ->
    Runs (CPut f k) H (st l P H t (TRun (CPut f k) (toggle_entry g XPut (CPut f k)))) (putmap (put_small g l f k)).
  Proof.
    intros Hk Hal Hbf (Hlen & Hw). set (c := CPut f k).
    change (f / HF) with (c_huge g c) in *. set (h := c_huge g c) in *.
    unfold put_small. change (f / HF) with h. rewrite Hbf.
    eapply Runs_runs.
    { apply (toggle_run g wf P t Ht c0 c H l XPut rows Hbf Hlen Hw).
      intros H6. rewrite Hlen. apply toggle_bound; auto. }
    change (tframe XPut c) with f. change (t_order g XPut c) with k. change (t_expected XPut) with true.
    destruct (bf_toggle g rows f k true) as [rows'|].
    2:{ cbn [tfail putmap]. apply Runs_err. }
    cbn [tok]. fold h. set (l1 := set_bf l h rows'). change (pow2 k) with (c_n c).
    destruct (ent l1 h) as [e|] eqn:He.
    2:{ eapply Runs_st; [|apply Runs_panic].
        mstep_tac. fold h. rewrite He. apply crash_st. }
    destruct (e_inc g e (c_n c)) as [v|] eqn:Hi.
    2:{ eapply Runs_st; [|apply Runs_panic].
        mstep_tac. fold h. rewrite He, Hi. cbn [fst]. apply crash_st. }
    eapply Runs_st.
    { mstep_tac. fold h. rewrite He, Hi. cbn [fst]. apply goto_st. }
    eapply Runs_st; [|apply Runs_ok].
    mstep_tac. fold h. rewrite He, Hi, N.eqb_refl. cbn [fst]. rewrite wr_ent_st. apply finish_st.
  Qed.

  Lemma split_rows_ok rows rows' : rows_ok g rows -> bf_toggle g rows 0 (hord g) false = Some rows' -> rows_ok g rows'.
  Proof.
    intros (Hlen & Hw). unfold bf_toggle. destruct (Nat.leb_spec (hord g) 6) as [H6|H6].
    - cbv zeta. unfold row_at. destruct (nth_error rows _) as [e|] eqn:He; [|discriminate].
      destruct (_ =? 0); [|discriminate]. intros E; inversion E; subst rows'; clear E. split.
      + rewrite upd_length. exact Hlen.
      + apply Forall_upd; auto.
        assert (hord g = 6)%nat as -> by (destruct wf; lia).
        change (mask64 (pow2 6) (0 mod 64)) with MAX64. rewrite W64_pow. apply lor_lt_pow2.
        * rewrite <- W64_pow. exact (Forall_nth_error (fun r => r < W64) rows _ e Hw He).
        * reflexivity.
    - cbv zeta. rewrite toggle_rows_cas. intros E. apply cas_all_inv in E. subst rows'. split.
      + rewrite fill_length. exact Hlen.
      + apply Forall_fill; auto. reflexivity.
  Qed.

  (* the bounded spin of partial_put_huge while the marker stays: RETRIES loads, then the panic *)
  Lemma pp3_run c H l old : ent l (c_huge g c) = Some old -> e_huge old = true ->
    forall n i, N.of_nat n + i = RETRIES -> (0 < n)%nat ->
    runs (st l P H t (TRun c (PP3 i))) (st l P H t (TPanic SExceedingRetries c)).
  Proof.
    intros He Hh. induction n; intros i Hn Hpos; [lia|].
    eapply runs_st. { mstep_tac. rewrite He, Hh. cbn [fst negb]. reflexivity. }
    destruct (N.ltb_spec (i + 1) RETRIES).
    - rewrite goto_st. apply IHn; lia.
    - rewrite crash_st. apply runs_refl.
  Qed.

  Lemma put_small_call l H f k : Shape g l -> (k < hord g)%nat ->
    f mod pow2 k = 0 -> f + pow2 k <= frames l ->
    Runs (CPut f k) H (st l P H t (TRun (CPut f k) P1)) (big g l (CPut f k)).
  Proof.
    intros Sh Hk Hal Hin. cbn [big]. fold (putmap (lower_put g l f k)). set (c := CPut f k).
    assert (Hf : f < frames l) by (pose proof (pow2_pos k); lia).
    unfold lower_put. rewrite (shape_has_tree g l Sh f Hf). cbn [negb].
    destruct (Nat.leb_spec (hord g) k); [lia|]. cbv zeta.
    destruct (shape_bf g l Sh f Hf) as (rows & Hbf & Hok).
    change (f / HF) with (c_huge g c) in *. set (h := c_huge g c) in *.
    destruct (ent l h) as [old|] eqn:He.
    2:{ eapply Runs_st; [|apply Runs_panic].
        mstep_tac. fold h. rewrite He. apply crash_st. }
    change (pow2 k) with (c_n c).
    eapply Runs_st.
    { mstep_tac. fold h. rewrite He. cbn [fst]. reflexivity. }
    destruct (e_huge old) eqn:Hh.
    - (* split the huge frame first *)
      rewrite goto_st. unfold partial_put_huge. change (f / HF) with h. rewrite Hbf.
      destruct Hok as (Hlen & Hw).
      eapply Runs_runs.
      { apply (toggle_run g wf P t Ht c0 c H l (XSplit old) rows Hbf Hlen Hw).
        intros H6. rewrite Hlen. apply toggle_bound; auto. }
      change (tframe (XSplit old) c) with 0. change (t_order g (XSplit old) c) with (hord g).
      change (t_expected (XSplit old)) with false.
      destruct (bf_toggle g rows 0 (hord g) false) as [rows'|] eqn:Tg.
      + cbn [tok]. fold h.
        eapply Runs_st.
        { mstep_tac. fold h. change (ent (set_bf l h rows') h) with (ent l h). rewrite He, N.eqb_refl. cbn [fst].
          rewrite wr_ent_st. apply goto_st. }
        apply (put_small_run _ H f k rows'); auto.
        * change (f / HF) with h. change (bf (set_ent (set_bf l h rows') h 0) h) with (bf (set_bf l h rows') h).
          eapply bf_set_bf; eauto.
        * eapply split_rows_ok; eauto. split; auto.
      + cbn [tfail putmap].
        eapply Runs_runs; [|apply Runs_panic].
        apply (pp3_run c H l old He Hh (nn RETRIES) 0); [reflexivity|cbv; lia].
    - destruct (e_free old + c_n c <=? HF).
      + rewrite goto_st. apply (put_small_run l H f k rows); auto.
      + rewrite finish_st. cbn [putmap]. apply Runs_err.
  Qed.
End Small.


Section GetSmall.
  Variable g : geom.
  Hypothesis wf : wf_geom g.
  Variable P : list thr.
  Variable t : nat.
  Hypothesis Ht : (t < length P)%nat.
  Variable c0 : call.
  Local Notation runs := (runs g t c0).
  Local Notation Runs := (Runs g P t c0).
  Local Notation runs_st := (runs_st g P t Ht c0).
  Local Notation Runs_st := (Runs_st g P t Ht c0).
  Notation HF := (HF g).
  Notation TF := (TF g).
  Notation THUGE := (THUGE g).
  Notation ROWS := (ROWS g).

  Variables (start : N) (k : nat).
  Hypothesis Hk : (k < hord g)%nat.
  Local Notation c := (CGet start k).
  Local Notation tstart := ((start * 64) / TF * THUGE).
  Local Notation co := (((start * 64) / HF) mod THUGE).
  Variable H : list (N * nat).

  Definition nchild (l : lower) (j : N) : mstate :=
    if j + 1 <? THUGE then st l P H t (TRun c (G1L (j + 1))) else fin c l P H t (Err EMemory).
  Lemma next_child_st l x j : next_child g (st l P H t x) t c j = nchild l j.
  Proof. unfold next_child, nchild. rewrite goto_st, finish_st. reflexivity. Qed.

  Lemma chunks_rows : (6 < k)%nat -> (Nat.pow 2 (hord g - k) * Nat.pow 2 (k - 6) = rows_nat g)%nat.
  Proof. intros H6. unfold rows_nat. rewrite <- Nat.pow_add_r. f_equal. lia. Qed.

  (* the row loop of `set_first_zeros`, order <= 6 *)
  Section Rows.
    Variables (l1 : lower) (j : N) (rows : list N).
    Local Notation h := (child_h g c j).
    Hypothesis Hbf : bf l1 h = Some rows.
    Hypothesis Hlen : length rows = rows_nat g.

    Lemma sfz_run : forall n i, N.of_nat n + i = ROWS -> (0 < n)%nat ->
      runs (st l1 P H t (TRun c (G2L j i)))
           (match sfz_loop g rows start k i n with
            | Some (rows', off) => fin c (set_bf l1 h rows') P H t (Ok (h * HF + off))
            | None => st l1 P H t (TRun c (G3L j))
            end).
    Proof.
      pose proof (ROWS_pos g wf) as HR.
      induction n; intros i Hn Hpos; [lia|]. cbn [sfz_loop].
      set (r := (i + start mod ROWS) mod ROWS).
      assert (Hr : (nn r < length rows)%nat).
      { rewrite Hlen. pose proof (N.mod_lt (i + start mod ROWS) ROWS ltac:(lia)) as Hm. fold r in Hm.
        rewrite (ROWS_nat g wf) in Hm. unfold nn. clear - Hm. remember (rows_nat g) as R. clear HeqR. lia. }
      unfold row_at. destruct (nth_error rows (nn r)) as [e|] eqn:He; [|apply nth_error_None in He; lia].
      assert (Hrow : row l1 h r = Some e) by (unfold row; rewrite Hbf; exact He).
      eapply runs_st.
      { mstep_tac. change (c_start c) with start. fold r. rewrite Hrow. cbn [fst]. reflexivity. }
      change (c_order c) with k.
      destruct (fza e k) as [[v off]|] eqn:Hf.
      - rewrite goto_st.
        eapply runs_st; [|apply runs_refl].
        mstep_tac. change (c_start c) with start. fold r. change (c_order c) with k. rewrite Hrow, Hf, N.eqb_refl. cbn [fst].
        rewrite (wr_row_st P t _ H _ h _ _ rows) by assumption. rewrite finish_st.
        rewrite N.add_assoc. reflexivity.
      - unfold next_row. destruct n.
        + destruct (N.ltb_spec (i + 1) ROWS); [lia|]. rewrite goto_st. cbn [sfz_loop]. apply runs_refl.
        + destruct (N.ltb_spec (i + 1) ROWS); [|lia]. rewrite goto_st. apply IHn; lia.
    Qed.

    (* the chunk loop of `set_first_zero_rows`, order > 6 *)
    Hypothesis H6 : (6 < k)%nat.
    Local Notation nr := (Nat.pow 2 (k - 6)).
    Local Notation nch := (Nat.pow 2 (hord g - k)).

    Lemma nr_pos : (0 < nr)%nat. Proof. apply Nat.neq_0_lt_0, Nat.pow_nonzero. discriminate. Qed.
    Lemma c_nr_nat : c_nr c = N.of_nat nr. Proof. apply pow2_of_nat. Qed.
    Lemma c_chunks_nat : c_chunks g c = N.of_nat nch.
    Proof.
      unfold c_chunks. rewrite c_nr_nat, (ROWS_nat g wf), <- (chunks_rows H6), of_nat_mul.
      apply N.div_mul. pose proof nr_pos. lia.
    Qed.

    Section Chunk.
      Variable ch : nat.
      Hypothesis Hch : (ch < nch)%nat.
      Lemma chunk_in : (ch * nr + nr <= length rows)%nat.
      Proof. rewrite Hlen, <- (chunks_rows H6). clear - Hch. remember nr as X. clear HeqX. remember nch as Y. clear HeqY. nia. Qed.

      Definition nchunk (l' : lower) : mstate :=
        if N.of_nat ch + 1 <? c_chunks g c then st l' P H t (TRun c (G2R j (N.of_nat ch + 1) 0)) else st l' P H t (TRun c (G3L j)).
      Lemma next_chunk_st l' x : next_chunk g (st l' P H t x) t c j (N.of_nat ch) = nchunk l'.
      Proof. unfold next_chunk, nchunk. rewrite !goto_st. reflexivity. Qed.

      (* the zero check of the chunk from row q on; at q = nr it has succeeded *)
      Lemma g2r_run : forall m q, (q + m = nr)%nat -> blk_is rows (ch * nr) q 0 ->
        runs (st l1 P H t (TRun c (if Nat.ltb q nr then G2R j (N.of_nat ch) (N.of_nat q) else G2W j (N.of_nat ch) 0)))
             (if forallb (fun v => v =? 0) (firstn nr (skipn (ch * nr) rows))
              then st l1 P H t (TRun c (G2W j (N.of_nat ch) 0)) else nchunk l1).
      Proof.
        pose proof chunk_in as Hin.
        induction m; intros q Hq Hb.
        - destruct (Nat.ltb_spec q nr); [lia|]. replace (forallb _ _) with true; [apply runs_refl|].
          symmetry. apply forallb_block; auto. intros i Hi. exists 0. split; [apply Hb; lia|reflexivity].
        - destruct (Nat.ltb_spec q nr); [|lia].
          destruct (nth_error rows (ch * nr + q)) as [e|] eqn:He; [|apply nth_error_None in He; lia].
          eapply runs_st.
          { mstep_tac. rewrite c_nr_nat. unfold row. rewrite Hbf, nn_mul_add, He. cbn [fst]. reflexivity. }
          destruct (N.eqb_spec e 0) as [->|Hne].
          + assert (Hb' : blk_is rows (ch * nr) (S q) 0).
            { intros i Hi. destruct (Nat.eq_dec i (ch * nr + q)) as [->|]; auto. apply Hb. lia. }
            specialize (IHm (S q) ltac:(lia) Hb'). rewrite ltb_succ_nat, Nat2N.id, of_nat_S_add.
            destruct (Nat.ltb (S q) nr); rewrite goto_st; exact IHm.
          + rewrite next_chunk_st. replace (forallb _ _) with false; [apply runs_refl|].
            symmetry. apply Bool.not_true_is_false. intros Hall.
            rewrite forallb_block in Hall by auto. destruct (Hall (ch * nr + q)%nat) as (v & Hv & Hz); [lia|].
            rewrite He in Hv. inversion Hv; subst v. apply N.eqb_eq in Hz. contradiction.
      Qed.

      (* filling the chunk is the multi-CAS loop on its rows *)
      Lemma g2w_run :
        runs (st l1 P H t (TRun c (G2W j (N.of_nat ch) 0)))
             (match cas_all rows (ch * nr) nr 0 MAX64 with
              | Some rs => fin c (set_bf l1 h rs) P H t (Ok (h * HF + N.of_nat (ch * nr) * 64))
              | None => nchunk l1
              end).
      Proof.
        pose proof chunk_in as Hin.
        cut (runs (st (set_bf l1 h rows) P H t (TRun c (G2W j (N.of_nat ch) 0)))
               (match cas_all rows (nn (N.of_nat ch * c_nr c)) (nn (c_nr c)) 0 MAX64 with
                | Some rs => fin c (set_bf l1 h rs) P H t (Ok (h * HF + N.of_nat ch * c_nr c * 64))
                | None => nchunk (set_bf l1 h rows)
                end)).
        { rewrite (set_bf_id l1 h rows Hbf), c_nr_nat, <- of_nat_mul. unfold nn. rewrite !Nat2N.id. auto. }
        apply (mcn_run g P t Ht c0 c H (set_bf l1 h) (G2W j (N.of_nat ch)) (G2U j (N.of_nat ch))
                 (fun l' => fin c l' P H t (Ok (h * HF + N.of_nat ch * c_nr c * 64))) nchunk
                 (N.of_nat ch * c_nr c) (c_nr c) 0 MAX64).
        - intros q rs e He. mstep_tac. rewrite (row_set_bf l1 h rows rs _ Hbf), He.
          destruct (e =? 0); cbn [fst].
          + rewrite (wr_row_st P t _ H _ h _ _ rs) by (eapply bf_set_bf; eauto). rewrite set_bf_set_bf.
            destruct (q + 1 <? c_nr c); [apply goto_st|apply finish_st].
          + destruct (q =? 0); [apply next_chunk_st|apply goto_st].
        - intros q rs He. mstep_tac. rewrite (row_set_bf l1 h rows rs _ Hbf), He, N.eqb_refl. cbn [fst].
          rewrite (wr_row_st P t _ H _ h _ _ rs) by (eapply bf_set_bf; eauto). rewrite set_bf_set_bf.
          destruct (q =? 0); [apply next_chunk_st|apply goto_st].
        - rewrite c_nr_nat. unfold nn. lia.
        - apply pow2_pos.
      Qed.
    End Chunk.

    Lemma sfzr_run : forall n ch, (n + ch = nch)%nat -> (0 < n)%nat ->
      runs (st l1 P H t (TRun c (G2R j (N.of_nat ch) 0)))
           (match sfzr_loop rows nr ch n with
            | Some (rows', off) => fin c (set_bf l1 h rows') P H t (Ok (h * HF + off))
            | None => st l1 P H t (TRun c (G3L j))
            end).
    Proof.
      pose proof nr_pos as Hnr.
      induction n; intros ch Hn Hpos; [lia|]. cbn [sfzr_loop].
      assert (Hch : (ch < nch)%nat) by lia.
      eapply runs_trans.
      { pose proof (g2r_run ch Hch nr O ltac:(lia)) as G. rewrite (proj2 (Nat.ltb_lt 0 nr) Hnr) in G.
        apply G. intros i Hi. lia. }
      destruct (forallb (fun v => v =? 0) (firstn nr (skipn (ch * nr) rows))) eqn:Hall.
      - assert (Hb : blk_is rows (ch * nr) nr 0).
        { intros i Hi. rewrite forallb_block in Hall by (apply chunk_in; auto).
          destruct (Hall i Hi) as (v & Hv & Hz). apply N.eqb_eq in Hz. congruence. }
        eapply runs_trans; [apply (g2w_run ch Hch)|].
        rewrite toggle_rows_cas, (cas_all_fill rows (ch * nr) nr 0 MAX64 Hb). apply runs_refl.
      - unfold nchunk. rewrite c_chunks_nat. destruct n.
        + destruct (N.ltb_spec (N.of_nat ch + 1) (N.of_nat nch)); [lia|]. cbn [sfzr_loop]. apply runs_refl.
        + destruct (N.ltb_spec (N.of_nat ch + 1) (N.of_nat nch)); [|lia]. rewrite of_nat_S_add. apply IHn; lia.
    Qed.
  End Rows.

  Lemma sfzr_chunks (rows : list N) : length rows = rows_nat g -> (6 < k)%nat ->
    (Nat.div (length rows) (Nat.pow 2 (k - 6)) + (if Nat.eqb (Nat.modulo (length rows) (Nat.pow 2 (k - 6))) 0 then 0 else 1)
     = Nat.pow 2 (hord g - k))%nat.
  Proof.
    intros Hlen H6. rewrite Hlen, <- (chunks_rows H6).
    assert (Hp : (Nat.pow 2 (k - 6) <> 0)%nat) by (apply Nat.pow_nonzero; discriminate).
    rewrite Nat.div_mul, Nat.mod_mul by auto. cbn [Nat.eqb]. lia.
  Qed.

  Lemma get_small_run l :
    (forall h rows, bf l h = Some rows -> length rows = rows_nat g) ->
    forall n j, N.of_nat n + j = THUGE -> (0 < n)%nat ->
    Runs c H (st l P H t (TRun c (G1L j))) (get_small_loop g l tstart co start k j n).
  Proof.
    intros Hrows. induction n; intros j Hn Hpos; [lia|]. cbn [get_small_loop].
    change (tstart + (co + j) mod THUGE) with (child_h g c j). set (h := child_h g c j).
    assert (Hnext : Runs c H (nchild l j) (get_small_loop g l tstart co start k (j + 1) n)).
    { unfold nchild. destruct n.
      - destruct (N.ltb_spec (j + 1) THUGE); [lia|]. cbn [get_small_loop]. apply Runs_err.
      - destruct (N.ltb_spec (j + 1) THUGE); [|lia]. apply IHn; lia. }
    destruct (ent l h) as [e|] eqn:He.
    2:{ eapply Runs_st; [|apply Runs_panic].
        mstep_tac. fold h. rewrite He. apply crash_st. }
    change (pow2 k) with (c_n c).
    destruct (e_dec e (c_n c)) as [e'|] eqn:Hd.
    2:{ eapply Runs_st; [|exact Hnext].
        mstep_tac. fold h. rewrite He, Hd. cbn [fst]. apply next_child_st. }
    eapply Runs_st.
    { mstep_tac. fold h. rewrite He, Hd. cbn [fst]. apply goto_st. }
    eapply Runs_st.
    { mstep_tac. fold h. rewrite He, Hd, N.eqb_refl. cbn [fst]. rewrite wr_ent_st. apply goto_st. }
    set (l1 := set_ent l h e'). change (c_order c) with k.
    assert (He1 : ent l1 h = Some e') by (eapply ent_set_ent; eauto).
    (* after a failed search: undo *)
    assert (Hundo : Runs c H (st l1 P H t (TRun c (G3L j)))
                      (match e_inc g e' (c_n c) with
                       | Some _ => get_small_loop g l tstart co start k (j + 1) n
                       | None => (Panic SUndoFailed, l)
                       end)).
    { destruct (e_inc g e' (c_n c)) as [v|] eqn:Hi.
      2:{ eapply Runs_st; [|apply Runs_panic].
          mstep_tac. fold h. rewrite He1, Hi. cbn [fst]. apply crash_st. }
      eapply Runs_st.
      { mstep_tac. fold h. rewrite He1, Hi. cbn [fst]. apply goto_st. }
      eapply Runs_st; [|exact Hnext].
      mstep_tac. fold h. rewrite He1, Hi, N.eqb_refl. cbn [fst]. rewrite wr_ent_st, next_child_st.
      unfold l1. rewrite set_ent_set_ent, (dec_inc g e (c_n c) e' v Hd Hi), (set_ent_id l h e He). reflexivity. }
    destruct (bf l h) as [rows|] eqn:Hbf.
    2:{ assert (Hrow : forall r, row l1 h r = None) by (intros r; unfold row; change (bf l1 h) with (bf l h); rewrite Hbf; reflexivity).
        eapply Runs_st; [|apply Runs_panic].
        destruct (Nat.leb k 6); mstep_tac; fold h; rewrite Hrow; apply crash_st. }
    assert (Hbf1 : bf l1 h = Some rows) by exact Hbf.
    pose proof (Hrows h rows Hbf) as Hlen.
    unfold bf_set_first_zeros. destruct (Nat.leb_spec k 6) as [H6|H6].
    - eapply Runs_runs.
      { apply (sfz_run l1 j rows Hbf1 Hlen (length rows) 0).
        - rewrite Hlen, <- (ROWS_nat g wf). lia.
        - rewrite Hlen. unfold rows_nat. apply Nat.neq_0_lt_0, Nat.pow_nonzero. discriminate. }
      fold h. destruct (sfz_loop g rows start k 0 (length rows)) as [[rows' off]|].
      + apply Runs_ok.
      + exact Hundo.
    - cbv zeta. rewrite (sfzr_chunks rows Hlen H6).
      eapply Runs_runs.
      { apply (sfzr_run l1 j rows Hbf1 Hlen H6 (Nat.pow 2 (hord g - k)) O).
        - lia.
        - apply Nat.neq_0_lt_0, Nat.pow_nonzero. discriminate. }
      fold h. destruct (sfzr_loop rows (Nat.pow 2 (k - 6)) 0 (Nat.pow 2 (hord g - k))) as [[rows' off]|].
      + apply Runs_ok.
      + exact Hundo.
  Qed.

  Lemma get_small_call l : Shape g l -> has_tree g l ((start * 64) / TF) = true ->
    Runs c H (st l P H t (TRun c (G1L 0))) (big g l c).
  Proof.
    intros Sh Htree. cbn [big]. unfold lower_get. rewrite Htree. cbn [negb].
    destruct (Nat.leb_spec (hord g) k); [lia|]. cbv zeta.
    apply get_small_run.
    - intros h rows Hbf. destruct Sh as (_ & _ & Hr). unfold bf in Hbf.
      destruct (Forall_nth_error _ _ _ _ Hr Hbf) as (Hlen & _). exact Hlen.
    - rewrite (THUGE_nat g). lia.
    - unfold thuge_nat. apply Nat.neq_0_lt_0, Nat.pow_nonzero. discriminate.
  Qed.
End GetSmall.


Lemma runs_solo g t c0 s s' : runs g t c0 s s' ->
  (exists c p, nth_error (ms_pool s) t = Some (TRun c p)) ->
  (forall c p, nth_error (ms_pool s') t <> Some (TRun c p)) ->
  exists n, solo_fuel g n s t c0 = s'.
Proof.
  induction 1 as [s|s c p s' E R IH]; intros (c1 & p1 & E1) Hn.
  - exfalso. eapply Hn; eauto.
  - destruct (nth_error (ms_pool (fst (mstep g s t c0))) t) as [[r|c2 p2|x c2]|] eqn:E2.
    + exists 1%nat. cbn [solo_fuel]. rewrite E2. inversion R; subst; auto. congruence.
    + destruct IH as (n & Hn'); eauto. exists (S n). cbn [solo_fuel]. rewrite E2. exact Hn'.
    + exists 1%nat. cbn [solo_fuel]. rewrite E2. inversion R; subst; auto. congruence.
    + exists 1%nat. cbn [solo_fuel]. rewrite E2. inversion R; subst; auto. congruence.
Qed.

(* what the solo run of call c reaches: (r, l') is the big-step result, H the client's blocks when the call starts
   (for a put: after the block was taken out) 
   This is SoloRunLemmas.Post with the pool and the thread as arguments. *)
Definition solo_post (c : call) (P : list thr) (H : list (N * nat)) (t : nat) (rl : res N * lower) (s' : mstate) : Prop :=
  match fst rl with
  | Panic x => ms_pool s' = upd P t (TPanic x c)
  | r => s' = fin c (snd rl) P H t r
  end.

Lemma call_entry g (wf : wf_geom g) P t (Ht : (t < length P)%nat) c0 l H c : Shape g l -> call_ok g (mk l P H) c = true ->
  Runs g P t c0 c H (st l P H t (TRun c (entry_pc g c))) (big g l c).
Proof.
  intros Sh Hok. change (cwf g (frames l) c = true) in Hok.
  pose proof Hok as Hc. unfold cwf in Hc. apply Bool.andb_true_iff in Hc. destruct Hc as (_ & Hc).
  destruct c as [start k|f k|f k]; cbn [entry_pc]; destruct (Nat.leb_spec (hord g) k).
  - apply get_huge_call; auto.
  - apply N.ltb_lt in Hc. apply get_small_call; auto. apply (shape_has_tree_idx g l Sh _ Hc).
  - apply huge_at_call; auto.
  - apply get_at_small_call; auto; lia.
  - apply huge_at_call; auto.
  - apply put_small_call; auto; lia.
Qed.

Lemma nth_upd_not_run P t x c p : (t < length P)%nat -> (forall c' p', x <> TRun c' p') ->
  nth_error (upd P t x) t <> Some (TRun c p).
Proof. intros Ht Hx. rewrite nth_error_upd_same by exact Ht. intros E. inversion E. eapply Hx; eauto. Qed.

(* one call alone on the machine is the big-step function *)
Theorem solo_call g l P H H' t last c :
  wf_geom g -> Shape g l -> nth_error P t = Some (TIdle last) -> call_ok g (mk l P H) c = true ->
  match c with CPut f k => client_take H f k = Some H' | _ => H' = H end ->
  exists fuel, solo_post c P H' t (big g l c) (solo_fuel g fuel (mk l P H) t c).
Proof.
  intros wf Sh Ept Hok Hh. pose proof (nth_error_some_lt _ _ _ Ept) as Ht.
  destruct (call_entry g wf P t Ht c l H' c Sh) as (s' & R & Q).
  { (* call_ok reads only ms_frames, so H or H' makes no difference *) unfold call_ok in *. exact Hok. }
  assert (E1 : fst (mstep g (mk l P H) t c) = st l P H' t (TRun c (entry_pc g c))).
  { unfold mstep. cbn [ms_pool mk]. rewrite Ept, Hok.
    destruct c as [start k|f k|f k]; try (subst H'; reflexivity).
    cbn [ms_held mk]. rewrite Hh. reflexivity. }
  destruct (runs_solo g t c _ s' R) as (n & Hn).
  { do 2 eexists. apply (pool_st _ _ Ht). }
  { intros c1 p1. unfold Post in Q. destruct (fst (big g l c)).
    - subst s'. unfold fin, st, mk. cbn [ms_pool]. apply nth_upd_not_run; auto. discriminate.
    - subst s'. unfold fin, st, mk. cbn [ms_pool]. apply nth_upd_not_run; auto. discriminate.
    - rewrite Q. apply nth_upd_not_run; auto. discriminate. }
  exists (S n). cbn [solo_fuel]. rewrite E1. rewrite (pool_st _ _ Ht). rewrite Hn. exact Q.
Qed.

Theorem solo_get g l P H t last start k :
  wf_geom g -> Shape g l -> (k <= tord g)%nat -> (start * 64) / TF g < ntab g (frames l) ->
  nth_error P t = Some (TIdle last) ->
  exists fuel, let s' := solo_fuel g fuel (mk l P H) t (CGet start k) in
    match lower_get g l start k with
    | (Ok f, l') => s' = mk l' (upd P t (TIdle (Some (Ok f)))) ((f, k) :: H)
    | (Err e, l') => s' = mk l' (upd P t (TIdle (Some (Err e)))) H
    | (Panic x, _) => ms_pool s' = upd P t (TPanic x (CGet start k))
    end.
Proof.
  intros wf Sh Hk Hs Ept.
  destruct (solo_call g l P H H t last (CGet start k) wf Sh Ept) as (fuel & Q); auto.
  { unfold call_ok. cbn [c_order ms_frames mk]. lia. }
  exists fuel. unfold solo_post in Q. cbn [big] in Q. cbv zeta.
  destruct (lower_get g l start k) as [[f|e|x] l']; exact Q.
Qed.

Theorem solo_get_at g l P H t last f k :
  wf_geom g -> Shape g l -> (k <= tord g)%nat -> f mod pow2 k = 0 -> f + pow2 k <= frames l ->
  nth_error P t = Some (TIdle last) ->
  exists fuel, let s' := solo_fuel g fuel (mk l P H) t (CGetAt f k) in
    match lower_get_at g l f k with
    | (Ok _, l') => s' = mk l' (upd P t (TIdle (Some (Ok f)))) ((f, k) :: H)
    | (Err e, l') => s' = mk l' (upd P t (TIdle (Some (Err e)))) H
    | (Panic x, _) => ms_pool s' = upd P t (TPanic x (CGetAt f k))
    end.
Proof.
  intros wf Sh Hk Ha Hi Ept.
  destruct (solo_call g l P H H t last (CGetAt f k) wf Sh Ept) as (fuel & Q); auto.
  { unfold call_ok. cbn [c_order ms_frames mk]. lia. }
  exists fuel. unfold solo_post in Q. cbn [big] in Q. cbv zeta.
  destruct (lower_get_at g l f k) as [[u|e|x] l']; exact Q.
Qed.

Theorem solo_put g l P H H' t last f k :
  wf_geom g -> Shape g l -> (k <= tord g)%nat -> f mod pow2 k = 0 -> f + pow2 k <= frames l ->
  client_take H f k = Some H' ->
  nth_error P t = Some (TIdle last) ->
  exists fuel, let s' := solo_fuel g fuel (mk l P H) t (CPut f k) in
    match lower_put g l f k with
    | (Ok _, l') => s' = mk l' (upd P t (TIdle (Some (Ok 0)))) H'
    | (Err e, l') => s' = mk l' (upd P t (TIdle (Some (Err e)))) H'
    | (Panic x, _) => ms_pool s' = upd P t (TPanic x (CPut f k))
    end.
Proof.
  intros wf Sh Hk Ha Hi Hc Ept.
  destruct (solo_call g l P H H' t last (CPut f k) wf Sh Ept) as (fuel & Q); auto.
  { unfold call_ok. cbn [c_order ms_frames mk]. lia. }
  exists fuel. unfold solo_post in Q. cbn [big] in Q. cbv zeta.
  destruct (lower_put g l f k) as [[u|e|x] l']; exact Q.
Qed.

(* memory, the thread's result and the client's blocks, for a non-panicking big-step outcome *)
Lemma lower_of_mk l P H : lower_of (mk l P H) = l. Proof. destruct l; reflexivity. Qed.

Lemma solo_call_inv g l P H H' t last c :
  wf_geom g -> LowerInv g l -> nth_error P t = Some (TIdle last) -> call_ok g (mk l P H) c = true ->
  match c with CPut f k => client_take H f k = Some H' | _ => H' = H end ->
  (forall x, fst (big g l c) <> Panic x) ->
  exists fuel, let s' := solo_fuel g fuel (mk l P H) t c in
    lower_of s' = snd (big g l c) /\
    nth_error (ms_pool s') t = Some (TIdle (Some (fst (big g l c)))) /\
    ms_held s' = match fst (big g l c) with
                 | Ok f => match c with CPut _ _ => H' | _ => (f, c_order c) :: H' end
                 | _ => H'
                 end.
Proof.
  intros wf Inv Ept Hok Hh Hnp. pose proof (nth_error_some_lt _ _ _ Ept) as Ht.
  destruct (solo_call g l P H H' t last c wf (LowerInv_Shape g l Inv) Ept Hok Hh) as (fuel & Q).
  exists fuel. cbv zeta. unfold solo_post in Q. destruct (big g l c) as [[f|e|x] l']; cbn [fst snd] in *.
  3: exfalso; eapply Hnp; eauto.
  all: rewrite Q; unfold fin, st; rewrite lower_of_mk; cbn [ms_pool ms_held mk];
    rewrite nth_error_upd_same by exact Ht; destruct c; auto.
Qed.

Corollary solo_get_inv g l P H t last start k :
  wf_geom g -> LowerInv g l -> (k <= tord g)%nat -> (start * 64) / TF g < ntab g (frames l) ->
  nth_error P t = Some (TIdle last) ->
  (forall x, fst (lower_get g l start k) <> Panic x) ->
  exists fuel, let s' := solo_fuel g fuel (mk l P H) t (CGet start k) in
    lower_of s' = snd (lower_get g l start k) /\
    nth_error (ms_pool s') t = Some (TIdle (Some (fst (lower_get g l start k)))) /\
    ms_held s' = match fst (lower_get g l start k) with Ok f => (f, k) :: H | _ => H end.
Proof.
  intros wf Inv Hk Hs Ept Hnp. apply (solo_call_inv g l P H H t last (CGet start k)); auto.
  unfold call_ok. cbn [c_order ms_frames mk]. lia.
Qed.


Corollary solo_get_at_inv g l P H t last f k :
  wf_geom g -> LowerInv g l -> (k <= tord g)%nat -> f mod pow2 k = 0 -> f + pow2 k <= frames l ->
  nth_error P t = Some (TIdle last) ->
  (forall x, fst (lower_get_at g l f k) <> Panic x) ->
  exists fuel, let s' := solo_fuel g fuel (mk l P H) t (CGetAt f k) in
    lower_of s' = snd (lower_get_at g l f k) /\
    nth_error (ms_pool s') t =
      Some (TIdle (Some (match fst (lower_get_at g l f k) with Ok _ => Ok f | Err e => Err e | Panic x => Panic x end))) /\
    ms_held s' = match fst (lower_get_at g l f k) with Ok _ => (f, k) :: H | _ => H end.
Proof.
  intros wf Inv Hk Ha Hi Ept Hnp.
  destruct (solo_call_inv g l P H H t last (CGetAt f k) wf Inv Ept) as (fuel & Q); auto.
  { unfold call_ok. cbn [c_order ms_frames mk]. lia. }
  { intros x. specialize (Hnp x). cbn [big]. destruct (lower_get_at g l f k) as [[u|e|y] l']; cbn [fst] in *; congruence. }
  exists fuel. cbv zeta in *. cbn [big] in Q. destruct (lower_get_at g l f k) as [[u|e|x] l']; exact Q.
Qed.

Corollary solo_put_inv g l P H H' t last f k :
  wf_geom g -> LowerInv g l -> (k <= tord g)%nat -> f mod pow2 k = 0 -> f + pow2 k <= frames l ->
  client_take H f k = Some H' ->
  nth_error P t = Some (TIdle last) ->
  (forall x, fst (lower_put g l f k) <> Panic x) ->
  exists fuel, let s' := solo_fuel g fuel (mk l P H) t (CPut f k) in
    lower_of s' = snd (lower_put g l f k) /\
    nth_error (ms_pool s') t =
      Some (TIdle (Some (match fst (lower_put g l f k) with Ok _ => Ok 0 | Err e => Err e | Panic x => Panic x end))) /\
    ms_held s' = H'.
Proof.
  intros wf Inv Hk Ha Hi Hc Ept Hnp.
  destruct (solo_call_inv g l P H H' t last (CPut f k) wf Inv Ept) as (fuel & Q); auto.
  { unfold call_ok. cbn [c_order ms_frames mk]. lia. }
  { intros x. specialize (Hnp x). cbn [big]. destruct (lower_put g l f k) as [[u|e|y] l']; cbn [fst] in *; congruence. }
  exists fuel. cbv zeta in *. cbn [big] in Q. destruct (lower_put g l f k) as [[u|e|x] l']; exact Q.
Qed.

(* executable cross-check of the two descriptions (non-vacuity, regression) *)
Definition list_eqb {A} (e : A -> A -> bool) := fix go (a b : list A) : bool :=
  match a, b with [], [] => true | x :: a', y :: b' => e x y && go a' b' | _, _ => false end.
Definition lower_eqb (a b : lower) : bool :=
  (frames a =? frames b) && list_eqb N.eqb (ents a) (ents b) && list_eqb (list_eqb N.eqb) (bfs a) (bfs b).
Definition held_eqb := list_eqb (fun (a b : N * nat) => (fst a =? fst b) && Nat.eqb (snd a) (snd b)).
Definition site_eqb (a b : site) : bool :=
  match a, b with
  | SIndex n, SIndex m | SArith n, SArith m | SValidate n, SValidate m | SField n, SField m => n =? m
  | SUndoFailedAll, SUndoFailedAll | SFailedUndoToggle, SFailedUndoToggle | SFailedUndoSearch, SFailedUndoSearch
  | SRowOrder, SRowOrder | SSetCrosses, SSetCrosses | SUndoFailed, SUndoFailed | SUndoUnwrap, SUndoUnwrap
  | SIsFreeAssert, SIsFreeAssert | SSplitLast, SSplitLast | SReserveAllSub, SReserveAllSub | SIncFailed, SIncFailed
  | SFailedPartialClear, SFailedPartialClear | SExceedingRetries, SExceedingRetries
  | SUnreserveFailed, SUnreserveFailed | STreeFree, STreeFree | SUnreserveClass, SUnreserveClass
  | SLocalFree, SLocalFree | SInvalidClass, SInvalidClass | SNoLocals, SNoLocals => true
  | _, _ => false
  end.
Definition err_eqb (a b : error) : bool :=
  match a, b with EMemory, EMemory | EArgument, EArgument | EInit, EInit => true | _, _ => false end.

(* thread 1 of 3 runs call c alone on memory l; the client holds `H` (plus the block to be freed) *)
Definition solo_agrees_h (g : geom) (l : lower) (H : list (N * nat)) (c : call) (fuel : nat) : bool :=
  let P := [TIdle None; TIdle (Some (Ok 7)); TPanic SRowOrder c] in
  let s' := solo_fuel g fuel (mk l P H) 1 c in
  let H1 := match c with CPut f k => match client_take H f k with Some h => h | None => H end | _ => H end in
  match big g l c, ms_pool s' with
  | (Panic x, _), [TIdle None; TPanic y c'; TPanic SRowOrder _] => site_eqb x y
  | (Ok f, l'), [TIdle None; TIdle (Some (Ok f')); TPanic SRowOrder _] =>
      (f =? f') && lower_eqb (lower_of s') l' &&
      held_eqb (ms_held s') (match c with CPut _ _ => H1 | _ => (f, c_order c) :: H1 end)
  | (Err e, l'), [TIdle None; TIdle (Some (Err e')); TPanic SRowOrder _] =>
      err_eqb e e' && lower_eqb (lower_of s') l' && held_eqb (ms_held s') H1
  | _, _ => false
  end.
Definition solo_agrees g l c fuel :=
  solo_agrees_h g l (match c with CPut f k => [(3, 0%nat); (f, k)] | _ => [(3, 0%nat)] end) c fuel.

Definition g0 := {| hord := 9; tlog := 2 |}.
Definition L0 := free_all g0 5000.
Definition after (l : lower) (cs : list call) : lower := fold_left (fun l c => snd (big g0 l c)) cs l.

Definition tests : list (lower * call) :=
  [ (L0, CGet 0 0); (L0, CGet 3 1); (L0, CGet 9 2); (L0, CGet 17 3); (L0, CGet 17 4); (L0, CGet 33 5); (L0, CGet 40 6);
    (L0, CGet 0 7); (L0, CGet 20 8); (L0, CGet 20 9); (L0, CGet 20 10); (L0, CGet 20 11); (L0, CGet 70 9);
    (L0, CGetAt 0 0); (L0, CGetAt 64 6); (L0, CGetAt 1024 9); (L0, CGetAt 2048 11); (L0, CGetAt 4096 9); (L0, CGetAt 4992 3);
    (L0, CGetAt 128 7); (L0, CGetAt 256 8); (L0, CPut 0 0); (L0, CPut 1024 9);
    (after L0 [CGet 0 0], CGet 0 0); (after L0 [CGet 0 0], CPut 0 0); (after L0 [CGet 0 0], CGetAt 0 0);
    (after L0 [CGet 0 3], CPut 0 3);  (after L0 [CGet 0 3], CPut 4 2); (after L0 [CGet 0 3], CPut 8 3);
    (after L0 [CGet 0 7], CPut 0 7); (after L0 [CGet 0 7], CPut 64 6); (after L0 [CGet 0 7], CGet 0 7); (after L0 [CGet 0 7], CGetAt 0 8);
    (after L0 [CGet 0 7], CGetAt 0 7); (after L0 [CGet 0 7;CGet 0 6], CGet 0 8);
    (after L0 [CGet 0 9], CPut 0 9); (after L0 [CGet 0 9], CPut 0 0); (after L0 [CGet 0 9], CPut 17 0); (after L0 [CGet 0 9], CPut 64 6);
    (after L0 [CGet 0 9], CPut 256 8); (after L0 [CGet 0 9], CGet 0 9); (after L0 [CGet 0 9], CGet 0 10); (after L0 [CGet 0 9], CGet 0 3);
    (after L0 [CGet 0 10], CPut 0 10); (after L0 [CGet 0 10], CPut 512 9); (after L0 [CGet 0 10], CPut 0 11);
    (after L0 [CGet 0 11], CGet 0 9); (after L0 [CGet 0 11], CGet 0 0); (after L0 [CGet 0 11], CPut 0 11);
    (after L0 [CGet 0 9; CGet 0 9; CGet 0 9; CGet 0 9], CGet 0 9); (after L0 [CGet 0 9; CGet 0 9; CGet 0 9; CGet 0 9], CGet 0 2);
    (after L0 [CGet 70 9; CGet 70 9], CGet 70 0); (after L0 [CGet 70 9; CGet 70 9], CGet 70 9); (after L0 [CGet 70 9; CGet 70 9], CGet 70 10);
    (* states outside LowerInv (inside Shape): the panics of the two descriptions coincide *)
    (set_ent (after L0 [CGet 0 0]) 0 MARK, CPut 0 0);                                   (* SExceedingRetries *)
    (set_ent (after L0 [CGet 0 7]) 0 MARK, CPut 64 6);                                  (* SExceedingRetries *)
    (set_ent (set_bf L0 0 (0 :: 0 :: 5 :: repeat 0 5)) 0 MARK, CPut 0 0);               (* SExceedingRetries after TW/TU rollback *)
    (set_bf (set_ent L0 0 600) 0 (repeat MAX64 8), CGet 0 0);                           (* SUndoFailed *)
    (set_bf (set_ent L0 0 600) 0 (repeat MAX64 8), CGet 0 7);                           (* SUndoFailed, chunk search *)
    (set_bf (set_ent L0 0 600) 0 (1 :: repeat 0 7), CGetAt 0 0);                        (* SUndoUnwrap *)
    (set_ent L0 10 5, CGet 80 0); (set_ent L0 10 300, CGet 80 8);                       (* SIndex 2: entry without bitfield *)
    (set_bf L0 0 (0 :: 0 :: 5 :: repeat 0 5), CGetAt 0 8);                              (* TW fails at row 2, TU rolls back *)
    (set_bf L0 0 (0 :: 0 :: 5 :: repeat 0 5), CGet 0 8);                                (* G2R skips the chunk *)
    (set_ent (set_ent L0 0 MARK) 1 MARK, CPut 0 10); (set_ent L0 0 MARK, CPut 0 10)     (* HC / HU *)
  ].

Definition solo_expected : list (res N) := Eval vm_compute in map (fun lc => fst (big g0 (fst lc) (snd lc))) tests.
Print solo_expected.

Example solo_agrees_tests : forallb (fun lc => solo_agrees g0 (fst lc) (snd lc) 200) tests = true.
Proof. vm_compute. reflexivity. Qed.

(* the test states satisfy the hypotheses of the theorems *)
Definition shapeb (g : geom) (l : lower) : bool :=
  Nat.eqb (length (bfs l)) (nn (nbf g (frames l))) && Nat.eqb (length (ents l)) (nn (ntab g (frames l) * THUGE g)) &&
  forallb (fun rows => Nat.eqb (length rows) (rows_nat g) && forallb (fun r => r <? W64) rows) (bfs l).
Example tests_shape : forallb (fun lc => shapeb g0 (fst lc) && call_ok g0 (mk (fst lc) [] []) (snd lc)) tests = true.
Proof. vm_compute. reflexivity. Qed.

Print Assumptions solo_call.
Print Assumptions solo_get.
Print Assumptions solo_get_at.
Print Assumptions solo_put.
Print Assumptions solo_get_inv.
Print Assumptions solo_get_at_inv.
Print Assumptions solo_put_inv.
Print Assumptions LowerInv_Shape.
