(* Facts about ordered policies: the four named policy hypotheses of UpperPrims.v (`pol_refl_match`,
   `pol_kind_indep`, `pol_demote_trans`, `pol_never_invalid`) hold for every policy that compares the class
   ids (requested > target: Steal, requested < target: Demote, equal: Match rated by the free count), in
   particular for the built-in policies of Policies.v (simple, movable, zeroed, zeroslot).
   The custom policy of the harness (with Invalid pairs) is not ordered; what it satisfies is stated last. *)
From Coq Require Import List NArith Bool Lia.
From LLF Require Import Base Row Bitfield Lower Upper UpperInvDef UpperPrims UpperGetProofs Policies.

Definition ordered_policy (m : N -> N) (r t f : N) : pol :=
  if t <? r then PSteal else if r <? t then PDemote else PMatch (m f).

Section Ordered.
  Variable m : N -> N.

  (* this `ordered_policy` is the one of UpperGetProofs.v, where the four facts are proved *)
  Lemma ordered_refl_match : pol_refl_match (ordered_policy m).
  Proof. exact (UpperGetProofs.ordered_refl_match m). Qed.

  Lemma ordered_kind_indep : pol_kind_indep (ordered_policy m).
  Proof. exact (UpperGetProofs.ordered_kind_indep m). Qed.

  Lemma ordered_demote_trans : pol_demote_trans (ordered_policy m).
  Proof. exact (UpperGetProofs.ordered_demote_trans m). Qed.

  Lemma ordered_never_invalid : pol_never_invalid (ordered_policy m).
  Proof. exact (UpperGetProofs.ordered_never_invalid m). Qed.

  (* the exact kind *)
  Lemma ordered_kind r t f :
    pol_kind (ordered_policy m r t f) = if t <? r then 2 else if r <? t then 1 else 0.
  Proof. unfold ordered_policy. destruct (t <? r), (r <? t); reflexivity. Qed.
End Ordered.

(* the four facts are extensional *)
Lemma pol_facts_ext (p q : N -> N -> N -> pol) :
  (forall r t f, p r t f = q r t f) ->
  pol_refl_match q /\ pol_kind_indep q /\ pol_demote_trans q /\ pol_never_invalid q ->
  pol_refl_match p /\ pol_kind_indep p /\ pol_demote_trans p /\ pol_never_invalid p.
Proof.
  intros E (A & B & C & D). repeat split.
  - intros c f. rewrite E. apply A.
  - intros r t f f'. rewrite !E. apply B.
  - intros a b c f f'. rewrite !E. apply C.
  - intros r t f. rewrite E. apply D.
Qed.

Lemma ordered_facts m :
  pol_refl_match (ordered_policy m) /\ pol_kind_indep (ordered_policy m) /\
  pol_demote_trans (ordered_policy m) /\ pol_never_invalid (ordered_policy m).
Proof.
  repeat split; [apply ordered_refl_match | apply ordered_kind_indep | apply ordered_demote_trans
                | apply ordered_never_invalid].
Qed.

(* the built-in policies are ordered policies *)
(* the rating of a same-class tree by its free count, as a number *)
Definition by_free_rank (TF low free : N) : N :=
  if TF / 2 <=? free then 1 else if TF / 64 <=? free then 255 else low.

Lemma pol_by_free_rank TF low free : pol_by_free TF low free = PMatch (by_free_rank TF low free).
Proof. unfold pol_by_free, by_free_rank. destruct (_ <=? _); [|destruct (_ <=? _)]; reflexivity. Qed.

Lemma pol_simple_ordered TF r t f : pol_simple TF r t f = ordered_policy (by_free_rank TF 0) r t f.
Proof. unfold pol_simple, ordered_policy. rewrite pol_by_free_rank. reflexivity. Qed.

Lemma pol_movable_ordered TF r t f : pol_movable TF r t f = ordered_policy (by_free_rank TF 2) r t f.
Proof. unfold pol_movable, ordered_policy. rewrite pol_by_free_rank. reflexivity. Qed.

Lemma pol_zeroed_ordered TF r t f : pol_zeroed TF r t f = ordered_policy (by_free_rank TF 0) r t f.
Proof. apply pol_simple_ordered. Qed.

Lemma pol_zeroslot_ordered TF r t f : pol_zeroslot TF r t f = ordered_policy (by_free_rank TF 0) r t f.
Proof. apply pol_simple_ordered. Qed.

Theorem pol_simple_facts TF :
  pol_refl_match (pol_simple TF) /\ pol_kind_indep (pol_simple TF) /\
  pol_demote_trans (pol_simple TF) /\ pol_never_invalid (pol_simple TF).
Proof. eapply pol_facts_ext; [apply pol_simple_ordered | apply ordered_facts]. Qed.

Theorem pol_movable_facts TF :
  pol_refl_match (pol_movable TF) /\ pol_kind_indep (pol_movable TF) /\
  pol_demote_trans (pol_movable TF) /\ pol_never_invalid (pol_movable TF).
Proof. eapply pol_facts_ext; [apply pol_movable_ordered | apply ordered_facts]. Qed.

Theorem pol_zeroed_facts TF :
  pol_refl_match (pol_zeroed TF) /\ pol_kind_indep (pol_zeroed TF) /\
  pol_demote_trans (pol_zeroed TF) /\ pol_never_invalid (pol_zeroed TF).
Proof. eapply pol_facts_ext; [apply pol_zeroed_ordered | apply ordered_facts]. Qed.

Theorem pol_zeroslot_facts TF :
  pol_refl_match (pol_zeroslot TF) /\ pol_kind_indep (pol_zeroslot TF) /\
  pol_demote_trans (pol_zeroslot TF) /\ pol_never_invalid (pol_zeroslot TF).
Proof. eapply pol_facts_ext; [apply pol_zeroslot_ordered | apply ordered_facts]. Qed.

(* `pol_select k` for k = 0..3 *)
Theorem pol_select_facts k TF : k < 4 ->
  pol_refl_match (pol_select k TF) /\ pol_kind_indep (pol_select k TF) /\
  pol_demote_trans (pol_select k TF) /\ pol_never_invalid (pol_select k TF).
Proof.
  intros H. destruct k as [|p]; [apply pol_simple_facts|].
  destruct p as [[|p|]|[p|p|]|]; try lia; cbn [pol_select];
    [apply pol_zeroslot_facts | apply pol_zeroed_facts | apply pol_movable_facts].
Qed.

(* the custom policy (Invalid for the pairs (0,2) and (2,0)) *)
(* it keeps reflexivity and kind independence; it is neither Invalid-free nor demote-transitive *)
Lemma pol_custom_refl_match TF : pol_refl_match (pol_custom TF).
Proof.
  intros c f. unfold pol_custom.
  destruct (N.eqb_spec c 0), (N.eqb_spec c 2); subst; try discriminate; cbn [andb orb];
    apply (proj1 (pol_simple_facts TF)).
Qed.

Lemma pol_custom_kind_indep TF : pol_kind_indep (pol_custom TF).
Proof.
  intros r t f f'. unfold pol_custom. destruct (_ || _); [reflexivity|].
  apply (proj1 (proj2 (pol_simple_facts TF))).
Qed.

Lemma pol_custom_invalid TF : pol_is_invalid (pol_custom TF 0 2 0) = true.
Proof. reflexivity. Qed.

Lemma pol_custom_not_demote_trans TF : ~ pol_demote_trans (pol_custom TF).
Proof.
  intros H. specialize (H 0 1 2 0 0). cbv in H. specialize (H eq_refl eq_refl). discriminate.
Qed.
