(* C16, part 2: the order in which `Trees::search_best` calls `access` (model: SearchBest.v).
   - search_order = perfect matches in walk order, then the retained candidates, best first;
   - the walk visits every index at most once when len <= ntrees, and exactly the indices
     0..ntrees-1 when offset = 0 and len = ntrees. *)
From LLF Require Import Base Sorted SortedProofs SearchBest.
From Coq Require Import ZArith Arith PeanoNat Sorting.Sorted Sorting.Permutation ZifyN ZifyBool.
Ltac Zify.zify_post_hook ::= Z.div_mod_to_equations.

(* the key order is a total preorder *)
Lemma skey_le_total a b : skey_le a b || skey_le b a = true.
Proof.
  destruct a as [a1 a2], b as [b1 b2]; unfold skey_le; cbn [fst snd].
  destruct (N.ltb_spec a1 b1), (N.ltb_spec b1 a1), (N.eqb_spec a1 b1), (N.eqb_spec b1 a1),
    a2, b2; cbn; auto; lia.
Qed.

Lemma skey_le_trans a b c : skey_le a b = true -> skey_le b c = true -> skey_le a c = true.
Proof.
  destruct a as [a1 a2], b as [b1 b2], c as [c1 c2]; unfold skey_le; cbn [fst snd].
  destruct (N.ltb_spec a1 b1), (N.ltb_spec b1 c1), (N.ltb_spec a1 c1),
    (N.eqb_spec a1 b1), (N.eqb_spec b1 c1), (N.eqb_spec a1 c1), a2, b2, c2; cbn; auto; lia.
Qed.

(* generic list facts *)
Lemma NoDup_map_in_inj {A B} (f : A -> B) l :
  (forall x y, In x l -> In y l -> f x = f y -> x = y) -> NoDup l -> NoDup (map f l).
Proof.
  induction l as [|a l IH]; intros Hinj Hnd; cbn [map]; [constructor|].
  inversion Hnd; subst. constructor.
  - intros Hin. apply in_map_iff in Hin. destruct Hin as (y & Hy & Hiny).
    assert (y = a) by (apply Hinj; cbn [In]; auto). subst; auto.
  - apply IH; auto. intros; apply Hinj; cbn [In]; auto.
Qed.

Lemma NoDup_filter_app {A} (p q : A -> bool) l :
  (forall x, p x = true -> q x = true -> False) -> NoDup l -> NoDup (filter p l ++ filter q l).
Proof.
  intros Hpq. induction 1 as [|a l Hnin Hnd IH]; cbn [filter app]; [constructor|].
  assert (Hn : ~ In a (filter p l ++ filter q l)).
  { intros Hin. apply in_app_or in Hin. destruct Hin as [Hin|Hin]; apply filter_In in Hin; tauto. }
  destruct (p a) eqn:Ep, (q a) eqn:Eq; try (exfalso; eapply Hpq; eassumption); cbn [app]; auto.
  - constructor; auto.
  - eapply Permutation_NoDup; [apply Permutation_middle|]. constructor; auto.
Qed.

Lemma NoDup_app_l {A} (l l' : list A) : NoDup (l ++ l') -> NoDup l.
Proof.
  induction l as [|a l IH]; cbn [app]; intros H; [constructor|].
  inversion H; subst. constructor; auto. intros Hin; apply H2, in_or_app; auto.
Qed.

(* the index walk *)
Lemma walk_off_spec i :
  (N.even i = true /\ 2 * walk_off i = Z.of_N i)%Z \/
  (N.even i = false /\ 2 * walk_off i = - Z.of_N i - 1)%Z.
Proof.
  unfold walk_off. destruct (N.even i) eqn:E; [left|right]; split; auto.
  - apply N.even_spec in E. destruct E as [k ->]. lia.
  - assert (Ho : N.odd i = true) by (unfold N.odd; rewrite E; reflexivity).
    apply N.odd_spec in Ho. destruct Ho as [k ->]. lia.
Qed.

(* within the machine range the index is the mathematical (start + ntrees + off) mod ntrees *)
Lemma walk_index_Z ntrees start i :
  0 < ntrees -> (0 <= Z.of_N (start + ntrees) + walk_off i < W64z)%Z ->
  Z.of_N (walk_index ntrees start i) = ((Z.of_N (start + ntrees) + walk_off i) mod Z.of_N ntrees)%Z.
Proof.
  intros Hn Hr. unfold walk_index.
  rewrite (Z.mod_small _ W64z) by exact Hr.
  rewrite Z2N.id; auto. apply Z.mod_pos_bound. lia.
Qed.

(* the two cases, on N: even steps go up from start, odd steps go down *)
Lemma walk_index_even ntrees start k :
  0 < ntrees -> start + ntrees + k < 2 ^ 64 ->
  walk_index ntrees start (2 * k) = (start + k) mod ntrees.
Proof.
  intros Hn Hhi. change (2 ^ 64) with 18446744073709551616 in Hhi.
  apply N2Z.inj.
  destruct (walk_off_spec (2 * k)) as [[_ H]|[E _]].
  - rewrite walk_index_Z; auto; [|unfold W64z; lia].
    rewrite N2Z.inj_mod. replace (Z.of_N (start + ntrees) + walk_off (2 * k))%Z
      with (Z.of_N (start + k) + 1 * Z.of_N ntrees)%Z by lia.
    apply Z.mod_add. lia.
  - rewrite N.even_mul in E. cbn in E. discriminate.
Qed.

Lemma walk_index_odd ntrees start k :
  0 < ntrees -> k + 1 <= start + ntrees -> start + ntrees < 2 ^ 64 ->
  walk_index ntrees start (2 * k + 1) = (start + ntrees - (k + 1)) mod ntrees.
Proof.
  intros Hn Hlo Hhi. change (2 ^ 64) with 18446744073709551616 in Hhi.
  apply N2Z.inj.
  destruct (walk_off_spec (2 * k + 1)) as [[E _]|[_ H]].
  - rewrite N.add_comm, N.even_add_mul_2 in E. cbn in E. discriminate.
  - rewrite walk_index_Z; auto; [|unfold W64z; lia].
    rewrite N2Z.inj_mod. f_equal. lia.
Qed.

Lemma walk_index_lt ntrees start i : 0 < ntrees -> walk_index ntrees start i < ntrees.
Proof.
  intros Hn. unfold walk_index.
  pose proof (Z.mod_pos_bound ((Z.of_N (start + ntrees) + walk_off i) mod W64z) (Z.of_N ntrees)).
  lia.
Qed.

Lemma mod_eq_small (a b n : Z) :
  (0 < n -> a mod n = b mod n -> - n < a - b < n -> a = b)%Z.
Proof.
  intros Hn He Hr.
  assert (H1 : ((a - b) mod n = 0)%Z) by (rewrite Zminus_mod, He, Z.sub_diag; apply Z.mod_0_l; lia).
  assert (H2 : ((b - a) mod n = 0)%Z) by (rewrite Zminus_mod, He, Z.sub_diag; apply Z.mod_0_l; lia).
  destruct (Z_le_gt_dec 0 (a - b)).
  - rewrite Z.mod_small in H1; lia.
  - rewrite Z.mod_small in H2; lia.
Qed.

(* the first ntrees steps hit pairwise different trees *)
Lemma walk_index_inj ntrees start i j :
  0 < ntrees -> start + 2 * ntrees < 2 ^ 64 -> i < ntrees -> j < ntrees ->
  walk_index ntrees start i = walk_index ntrees start j -> i = j.
Proof.
  intros Hn Hb Hi Hj He. change (2 ^ 64) with 18446744073709551616 in Hb.
  apply (f_equal Z.of_N) in He.
  destruct (walk_off_spec i) as [[_ A]|[_ A]], (walk_off_spec j) as [[_ B]|[_ B]];
    (rewrite !walk_index_Z in He; auto; try (unfold W64z; lia);
     apply mod_eq_small in He; lia).
Qed.

Lemma in_nrange lo hi x : In x (nrange lo hi) <-> lo <= x < hi.
Proof.
  unfold nrange, nn. rewrite in_map_iff. split.
  - intros (y & <- & Hy). apply in_seq in Hy. lia.
  - intros H. exists (N.to_nat x). split; [apply N2Nat.id|]. apply in_seq. lia.
Qed.

Lemma nrange_NoDup lo hi : NoDup (nrange lo hi).
Proof.
  unfold nrange. apply NoDup_map_in_inj; [|apply seq_NoDup].
  intros x y _ _. apply Nat2N.inj.
Qed.

Lemma nrange_length lo hi : length (nrange lo hi) = (nn hi - nn lo)%nat.
Proof. unfold nrange. rewrite map_length, seq_length. reflexivity. Qed.

(* every index looked at is a tree; no tree is looked at twice when len <= ntrees *)
Theorem walk_in_range ntrees start offset len :
  0 < ntrees -> Forall (fun idx => idx < ntrees) (walk ntrees start offset len).
Proof.
  intros Hn. unfold walk. apply Forall_forall. intros x Hx.
  apply in_map_iff in Hx. destruct Hx as (i & <- & _). apply walk_index_lt; auto.
Qed.

Theorem walk_NoDup ntrees start offset len :
  0 < ntrees -> len <= ntrees -> start + 2 * ntrees < 2 ^ 64 ->
  NoDup (walk ntrees start offset len).
Proof.
  intros Hn Hlen Hb. unfold walk. apply NoDup_map_in_inj; [|apply nrange_NoDup].
  intros x y Hx Hy. apply in_nrange in Hx, Hy. apply walk_index_inj; auto; lia.
Qed.

(* a full walk (offset 0, len = ntrees) looks at every tree exactly once *)
Theorem walk_all ntrees start :
  0 < ntrees -> start + 2 * ntrees < 2 ^ 64 ->
  Permutation (walk ntrees start 0 ntrees) (nrange 0 ntrees).
Proof.
  intros Hn Hb. apply NoDup_Permutation_bis.
  - apply walk_NoDup; auto. lia.
  - unfold walk. rewrite map_length. reflexivity.
  - intros x Hx. apply in_nrange. split; [lia|].
    pose proof (walk_in_range ntrees start 0 ntrees Hn) as Hf.
    rewrite Forall_forall in Hf. auto.
Qed.

(* the access order *)
Section SearchOrder.
  Variable cap : nat.
  Variable tree_frames : N.
  Variable rate : N -> N -> policy.
  Variable trees : list tentry.

  Notation step := (search_step cap tree_frames rate trees).
  Notation direct := (walk_direct tree_frames rate trees).
  Notation cands := (walk_cands tree_frames rate trees).

  Lemma search_fold w : forall d b,
    fold_left step w (d, b) = (d ++ direct w, fold_left (sb_add skey_le cap) (cands w) b).
  Proof.
    induction w as [|idx w IH]; intros d b; cbn [fold_left walk_direct walk_cands filter flat_map].
    - rewrite app_nil_r; reflexivity.
    - unfold search_step at 2. destruct (visit_at tree_frames rate trees idx); cbn [fst snd app fold_left].
      + apply IH.
      + rewrite IH, <- app_assoc. reflexivity.
      + apply IH.
  Qed.

  (* accesses = the perfect matches in walk order, then the retained candidates, best first *)
  Theorem search_order_eq start offset len :
    let w := walk (N.of_nat (length trees)) start offset len in
    search_order cap tree_frames rate trees start offset len =
      direct w ++ map snd (sb_iter_rev (sb_add_all skey_le cap (cands w))).
  Proof. cbv zeta. unfold search_order. rewrite search_fold. reflexivity. Qed.

  (* ... where the retained candidates are the best min(cap, #candidates), tried in descending
     (policy, entirely-free) order *)
  Theorem search_order_spec start offset len :
    let w := walk (N.of_nat (length trees)) start offset len in
    exists tried,
      search_order cap tree_frames rate trees start offset len = direct w ++ map snd tried /\
      desc_by skey_le tried /\
      length tried = Nat.min cap (length (cands w)) /\
      exists dropped, Permutation (cands w) (tried ++ dropped) /\
                      forall d k, In d dropped -> In k tried -> skey_le (fst d) (fst k) = true.
  Proof.
    cbv zeta. set (w := walk _ _ _ _).
    exists (sb_iter_rev (sb_add_all skey_le cap (cands w))).
    destruct (sb_iter_rev_best_first skey_le skey_le_total skey_le_trans cap (cands w)) as (Hd & Hp).
    destruct (sb_add_all_topN skey_le skey_le_total skey_le_trans cap (cands w)) as (Hl & _ & dropped & Hperm & Hdrop).
    split; [apply search_order_eq|]. split; [exact Hd|]. split.
    - rewrite (Permutation_length Hp). exact Hl.
    - exists dropped. split.
      + eapply perm_trans; [exact Hperm|]. apply Permutation_app_tail, Permutation_sym, Hp.
      + intros d k Hin Hk. apply Hdrop; auto. apply (Permutation_in _ Hp); auto.
  Qed.

  Lemma map_snd_cands w :
    map snd (cands w) =
    filter (fun idx => match visit_at tree_frames rate trees idx with VCand _ => true | _ => false end) w.
  Proof.
    induction w as [|idx w IH]; cbn [walk_cands flat_map filter map]; auto.
    fold (cands w). destruct (visit_at tree_frames rate trees idx); cbn [app map snd]; rewrite IH; auto.
  Qed.

  (* no tree is accessed twice in one search when len <= ntrees *)
  Theorem search_order_NoDup start offset len :
    let ntrees := N.of_nat (length trees) in
    0 < ntrees -> len <= ntrees -> start + 2 * ntrees < 2 ^ 64 ->
    NoDup (search_order cap tree_frames rate trees start offset len).
  Proof.
    cbv zeta. intros Hn Hlen Hb. rewrite search_order_eq. set (w := walk _ _ _ _).
    assert (Hw : NoDup w) by (apply walk_NoDup; auto).
    destruct (sb_add_all_topN skey_le skey_le_total skey_le_trans cap (cands w)) as (_ & _ & dropped & Hperm & _).
    set (kept := sb_add_all skey_le cap (cands w)) in *.
    assert (Hall : NoDup (direct w ++ map snd (cands w))).
    { rewrite map_snd_cands. apply NoDup_filter_app; auto.
      intros x. destruct (visit_at tree_frames rate trees x); discriminate. }
    apply (Permutation_map snd) in Hperm. rewrite map_app in Hperm.
    eapply Permutation_NoDup in Hall; [|apply Permutation_app_head, Hperm].
    rewrite app_assoc in Hall. apply NoDup_app_l in Hall.
    eapply Permutation_NoDup; [|exact Hall].
    apply Permutation_app_head, Permutation_map. unfold sb_iter_rev. apply Permutation_rev.
  Qed.

  (* only trees that the walk looked at are accessed *)
  Theorem search_order_incl start offset len :
    incl (search_order cap tree_frames rate trees start offset len)
         (walk (N.of_nat (length trees)) start offset len).
  Proof.
    rewrite search_order_eq. set (w := walk _ _ _ _). intros x Hx.
    apply in_app_or in Hx. destruct Hx as [Hx|Hx].
    - apply filter_In in Hx. tauto.
    - apply in_map_iff in Hx. destruct Hx as (e & <- & He).
      unfold sb_iter_rev in He. apply in_rev in He.
      apply (sb_add_all_incl skey_le skey_le_total skey_le_trans) in He.
      assert (Hs : In (snd e) (map snd (cands w))) by (apply in_map; auto).
      rewrite map_snd_cands in Hs. apply filter_In in Hs. tauto.
  Qed.
End SearchOrder.

(* non-vacuity: a concrete search *)
(* 6 trees of 512 frames; rate: class 0 => perfect match if free >= 8, class 1 => Match(free/64),
   class 2 => Demote, otherwise Invalid; capacity 2.
   walk from start 4: 4,3,5,2,0(=6 mod 6),1; tree 3 is reserved, tree 4 a perfect match,
   candidates: 5 -> Demote/entirely free, 2 -> Match(3), 0 -> Match(7), 1 -> Invalid.
   Kept (cap 2): tree 5 and tree 0; tried best first after the perfect match. *)
Definition ex_rate (class free : N) : policy :=
  if class =? 0 then (if 8 <=? free then PMatch 255 else PInvalid)
  else if class =? 1 then PMatch (free / 64)
  else if class =? 2 then PDemote else PInvalid.
Definition ex_trees : list tentry :=
  [ {| te_free := 450; te_reserved := false; te_class := 1 |};
    {| te_free := 100; te_reserved := false; te_class := 3 |};
    {| te_free := 200; te_reserved := false; te_class := 1 |};
    {| te_free := 512; te_reserved := true;  te_class := 0 |};
    {| te_free := 300; te_reserved := false; te_class := 0 |};
    {| te_free := 512; te_reserved := false; te_class := 2 |} ].
Example ex_walk : walk 6 4 0 6 = [4; 3; 5; 2; 0; 1].
Proof. vm_compute. reflexivity. Qed.
Example ex_walk_near : walk 6 4 1 4 = [3; 5; 2].
Proof. vm_compute. reflexivity. Qed.
Example ex_search : search_order 2 512 ex_rate ex_trees 4 0 6 = [4; 5; 0].
Proof. vm_compute. reflexivity. Qed.
Example ex_search_cap3 : search_order 3 512 ex_rate ex_trees 4 0 6 = [4; 5; 0; 2].
Proof. vm_compute. reflexivity. Qed.
(* len > ntrees (the `near` search of a 2-tree allocator has len = 4): trees are revisited *)
Example ex_walk_revisit : walk 2 0 1 4 = [1; 1; 0].
Proof. vm_compute. reflexivity. Qed.
