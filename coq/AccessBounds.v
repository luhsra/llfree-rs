(* C18, lifted from location arithmetic to the machines: EVERY access that the small-step machines M1
   (LowerMachine.v: lower allocator) and M2 (UpperMachine.v: whole allocator) perform in ANY reachable state
   addresses a metadata word inside its buffer.

   Meta.v / MetaProofs.v (Properties/C18.v) show that the byte locations row_loc / ent_loc / tree_loc / slot_loc
   lie inside buffers of the sizes `metadata_size` asks for GIVEN in-range indices.  Here:
   1. an event of M1 is only emitted after a successful lookup (`rd_ent` / `rd_row` = Some): `mstep_event_shape`;
      with the shape part of the invariant `Inv` (list lengths = nbf / ntab * THUGE, rows per bitfield, the
      thread-local facts of the narrow compare-exchange) the indices are in range and the accessed lane is an
      aligned 8/16/32/64-bit lane inside its row: `m1_event_idx_ok`;
   2. the same for M2: tree index < ntab, slot index < the class's slot count, lower accesses via the embedded
      M1 step: `m2_event_idx_ok` (under `UInv`);
   3. over reachable states (conc_inv / conc_uinv) and composed with the location lemmas of MetaProofs.v: the
      byte range of every emitted event lies inside lower_size / trees_size / local_size of the configuration and
      is aligned to its width; narrow accesses stay inside the 8-byte row of their frame:
      `reachable_m1_access_in_bounds`, `reachable_m2_access_in_bounds`.
   The step correspondence of the harness (schedrun | step / ustep) compares every hooked address of the compiled
   code with the location of the machine's event, so these bounds carry over to the accesses of the code on every
   explored schedule.  Stdlib only. *)
From Coq Require Import PeanoNat ZArith ZifyN ZifyBool.
From LLF Require Import Base Row Bitfield Lower Spec Sorted Upper UpperInvDef LowerMachine ConcBase ConcInvDef ConcInv
  ConcProps Meta MetaProofs AccessBoundsDef UpperPrims UpperMachine UpperConcInvDef UpperConcWf UpperConcM1 UpperConcInv UpperConcProps.
From LLF Require Handoff.

(* `lia` has to decide facts with `/ 8`, `mod 64`, `mod w` for a constant w (aligned_lane, row_idx_bytes, lookup_lt);
   the setting is global: it stays in force in every file that imports this one *)
Ltac Zify.zify_post_hook ::= Z.div_mod_to_equations.

(* destruct the scrutinees that decide the second component of a step *)
Ltac snd_split :=
  repeat (cbn [snd]; cbv zeta;
          match goal with
          | |- context [snd (match ?x with _ => _ end)] => destruct x eqn:?
          end).


(* what an event of M1 tells about the lookup that produced it *)
Definition ev_shape (g : geom) (s : mstate) (t : nat) (e : event) : Prop :=
  (ev_ent e = true /\ ev_r e = 0 /\ ev_off e = 0 /\ ev_width e = 16 /\ exists v, rd_ent s (ev_h e) = Some v) \/
  (ev_ent e = false /\ (exists v, rd_row s (ev_h e) (ev_r e) = Some v) /\
   ((ev_off e = 0 /\ ev_width e = 64) \/
    exists c x, nth_error (ms_pool s) t = Some (TRun c (TN x)) /\ ev_off e = t_off x c /\ ev_width e = pow2 (t_order g x c))).

(* every event is emitted after a successful lookup of the word it names; the only access that is not a whole
   row / entry is the narrow compare-exchange at pc TN *)
Lemma mstep_event_shape g s t c0 e : snd (mstep g s t c0) = Some e -> ev_shape g s t e.
Proof.
  unfold mstep. destruct (nth_error (ms_pool s) t) as [x|] eqn:Ht; [|discriminate].
  destruct x as [l|c p|x c]; [| |discriminate].
  - snd_split; discriminate.
  - destruct p; snd_split; try discriminate; intros [= <-];
      first [ left; repeat split; eexists; eassumption
            | right; split; [reflexivity|split; [eexists; eassumption|left; split; reflexivity]]
            | right; split; [reflexivity|split; [eexists; eassumption|right; do 2 eexists; split; [eassumption|split; reflexivity]]] ].
Qed.

(* the indices of an access are in range; the lane of a row access is aligned and inside the row *)
Definition row_idx_ok (g : geom) (fr h r off w : N) : Prop :=
  h < nbf g fr /\ r < ROWS g /\ off + w <= 64 /\ off mod w = 0 /\ (w = 8 \/ w = 16 \/ w = 32 \/ w = 64).
Definition ent_idx_ok (g : geom) (fr h off w : N) : Prop := h < ntab g fr * THUGE g /\ off = 0 /\ w = 16.
Definition ev_idx_ok (g : geom) (fr : N) (e : event) : Prop :=
  if ev_ent e then ent_idx_ok g fr (ev_h e) (ev_off e) (ev_width e) /\ ev_r e = 0
  else row_idx_ok g fr (ev_h e) (ev_r e) (ev_off e) (ev_width e).

Section M1.
  Variable g : geom.
  Hypothesis wf : wf_geom g.
  Notation HF := (HF g).
  Notation THUGE := (THUGE g).
  Notation ROWS := (ROWS g).

  Lemma lookup_lt {A} (l : list A) (i : N) x : nth_error l (nn i) = Some x -> i < N.of_nat (length l).
  Proof. intros H. apply nth_error_some_lt in H. unfold nn in H. lia. Qed.

  (* a block of order 3..6 that starts at an aligned frame f: its bits are an aligned 8/16/32/64-bit lane of the
     row word of f *)
  Lemma aligned_lane f k : (3 <= k <= 6)%nat -> f mod pow2 k = 0 ->
    f mod 64 + pow2 k <= 64 /\ (f mod 64) mod pow2 k = 0 /\ (pow2 k = 8 \/ pow2 k = 16 \/ pow2 k = 32 \/ pow2 k = 64).
  Proof.
    intros Hk Ha. assert (E : k = 3%nat \/ k = 4%nat \/ k = 5%nat \/ k = 6%nat) by lia.
    destruct E as [-> | [-> | [-> | ->]]];
      [change (pow2 3) with 8 in * | change (pow2 4) with 16 in * | change (pow2 5) with 32 in * | change (pow2 6) with 64 in *];
      (split; [|split; [|tauto]]); lia.
  Qed.

  (* the lane of the narrow compare-exchange (pc TN): 2^order bits at bit offset `frame mod 64`, order 3..6 *)
  Lemma narrow_lane fr c x :
    local_b g fr (TRun c (TN x)) = true ->
    let off := t_off x c in let w := pow2 (t_order g x c) in
    off + w <= 64 /\ off mod w = 0 /\ (w = 8 \/ w = 16 \/ w = 32 \/ w = 64).
  Proof.
    cbn [local_b lpc]. intros H.
    apply andb_true_iff in H. destruct H as [Hc H].
    apply andb_true_iff in H. destruct H as [H H6]. apply andb_true_iff in H. destruct H as [H H3].
    apply andb_true_iff in H. destruct H as [Hx Hs].
    apply Nat.leb_le in H3. apply Nat.leb_le in H6.
    (* get_at / put of a small block: the frame is aligned to its order *)
    assert (Hsmall : forall f k, cwf g fr (CGetAt f k) = true \/ cwf g fr (CPut f k) = true -> f mod pow2 k = 0).
    { intros f k [Hf|Hf]; unfold cwf in Hf; cbn [c_order] in Hf; apply andb_true_iff in Hf; destruct Hf as [_ Hf];
        apply andb_true_iff in Hf; destruct Hf as [Ha _]; apply N.eqb_eq in Ha; exact Ha. }
    destruct x as [| |old]; cbn [t_off t_order ctx_ok] in *.
    - destruct c as [st k|f k|f k]; try discriminate. apply aligned_lane; [exact (conj H3 H6) | apply Hsmall; left; exact Hc].
    - destruct c as [st k|f k|f k]; try discriminate. apply aligned_lane; [exact (conj H3 H6) | apply Hsmall; right; exact Hc].
    - (* the split of a huge frame: offset 0 *)
      apply (aligned_lane 0 (hord g) (conj H3 H6)). reflexivity.
  Qed.

  (* the part of the invariant that is used: list lengths, rows per bitfield, the thread-local facts of thread t *)
  Record Shape (s : mstate) (t : nat) : Prop := {
    Sh_bfs : length (ms_bfs s) = nn (nbf g (ms_frames s));
    Sh_ents : length (ms_ents s) = nn (ntab g (ms_frames s) * THUGE);
    Sh_rows : forall h rows, nth_error (ms_bfs s) h = Some rows -> length rows = rows_nat g;
    Sh_loc : forall x, nth_error (ms_pool s) t = Some x -> local_b g (ms_frames s) x = true
  }.

  Lemma Inv_Shape s t : Inv g s -> Shape s t.
  Proof.
    intros I. constructor.
    - apply (I_len1 g s I).
    - apply (I_len2 g s I).
    - intros h rows H. apply (I_rows g s I h rows H).
    - intros x H. apply (Forall_nth_error _ _ _ _ (I_L g s I) H).
  Qed.

  Lemma shape_idx_ok s t e : Shape s t -> ev_shape g s t e -> ev_idx_ok g (ms_frames s) e.
  Proof.
    intros [L1 L2 L3 L4] [(E & Hr & Ho & Hw & v & Hv)|(E & (v & Hv) & Hlane)]; unfold ev_idx_ok; rewrite E.
    - split; [|exact Hr]. split; [|split; assumption].
      unfold rd_ent in Hv. apply lookup_lt in Hv. rewrite L2 in Hv. unfold nn in Hv. lia.
    - unfold rd_row in Hv. destruct (nth_error (ms_bfs s) (nn (ev_h e))) as [rows|] eqn:Eb; [|discriminate].
      pose proof (lookup_lt _ _ _ Eb) as Hh. rewrite L1 in Hh.
      pose proof (lookup_lt _ _ _ Hv) as Hrr. rewrite (L3 _ _ Eb), <- (ROWS_nat g wf) in Hrr.
      split; [unfold nn in Hh; lia|]. split; [exact Hrr|].
      destruct Hlane as [(-> & ->) | (c & x & Ht & -> & ->)].
      + split; [lia|]. split; [reflexivity|tauto].
      + apply (narrow_lane (ms_frames s) c x). apply L4. exact Ht.
  Qed.

  Theorem m1_event_idx_ok s t c0 e :
    Inv g s -> snd (mstep g s t c0) = Some e -> ev_idx_ok g (ms_frames s) e.
  Proof. intros I H. apply (shape_idx_ok s t e); [apply Inv_Shape; exact I|apply (mstep_event_shape _ _ _ _ _ H)]. Qed.

  (* the frame count never changes *)
  Lemma mrun_frames sch : forall s, ms_frames (mrun g sch s) = ms_frames s.
  Proof.
    induction sch as [|[t c] r IH]; intros s; [reflexivity|]. cbn [mrun fold_left fst snd].
    change (ms_frames (mrun g r (fst (mstep g s t c))) = ms_frames s). rewrite IH. apply (step_frames g wf).
  Qed.
End M1.

Section Bytes.
  Variable g : geom.
  Hypothesis wf : wf_geom g.

  (* a row access of `w` bits at bit offset `off` of row r of bitfield h: bytes [loc, loc + w/8) *)
  Definition row_bytes_ok (fr h r off w : N) : Prop :=
    let base := row_loc g h r in
    let loc := base + off / 8 in
    let wb := w / 8 in
    (wb = 1 \/ wb = 2 \/ wb = 4 \/ wb = 8) /\ w = 8 * wb /\ off = 8 * (off / 8) /\
    base <= loc /\ loc + wb <= base + 8 /\                            (* inside the 8-byte row word *)
    base + 8 <= nbf g fr * bitfield_bytes g /\                        (* the row lies in the bitfield part ... *)
    base + 8 <= lower_size g fr /\                                    (* ... of the lower buffer *)
    loc mod wb = 0.                                                   (* aligned to its access width *)
  (* a huge entry: 2 bytes in the table part of the lower buffer *)
  Definition ent_bytes_ok (fr h w : N) : Prop :=
    w = 16 /\ nbf g fr * bitfield_bytes g <= ent_loc g fr h /\ ent_loc g fr h + 2 <= lower_size g fr /\ ent_loc g fr h mod 2 = 0.

  Lemma row_idx_bytes fr h r off w : row_idx_ok g fr h r off w -> row_bytes_ok fr h r off w.
  Proof.
    intros (Hh & Hr & Hlane & Hal & Hw).
    destruct (row_loc_bounds g wf fr h r Hh Hr) as (B1 & B2 & B3).
    unfold row_bytes_ok. cbv zeta. set (base := row_loc g h r) in *.
    destruct Hw as [-> | [-> | [-> | ->]]];
      [change (8 / 8) with 1 | change (16 / 8) with 2 | change (32 / 8) with 4 | change (64 / 8) with 8];
      repeat split; try tauto; lia.
  Qed.

  Lemma ent_idx_bytes fr h off w : ent_idx_ok g fr h off w -> ent_bytes_ok fr h w.
  Proof.
    intros (Hh & _ & ->). destruct (ent_loc_bounds g wf fr h Hh) as (B1 & B2 & B3).
    unfold ent_bytes_ok. tauto.
  Qed.

  Definition m1_ev_bytes_ok (fr : N) (e : event) : Prop :=
    if ev_ent e then ent_bytes_ok fr (ev_h e) (ev_width e)
    else row_bytes_ok fr (ev_h e) (ev_r e) (ev_off e) (ev_width e).

  Lemma ev_idx_bytes fr e : ev_idx_ok g fr e -> m1_ev_bytes_ok fr e.
  Proof.
    unfold ev_idx_ok, m1_ev_bytes_ok. destruct (ev_ent e).
    - intros [H _]. eapply ent_idx_bytes. exact H.
    - apply row_idx_bytes.
  Qed.
End Bytes.

(* the executable forms of AccessBoundsDef.v (evaluated by the drivers on the accesses of the compiled code) *)
Lemma row_idx_okb_spec g fr h r off w : row_idx_okb g fr h r off w = true <-> row_idx_ok g fr h r off w.
Proof.
  unfold row_idx_okb, lane_okb, row_idx_ok. rewrite !andb_true_iff, !orb_true_iff, !N.ltb_lt, !N.leb_le, !N.eqb_eq. tauto.
Qed.
Lemma ent_idx_okb_spec g fr h off w : ent_idx_okb g fr h off w = true <-> ent_idx_ok g fr h off w.
Proof. unfold ent_idx_okb, ent_idx_ok. rewrite !andb_true_iff, N.ltb_lt, !N.eqb_eq. tauto. Qed.

(* every access of every reachable state of M1 lies inside the lower buffer of the configuration *)
Theorem reachable_m1_access_in_bounds : forall g l held0 n sch t c e,
  wf_geom g -> LowerInv g l -> HeldInit g l held0 ->
  let s := mrun g sch (boot l held0 n) in
  snd (mstep g s t c) = Some e ->
  ev_idx_ok g (frames l) e /\ m1_ev_bytes_ok g (frames l) e.
Proof.
  intros g l held0 n sch t c e wf HL HI s H.
  assert (I : Inv g s) by (apply conc_inv; assumption).
  assert (F : ms_frames s = frames l) by (unfold s; rewrite (mrun_frames g wf); reflexivity).
  pose proof (m1_event_idx_ok g wf s t c e I H) as X. rewrite F in X.
  split; [exact X|apply (ev_idx_bytes g wf); exact X].
Qed.

Definition uev_idx_ok (g : geom) (u : upper) (e : uevent) : Prop :=
  let fr := frames (low u) in
  match ue_loc e with
  | LTree i => i < ntab g fr /\ ue_off e = 0 /\ ue_width e = 32
  | LSlot c idx => (exists len, class_locals u c = Some len /\ idx < len) /\ ue_off e = 0 /\ ue_width e = 64
  | LEnt h => ent_idx_ok g fr h (ue_off e) (ue_width e)
  | LRow h r => row_idx_ok g fr h r (ue_off e) (ue_width e)
  end.

Section M2.
  Variable g : geom.
  Variable policy : N -> N -> N -> pol.
  Hypothesis wf : wf_geom g.

  Lemma tree_at_lt_ntab u i t : length (trees u) = nn (ntab g (frames (low u))) -> tree_at u i = Some t -> i < ntab g (frames (low u)).
  Proof. intros L H. unfold tree_at in H. apply lookup_lt in H. rewrite L in H. unfold nn in H. lia. Qed.

  Lemma slot_at_lt u c idx sl : slot_at u c idx = Some sl -> exists len, class_locals u c = Some len /\ idx < len.
  Proof.
    unfold slot_at, class_locals. destruct (class_slots u c) as [l|]; [|discriminate].
    intros H. apply lookup_lt in H. exists (N.of_nat (length l)). split; [reflexivity|exact H].
  Qed.

  (* the M1 step of the embedded lower call *)
  Lemma low_event_idx_ok s t c k th e0 o :
    UInv g policy o s -> nth_error (m2_pool s) t = Some (URun c (PLow th) k) ->
    forall c1, snd (mstep g (m1_view (m2_up s) th) O c1) = Some e0 ->
    ev_idx_ok g (frames (low (m2_up s))) e0.
  Proof.
    intros (I & _ & _) Ht c1 H.
    apply (shape_idx_ok g wf (m1_view (m2_up s) th) O e0); [|apply (mstep_event_shape _ _ _ _ _ H)].
    pose proof (Inv_Shape g (m1_of g s) t I) as [L1 L2 L3 L4].
    constructor; cbn [m1_view ms_frames ms_ents ms_bfs ms_pool] in *.
    - exact L1.
    - exact L2.
    - exact L3.
    - intros x Hx. cbn [nth_error] in Hx. injection Hx as <-.
      apply L4. cbn [m1_of ms_pool]. rewrite nth_error_map, Ht. reflexivity.
  Qed.

  Lemma idx_of_m1 u e0 : ev_idx_ok g (frames (low u)) e0 -> uev_idx_ok g u (ev_of_m1 e0).
  Proof.
    unfold ev_idx_ok, uev_idx_ok, ev_of_m1. cbn [ue_loc ue_off ue_width]. destruct (ev_ent e0).
    - intros [H _]. exact H.
    - intros H. exact H.
  Qed.

  Theorem m2_event_idx_ok o s t c0 e :
    UInv g policy o s -> snd (ustep g policy s t c0) = Some e -> uev_idx_ok g (m2_up s) e.
  Proof.
    intros U H. pose proof U as (I & UGs & _).
    assert (LT : length (trees (m2_up s)) = nn (ntab g (frames (low (m2_up s))))).
    { destruct UGs as (_ & LT & _). exact LT. }
    (* an access of a tree entry / local slot that was looked up *)
    assert (Tev : forall i tr k a b ok, tree_at (m2_up s) i = Some tr -> uev_idx_ok g (m2_up s) (uev (LTree i) k 32 a b ok)).
    { intros i tr k a b ok Et. split; [eapply tree_at_lt_ntab; eassumption | split; reflexivity]. }
    assert (Sev : forall cl idx sl k a b ok, slot_at (m2_up s) cl idx = Some sl ->
              uev_idx_ok g (m2_up s) (uev (LSlot cl idx) k 64 a b ok)).
    { intros cl idx sl k a b ok Es. split; [eapply slot_at_lt; eassumption | split; reflexivity]. }
    unfold ustep in H. destruct (nth_error (m2_pool s) t) as [x|] eqn:Ht; [|discriminate].
    destruct x as [l|c p k|z c]; [| |discriminate].
    - destruct c0; try discriminate. destruct (client_take _ _ _); discriminate.
    - destruct (prim_step g policy (m2_up s) p) as [[u' ev] oc] eqn:E. cbn [snd] in H. subst ev.
      destruct p as [i|i f0|i f0 cur j a|i f0 cur new|cl idx f0|cl idx f0 cur new|cl idx new|th]; cbn [prim_step] in E.
      + destruct (tree_at (m2_up s) i) as [tr|] eqn:Et; [|discriminate]. injection E as _ <- _. exact (Tev _ _ _ _ _ _ Et).
      + destruct (tree_at (m2_up s) i) as [tr|] eqn:Et; [|discriminate]. injection E as _ <- _. exact (Tev _ _ _ _ _ _ Et).
      + destruct (nth_error (ents (low (m2_up s))) (nn (i * THUGE g + j))) as [en|] eqn:Ee; [|discriminate]. injection E as _ <- _.
        unfold uev_idx_ok, uev. cbn [ue_loc ue_off ue_width]. split; [|split; reflexivity].
        apply lookup_lt in Ee. pose proof (I_len2 g _ I) as L2. cbn [m1_of ms_ents ms_frames] in L2. rewrite L2 in Ee.
        unfold nn in Ee. lia.
      + destruct (tree_at (m2_up s) i) as [tr|] eqn:Et; [|discriminate].
        destruct (tree_eqb tr cur); injection E as _ <- _; exact (Tev _ _ _ _ _ _ Et).
      + destruct (slot_at (m2_up s) cl idx) as [sl|] eqn:Es; [|discriminate]. injection E as _ <- _. exact (Sev _ _ _ _ _ _ _ Es).
      + destruct (slot_at (m2_up s) cl idx) as [sl|] eqn:Es; [|discriminate].
        destruct (slot_eqb sl cur); injection E as _ <- _; exact (Sev _ _ _ _ _ _ _ Es).
      + destruct (slot_at (m2_up s) cl idx) as [sl|] eqn:Es; [|discriminate]. injection E as _ <- _. exact (Sev _ _ _ _ _ _ _ Es).
      + destruct th as [l|c1 p1|z c1]; try discriminate.
        destruct (mstep g (m1_view (m2_up s) (TRun c1 p1)) 0 c1) as [ms' ev0] eqn:M.
        assert (Hev : option_map ev_of_m1 ev0 = Some e).
        { destruct (nth_error (ms_pool ms') 0) as [[[[x|er|z]|]|c2 p2|z c2]|]; injection E as _ <- _; reflexivity. }
        destruct ev0 as [e0|]; [|discriminate]. injection Hev as <-.
        apply idx_of_m1. eapply (low_event_idx_ok s t c k (TRun c1 p1) e0 o U Ht c1).
        rewrite M. reflexivity.
  Qed.
End M2.

(* byte ranges of M2's events; `cl` = the classing the local buffer was laid out with *)
Definition m2_ev_bytes_ok (g : geom) (fr : N) (cl : list (N * N)) (e : uevent) : Prop :=
  match ue_loc e with
  | LTree i => ue_width e = 32 /\ tree_loc i + 4 <= trees_size g fr /\ tree_loc i mod 4 = 0
  | LSlot c idx => ue_width e = 64 /\ exists o, slot_loc cl c idx = Some o /\ o + 8 <= local_size cl /\ o mod 8 = 0
  | LEnt h => ent_bytes_ok g fr h (ue_width e)
  | LRow h r => row_bytes_ok g fr h r (ue_off e) (ue_width e)
  end.

(* the local slots of `u` are those of classing `cl` (Locals::new lays the classes out in classing order) *)
Definition classing_agrees (cl : list (N * N)) (u : upper) : Prop :=
  forall c, class_locals u c = option_map snd (class_lookup cl c 0 None).

Lemma uev_idx_bytes g u cl e : wf_geom g -> classing_agrees cl u ->
  uev_idx_ok g u e -> m2_ev_bytes_ok g (frames (low u)) cl e.
Proof.
  intros wf CA. unfold uev_idx_ok, m2_ev_bytes_ok. destruct (ue_loc e) as [i|c idx|h|h r].
  - intros (Hi & _ & Hw). split; [exact Hw|]. apply tree_loc_bounds. exact Hi.
  - intros ((len & Hl & Hidx) & _ & Hw). split; [exact Hw|].
    rewrite (CA c) in Hl. destruct (class_lookup cl c 0 None) as [[off cnt]|] eqn:E; [|discriminate].
    cbn [option_map snd] in Hl. injection Hl as ->.
    exists (off + idx * 64).
    assert (S : slot_loc cl c idx = Some (off + idx * 64)).
    { unfold slot_loc. rewrite E. apply N.ltb_lt in Hidx. rewrite Hidx. reflexivity. }
    split; [exact S|]. destruct (slot_loc_bounds cl c idx _ S) as (B1 & _ & B3). split; [lia|exact B3].
  - apply (ent_idx_bytes g wf).
  - apply (row_idx_bytes g wf).
Qed.

(* `Locals::new` (Upper.v `locals_new`) establishes `classing_agrees` *)
Definition lenopt (ls : list (option (list slot))) (c : N) : option N :=
  match nth_error ls (nn c) with Some (Some l) => Some (N.of_nat (length l)) | _ => None end.

Lemma lgo_agrees c : forall cl buf acc off a ls,
  Handoff.locals_go cl buf acc = Ok ls -> slots_total cl <= N.of_nat (length buf) -> length acc = 8%nat ->
  lenopt acc c = option_map snd a ->
  lenopt ls c = option_map snd (class_lookup cl c off a).
Proof.
  induction cl as [|[id n] r IH]; intros buf acc off a ls H Hlen Hacc Ha; cbn [Handoff.locals_go class_lookup] in *.
  - injection H as <-. exact Ha.
  - destruct (8 <=? id) eqn:E8; [discriminate|]. apply N.leb_gt in E8.
    cbn [slots_total fold_right snd] in Hlen. fold (slots_total r) in Hlen.
    apply (IH _ _ (off + n * 64) _ ls H).
    + rewrite skipn_length. unfold nn. lia.
    + rewrite upd_length. exact Hacc.
    + unfold lenopt. destruct (N.eqb_spec id c) as [->|Hne].
      * rewrite nth_error_upd_same by (rewrite Hacc; unfold nn; lia).
        rewrite firstn_length. cbn [option_map snd]. f_equal. unfold nn. lia.
      * rewrite nth_error_upd_other by (unfold nn; lia). exact Ha.
Qed.

Lemma locals_new_agrees cl buf ls u : locals_new cl buf = Ok ls -> slots_total cl <= N.of_nat (length buf) ->
  locals u = ls -> classing_agrees cl u.
Proof.
  intros H Hlen <- c. rewrite Handoff.locals_new_go in H.
  pose proof (lgo_agrees c cl buf (repeat None 8) 0 None (locals u) H Hlen (repeat_length _ _)) as X.
  unfold class_locals, class_slots. unfold lenopt in X.
  assert (X0 : match nth_error (repeat (@None (list slot)) 8) (nn c) with Some (Some l) => Some (N.of_nat (length l)) | _ => None end = None).
  { destruct (nth_error (repeat None 8) (nn c)) as [[l|]|] eqn:E; [|reflexivity|reflexivity].
    apply nth_error_In, repeat_spec in E. discriminate. }
  specialize (X X0). rewrite <- X. destruct (nth_error (locals u) (nn c)) as [[l|]|]; reflexivity.
Qed.

(* `LLFree::new` (Upper.v `llfree_new`) over a local buffer that is large enough *)
Lemma llfree_new_classing_agrees g fr i cl d lbuf tbuf sbuf u :
  llfree_new g fr i cl d lbuf tbuf sbuf = Ok u -> slots_total cl <= N.of_nat (length sbuf) -> classing_agrees cl u.
Proof.
  unfold llfree_new. destruct (locals_new cl sbuf) as [ls|er|z] eqn:E; try discriminate.
  intros H Hlen. apply (locals_new_agrees cl sbuf ls u E Hlen).
  destruct i; [destruct (trees_new g _ d); try discriminate; injection H as <-; reflexivity ..|injection H as <-; reflexivity].
Qed.

Lemma uev_idx_okb_spec g u e : uev_idx_ok g u e <->
  match ue_loc e with
  | LTree i => tree_idx_okb g (frames (low u)) i (ue_off e) (ue_width e) = true
  | LSlot c idx => slot_idx_okb (class_locals u c) idx (ue_off e) (ue_width e) = true
  | LEnt h => ent_idx_okb g (frames (low u)) h (ue_off e) (ue_width e) = true
  | LRow h r => row_idx_okb g (frames (low u)) h r (ue_off e) (ue_width e) = true
  end.
Proof.
  unfold uev_idx_ok. destruct (ue_loc e) as [i|c idx|h|h r].
  - unfold tree_idx_okb. rewrite !andb_true_iff, N.ltb_lt, !N.eqb_eq. tauto.
  - unfold slot_idx_okb. destruct (class_locals u c) as [n|].
    + rewrite !andb_true_iff, N.ltb_lt, !N.eqb_eq. split.
      * intros ((len & [= <-] & Hi) & A & B). tauto.
      * intros ((Hi & A) & B). split; [exists n; split; [reflexivity|exact Hi]|tauto].
    + split; [intros ((len & Hl & _) & _); discriminate|discriminate].
  - symmetry. apply ent_idx_okb_spec.
  - symmetry. apply row_idx_okb_spec.
Qed.

(* every access of every reachable state of M2 lies inside the three buffers of the configuration *)
Theorem reachable_m2_access_in_bounds : forall g policy u held0 n sch t c e cl,
  wf_geom g -> pol_refl_match policy -> pol_demote_trans policy ->
  UpperInv g policy (ustate_new u) -> HeldInit g (low u) held0 -> sched_valid g u sch ->
  classing_agrees cl u ->
  let s := urun g policy sch (uboot u held0 n) in
  snd (ustep g policy s t c) = Some e ->
  uev_idx_ok g (m2_up s) e /\ m2_ev_bytes_ok g (frames (low u)) cl e.
Proof.
  intros g policy u held0 n sch t c e cl wf PR PT HU HH SV CA s H.
  destruct (conc_uinv g policy wf PR PT u held0 n sch HU HH SV) as (I & E). rewrite E in I. fold s in I.
  pose proof (m2_event_idx_ok g policy wf _ s t c e I H) as X.
  pose proof (urun_static g policy wf sch (uboot u held0 n)) as (_ & SC & SF & _). fold s in SC, SF.
  cbn [uboot m2_up] in SC, SF.
  split; [exact X|]. rewrite <- SF. apply (uev_idx_bytes g (m2_up s) cl e wf); [|exact X].
  intros c1. rewrite SC. apply CA.
Qed.

Print Assumptions reachable_m1_access_in_bounds.
Print Assumptions reachable_m2_access_in_bounds.
Print Assumptions locals_new_agrees.
Print Assumptions llfree_new_classing_agrees.
