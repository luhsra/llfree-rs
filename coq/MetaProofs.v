(* Proofs about Meta.v: bounds and alignment of every metadata location (C18, partial), the decision
   rule of `MetaData::valid` (C08), zone conjugation and the persistent layout (C17). *)
From LLF Require Import Base Row Bitfield Lower AbsLemmas Meta.
Require Import ZArith Zify ZifyN ZifyBool.

Lemma div_ceil_mono a a' b : a <= a' -> div_ceil a b <= div_ceil a' b.
Proof.
  intros. unfold div_ceil. destruct (N.eq_dec b 0) as [->|Hb].
  - destruct (a + 0 - 1), (a' + 0 - 1); reflexivity.
  - apply N.div_le_mono; lia.
Qed.

Lemma div_ceil_mul_lt a b : 0 < b -> div_ceil a b * b < a + b.
Proof.
  intros Hb. unfold div_ceil.
  pose proof (N.mul_div_le (a + b - 1) b ltac:(lia)). nia.
Qed.

Lemma div_ceil_0 b : div_ceil 0 b = 0.
Proof.
  unfold div_ceil. destruct (N.eq_dec b 0) as [->|Hb].
  - reflexivity.
  - apply N.div_small. lia.
Qed.

Lemma div_ceil_pos a b : 0 < b -> 0 < a -> 0 < div_ceil a b.
Proof. intros Hb Ha. pose proof (div_lt_div_ceil a b 0 ltac:(lia) Ha) as H. rewrite N.div_0_l in H by lia. exact H. Qed.

Lemma align_up_ge v a : 0 < a -> v <= align_up v a.
Proof. intros H. apply div_ceil_ge. lia. Qed.
Lemma align_up_lt v a : 0 < a -> align_up v a < v + a.
Proof. apply div_ceil_mul_lt. Qed.
Lemma align_up_mod v a : 0 < a -> align_up v a mod a = 0.
Proof. intros. unfold align_up. apply N.mod_mul. lia. Qed.
Lemma align_up_mono v v' a : v <= v' -> align_up v a <= align_up v' a.
Proof. intros. unfold align_up. apply N.mul_le_mono_r. now apply div_ceil_mono. Qed.
Lemma align_up_0 a : align_up 0 a = 0.
Proof. unfold align_up. now rewrite div_ceil_0. Qed.
Lemma align_up_mult v a : 0 < a -> v mod a = 0 -> align_up v a = v.
Proof.
  intros Ha Hm. apply N.div_exact in Hm; try lia.
  pose proof (align_up_ge v a Ha). pose proof (align_up_lt v a Ha).
  pose proof (align_up_mod v a Ha) as Hm2. apply N.div_exact in Hm2; try lia.
  set (q := v / a) in *. set (q' := align_up v a / a) in *.
  assert (q' = q) by nia. nia.
Qed.
Lemma align_up_multiple v a : 0 < a -> exists m, align_up v a = a * m.
Proof. intros. exists (div_ceil v a). unfold align_up. lia. Qed.

(* lanes of w bytes, c of them in a row of 8 bytes: lane i / (8w) lies in row i / 64 *)
Lemma lane_in_row i w c : w * c = 8 ->
  (i / 64) * 8 <= (i / (w * 8)) * w /\ (i / (w * 8)) * w + w <= (i / 64) * 8 + 8.
Proof.
  intros E. assert (0 < w /\ 0 < c) as (Hw & Hc) by nia.
  replace 64 with (w * 8 * c) by nia. rewrite <- N.div_div by lia.
  pose proof (N.div_mod (i / (w * 8)) c ltac:(lia)). pose proof (N.mod_lt (i / (w * 8)) c ltac:(lia)).
  generalize dependent (i / (w * 8)). intros j. generalize (j / c), (j mod c). intros a b -> Hb. nia.
Qed.

Section Geo.
  Variable g : geom.
  Hypothesis WF : wf_geom g.

  Lemma HF_rows : HF g = 64 * ROWS g /\ 0 < ROWS g.
  Proof. split; [apply HF_64|apply ROWS_pos]; exact WF. Qed.

  Lemma bb_facts : ROWS g * 8 <= bitfield_bytes g /\ 0 < bitfield_bytes g /\ exists m, bitfield_bytes g = 64 * m.
  Proof.
    unfold bitfield_bytes, CACHE. destruct HF_rows.
    pose proof (align_up_ge (ROWS g * 8) 64). destruct (align_up_multiple (ROWS g * 8) 64) as [m Hm]; try lia.
    repeat split; try lia. now exists m.
  Qed.
  Lemma tb_facts : 2 * THUGE g <= table_bytes g /\ 0 < table_bytes g /\ exists m, table_bytes g = 64 * m.
  Proof.
    unfold table_bytes, CACHE. pose proof (THUGE_pos g).
    pose proof (align_up_ge (2 * THUGE g) 64). destruct (align_up_multiple (2 * THUGE g) 64) as [m Hm]; try lia.
    repeat split; try lia. now exists m.
  Qed.

  (* the Rust formula for the first part equals the stride of the slice it builds, for HUGE_ORDER >= 9 *)
  Lemma bitfield_bytes_agree : (9 <= hord g)%nat -> bitfield_bytes g = bitfield_bytes_as_computed g.
  Proof.
    intros H9. unfold bitfield_bytes, bitfield_bytes_as_computed, CACHE.
    apply align_up_mult; try lia. unfold ROWS, HF.
    replace (N.of_nat (hord g)) with (9 + N.of_nat (hord g - 9)) by lia.
    rewrite N.pow_add_r. change (2 ^ 9) with (64 * 8).
    set (k := 2 ^ N.of_nat (hord g - 9)).
    replace (64 * 8 * k) with (8 * k * 64) by lia. rewrite N.div_mul by lia.
    replace (8 * k * 8) with (k * 64) by lia. apply N.mod_mul. lia.
  Qed.

  (* C18: locations *)
  Lemma row_loc_bounds fr h r :
    h < nbf g fr -> r < ROWS g ->
    row_loc g h r + 8 <= nbf g fr * bitfield_bytes g
    /\ row_loc g h r + 8 <= lower_size g fr
    /\ row_loc g h r mod 8 = 0.
  Proof.
    intros Hh Hr. destruct bb_facts as (Hb1 & Hb2 & m & Hm). unfold row_loc, lower_size.
    assert ((h + 1) * bitfield_bytes g <= nbf g fr * bitfield_bytes g) by (apply N.mul_le_mono_r; lia).
    split; [nia | split; [nia |]].
    rewrite Hm. replace (h * (64 * m) + r * 8) with ((h * 8 * m + r) * 8) by lia.
    apply N.mod_mul. lia.
  Qed.

  Lemma ent_loc_bounds fr h :
    h < ntab g fr * THUGE g ->
    nbf g fr * bitfield_bytes g <= ent_loc g fr h
    /\ ent_loc g fr h + 2 <= lower_size g fr
    /\ ent_loc g fr h mod 2 = 0.
  Proof.
    intros Hh. destruct tb_facts as (Ht1 & Ht2 & m & Hm). destruct bb_facts as (_ & _ & mb & Hmb).
    pose proof (THUGE_pos g) as Hp. unfold ent_loc, lower_size.
    assert (Hq : h / THUGE g < ntab g fr) by (apply N.div_lt_upper_bound; nia).
    assert (Hr : h mod THUGE g < THUGE g) by (apply N.mod_lt; lia).
    assert ((h / THUGE g + 1) * table_bytes g <= ntab g fr * table_bytes g) by (apply N.mul_le_mono_r; lia).
    set (q := h / THUGE g) in *. set (r := h mod THUGE g) in *. clearbody q r.
    split; [nia | split; [nia |]].
    rewrite Hm, Hmb.
    replace (nbf g fr * (64 * mb) + q * (64 * m) + r * 2)
      with ((nbf g fr * 32 * mb + q * 32 * m + r) * 2) by lia.
    apply N.mod_mul. lia.
  Qed.

  Lemma tree_loc_bounds fr t :
    t < ntab g fr -> tree_loc t + 4 <= trees_size g fr /\ tree_loc t mod 4 = 0.
  Proof.
    intros Ht. unfold tree_loc, trees_size, CACHE.
    pose proof (align_up_ge (4 * ntab g fr) 64). split; try lia.
    apply N.mod_mul. lia.
  Qed.

  (* narrow CAS of toggle_int: stays inside the 8-byte row of the frame and is aligned to its width *)
  Lemma narrow_in_row f order :
    (3 <= order <= 6)%nat ->
    let h := f / HF g in let r := (f mod HF g) / 64 in
    row_loc g h r <= narrow_loc g f order
    /\ narrow_loc g f order + narrow_width order <= row_loc g h r + 8
    /\ narrow_loc g f order mod narrow_width order = 0
    /\ r < ROWS g.
  Proof.
    intros Ho h r. subst h r. destruct bb_facts as (_ & _ & m & Hm). destruct HF_rows as (HR & HR0).
    assert (Hi : f mod HF g < HF g) by (apply N.mod_lt; lia).
    set (i := f mod HF g) in *. set (q := f / HF g).
    (* a lane of 2^order bits is w = 2^(order-3) bytes wide, and c = 8 / w of them make a row *)
    set (w := pow2 (order - 3)). set (c := pow2 (6 - order)).
    assert (Hw : pow2 order = w * 8).
    { unfold w. change 8 with (pow2 3). rewrite <- pow2_add. f_equal. lia. }
    assert (Hc : w * c = 8).
    { unfold w, c. rewrite <- pow2_add. replace (order - 3 + (6 - order))%nat with 3%nat by lia. reflexivity. }
    unfold narrow_loc, row_loc, narrow_width. fold i q. rewrite Hw, N.div_mul by lia.
    destruct (lane_in_row i w c Hc) as (L1 & L2). repeat split; [lia|lia| |apply N.div_lt_upper_bound; lia].
    rewrite Hm. replace (q * (64 * m) + i / (w * 8) * w) with ((q * 8 * c * m + i / (w * 8)) * w) by nia.
    apply N.mod_mul. lia.
  Qed.

  (* the words of a managed frame exist: its bitfield, its tree entry, its huge entry *)
  Lemma frame_words_exist fr f :
    f < fr -> f / HF g < nbf g fr /\ f / TF g < ntab g fr /\ f / HF g < ntab g fr * THUGE g.
  Proof using WF.   (* not needed; C18_frame_words_exist states the hypothesis *)
    intros. pose proof (frame_lt_nbf g fr f H). pose proof (frame_lt_ntab g fr f H).
    pose proof (nbf_le_ntab g fr). repeat split; lia.
  Qed.

  Lemma lower_size_mono n z : n <= z -> lower_size g n <= lower_size g z.
  Proof.
    intros. unfold lower_size.
    assert (nbf g n <= nbf g z) by now apply div_ceil_mono.
    assert (ntab g n <= ntab g z) by now apply div_ceil_mono.
    apply N.add_le_mono; apply N.mul_le_mono_r; auto.
  Qed.
  Lemma trees_size_mono n z : n <= z -> trees_size g n <= trees_size g z.
  Proof.
    intros. unfold trees_size. apply align_up_mono.
    assert (ntab g n <= ntab g z) by now apply div_ceil_mono. lia.
  Qed.
  Lemma lower_size_mod64 fr : lower_size g fr mod 64 = 0.
  Proof.
    destruct bb_facts as (_ & _ & mb & Hmb). destruct tb_facts as (_ & _ & mt & Hmt).
    unfold lower_size. rewrite Hmb, Hmt.
    replace (nbf g fr * (64 * mb) + ntab g fr * (64 * mt)) with ((nbf g fr * mb + ntab g fr * mt) * 64) by lia.
    apply N.mod_mul. lia.
  Qed.
  Lemma trees_size_mod64 fr : trees_size g fr mod 64 = 0.
  Proof. unfold trees_size, CACHE. apply align_up_mod. lia. Qed.
  Lemma lower_parts fr :
    fst (lower_bitfields_part g fr) + snd (lower_bitfields_part g fr) = fst (lower_tables_part g fr)
    /\ fst (lower_tables_part g fr) + snd (lower_tables_part g fr) = lower_size g fr
    /\ fst (lower_tables_part g fr) mod 64 = 0.
  Proof.
    destruct bb_facts as (_ & _ & mb & Hmb).
    unfold lower_bitfields_part, lower_tables_part, lower_size. cbn [fst snd]. repeat split; try lia.
    rewrite Hmb. replace (nbf g fr * (64 * mb)) with (nbf g fr * mb * 64) by lia. apply N.mod_mul. lia.
  Qed.

  (* zero frames: all three sizes are 0 and there is no location at all *)
  Lemma sizes_zero : lower_size g 0 = 0 /\ trees_size g 0 = 0 /\ nbf g 0 = 0 /\ ntab g 0 = 0.
  Proof.
    unfold lower_size, trees_size, nbf, ntab. rewrite !div_ceil_0.
    repeat split; try lia; try (rewrite N.mul_0_r; apply align_up_0).
  Qed.
  (* one cache line of tree entries; one bitfield and one table, each at least a cache line *)
  Lemma sizes_pos fr : 0 < fr -> 64 <= trees_size g fr /\ 128 <= lower_size g fr.
  Proof.
    intros Hf. pose proof (HF_pos g). pose proof (TF_pos g).
    assert (0 < nbf g fr) by (apply div_ceil_pos; lia).
    assert (0 < ntab g fr) by (apply div_ceil_pos; lia).
    destruct bb_facts as (_ & Hb & mb & Hmb). destruct tb_facts as (_ & Ht & mt & Hmt).
    split.
    - unfold trees_size, CACHE. pose proof (align_up_ge (4 * ntab g fr) 64).
      destruct (align_up_multiple (4 * ntab g fr) 64) as [m Hm]; lia.
    - unfold lower_size. nia.
  Qed.
End Geo.

Lemma class_lookup_inv cl c : forall off acc o n,
  (forall o' n', acc = Some (o', n') -> o' + n' * 64 <= off /\ o' mod 64 = 0) ->
  off mod 64 = 0 ->
  class_lookup cl c off acc = Some (o, n) ->
  o + n * 64 <= off + slots_total cl * 64 /\ o mod 64 = 0.
Proof.
  induction cl as [|[id cnt] r IH]; intros off acc o n Hacc Hoff H; cbn [class_lookup] in H.
  - subst acc. destruct (Hacc _ _ eq_refl). cbn [slots_total fold_right]. split; [lia | auto].
  - apply IH in H.
    + cbn [slots_total fold_right snd] in *. fold (slots_total r) in *. split; [nia | tauto].
    + intros o' n' Hs. destruct (id =? c).
      * inversion Hs; subst. split; [lia | auto].
      * destruct (Hacc _ _ Hs). split; [lia | auto].
    + rewrite N.add_mod, Hoff, N.mod_mul by lia. reflexivity.
Qed.

Lemma slot_loc_bounds cl c i o :
  slot_loc cl c i = Some o -> o + 64 <= local_size cl /\ o mod 64 = 0 /\ o mod 8 = 0.
Proof.
  unfold slot_loc, local_size. destruct (class_lookup cl c 0 None) as [[off cnt]|] eqn:E; try discriminate.
  destruct (i <? cnt) eqn:Hi; try discriminate. intros [= <-].
  apply class_lookup_inv in E; try (intros; discriminate); auto.
  destruct E as (E1 & E2). apply N.ltb_lt in Hi.
  assert (Hm : (off + i * 64) mod 64 = 0) by (rewrite N.add_mod, E2, N.mod_mul by lia; reflexivity).
  repeat split; try nia; auto.
  generalize dependent (off + i * 64). clear. intros x Hx.
  apply N.div_exact in Hx; try lia. rewrite Hx.
  replace (64 * (x / 64)) with (8 * (x / 64) * 8) by lia. apply N.mod_mul. lia.
Qed.

Lemma class_lookup_some cl c : forall off acc,
  (acc <> None \/ exists n, In (c, n) cl) -> class_lookup cl c off acc <> None.
Proof.
  induction cl as [|[id cnt] r IH]; intros off acc H; cbn [class_lookup].
  - destruct H as [H|[n []]]; auto.
  - apply IH. destruct H as [H|[n [H|H]]].
    + left. destruct (id =? c); congruence.
    + inversion H; subst. rewrite N.eqb_refl. left; congruence.
    + right; eauto.
Qed.

(* every slot of every configured class has a location *)
Lemma slot_loc_defined cl c n :
  In (c, n) cl -> exists off cnt, class_lookup cl c 0 None = Some (off, cnt)
                                  /\ forall i, i < cnt -> slot_loc cl c i = Some (off + i * 64).
Proof.
  intros H. destruct (class_lookup cl c 0 None) as [[off cnt]|] eqn:E.
  - exists off, cnt. split; auto. intros i Hi. unfold slot_loc. rewrite E.
    apply N.ltb_lt in Hi. now rewrite Hi.
  - exfalso. eapply class_lookup_some; [|exact E]. right; eauto.
Qed.

(* a classing without slots has an empty buffer and no location *)
Lemma slot_loc_none_empty cl c i : local_size cl = 0 -> slot_loc cl c i = None.
Proof.
  intros H. destruct (slot_loc cl c i) eqn:E; auto.
  apply slot_loc_bounds in E. lia.
Qed.

(* C08: MetaData::valid *)
Definition nowrap (b : buf) : Prop := b_end b < W64.
Definition empty (b : buf) : bool := b_len b =? 0.

Lemma wdec64_pos e : 0 < e -> e < W64 -> wdec64 e = e - 1.
Proof. intros. unfold wdec64, W64 in *. zify. Z.to_euclidean_division_equations. lia. Qed.
Lemma wdec64_0 : wdec64 0 = W64 - 1.
Proof. reflexivity. Qed.

(* `overlap` never accepts intersecting ranges (no hypothesis at all) *)
Lemma overlap_sound a b : overlap a b = false -> intersects a b = false.
Proof. unfold overlap, intersects, rcontains, b_end. lia. Qed.

(* what `overlap` answers, exactly *)
Lemma overlap_nonempty a b :
  nowrap a -> nowrap b -> empty a = false -> empty b = false -> overlap a b = intersects a b.
Proof.
  unfold nowrap, empty, overlap, intersects, rcontains, b_end. intros Ha Hb Ea Eb.
  rewrite !wdec64_pos by lia. lia.
Qed.
Lemma overlap_empty_r a b :
  nowrap a -> nowrap b -> empty a = false -> empty b = true ->
  overlap a b = (b_addr a <=? b_addr b) && (b_addr b <=? b_end a).
Proof.
  unfold nowrap, empty, overlap, intersects, rcontains, b_end. intros Ha Hb Ea Eb.
  destruct (N.eq_dec (b_addr b) 0) as [Hz|Hz].
  - replace (b_addr b + b_len b) with 0 by lia. rewrite wdec64_0.
    rewrite (wdec64_pos (b_addr a + b_len a)) by lia. unfold W64 in *. lia.
  - rewrite !wdec64_pos by lia. lia.
Qed.
Lemma overlap_sym a b : overlap a b = overlap b a.
Proof. unfold overlap. lia. Qed.
Lemma overlap_empty_l a b :
  nowrap a -> nowrap b -> empty a = true -> empty b = false ->
  overlap a b = (b_addr b <=? b_addr a) && (b_addr a <=? b_end b).
Proof. intros. rewrite overlap_sym. now apply overlap_empty_r. Qed.
Lemma overlap_empty_both a b :
  nowrap a -> nowrap b -> empty a = true -> empty b = true -> overlap a b = false.
Proof.
  unfold nowrap, empty, overlap, rcontains, b_end. intros Ha Hb Ea Eb.
  replace (b_addr a + b_len a) with (b_addr a) by lia.
  replace (b_addr b + b_len b) with (b_addr b) by lia. lia.
Qed.

(* the relation `valid` enforces between two buffers: non-empty ones are disjoint; an empty one does
   not point into the closed range [start, end] of a non-empty one (this also rejects an empty buffer
   that merely touches the start or the end of another buffer); two empty ones are unconstrained *)
Definition separated (a b : buf) : bool :=
  if empty a then
    if empty b then true else negb ((b_addr b <=? b_addr a) && (b_addr a <=? b_end b))
  else
    if empty b then negb ((b_addr a <=? b_addr b) && (b_addr b <=? b_end a))
    else negb (intersects a b).

Lemma overlap_spec a b : nowrap a -> nowrap b -> overlap a b = negb (separated a b).
Proof.
  intros Ha Hb. unfold separated.
  destruct (empty a) eqn:Ea, (empty b) eqn:Eb; rewrite ?negb_involutive.
  - now apply overlap_empty_both.
  - now apply overlap_empty_l.
  - now apply overlap_empty_r.
  - now apply overlap_nonempty.
Qed.

Lemma separated_disjoint a b : separated a b = true -> intersects a b = false.
Proof.
  unfold separated, intersects, empty, b_end.
  destruct (b_len a =? 0) eqn:Ea, (b_len b =? 0) eqn:Eb; intros; lia.
Qed.

Section Valid.
  Variable g : geom.
  Variables (fr : N) (cl : list (N * N)) (local trees lower : buf).

  (* accepted => everything the constructors rely on *)
  Lemma valid_true :
    meta_valid g fr cl local trees lower = true ->
    local_size cl <= b_len local /\ trees_size g fr <= b_len trees /\ lower_size g fr <= b_len lower
    /\ b_addr local mod 64 = 0 /\ b_addr trees mod 64 = 0 /\ b_addr lower mod 64 = 0
    /\ intersects local trees = false /\ intersects trees lower = false /\ intersects lower local = false
    /\ lower_new_ok g fr lower = true /\ locals_new_ok cl local = true /\ trees_new_ok g fr trees = true.
  Proof.
    unfold meta_valid, lower_new_ok, locals_new_ok, trees_new_ok, aligned64. intros H.
    repeat (apply andb_prop in H; destruct H as [H ?]).
    apply negb_true_iff in H0, H1, H2.
    apply overlap_sound in H0, H1, H2.
    repeat split; auto; lia.
  Qed.

  (* the exact decision rule *)
  Lemma valid_iff :
    nowrap local -> nowrap trees -> nowrap lower ->
    meta_valid g fr cl local trees lower =
      (local_size cl <=? b_len local) && (trees_size g fr <=? b_len trees) && (lower_size g fr <=? b_len lower)
      && aligned64 local && aligned64 trees && aligned64 lower
      && separated local trees && separated trees lower && separated lower local.
  Proof.
    intros. unfold meta_valid. rewrite !overlap_spec by auto. now rewrite !negb_involutive.
  Qed.

  (* rejected whenever a buffer is too short ... *)
  Lemma valid_false_short :
    b_len local < local_size cl \/ b_len trees < trees_size g fr \/ b_len lower < lower_size g fr ->
    meta_valid g fr cl local trees lower = false.
  Proof. unfold meta_valid. intros. lia. Qed.
  (* ... misaligned ... *)
  Lemma valid_false_misaligned :
    b_addr local mod 64 <> 0 \/ b_addr trees mod 64 <> 0 \/ b_addr lower mod 64 <> 0 ->
    meta_valid g fr cl local trees lower = false.
  Proof.
    unfold meta_valid, aligned64. intros H.
    destruct (b_addr local mod 64 =? 0) eqn:E1, (b_addr trees mod 64 =? 0) eqn:E2,
             (b_addr lower mod 64 =? 0) eqn:E3; rewrite ?andb_false_r; cbn [andb]; try reflexivity.
    apply N.eqb_eq in E1, E2, E3. tauto.
  Qed.
  (* ... or two buffers share a byte (an empty buffer shares no byte; `intersects` is then "points
     strictly inside") *)
  Lemma valid_false_intersect :
    intersects local trees = true \/ intersects trees lower = true \/ intersects lower local = true ->
    meta_valid g fr cl local trees lower = false.
  Proof.
    intros H. destruct (meta_valid g fr cl local trees lower) eqn:E; auto.
    apply valid_true in E. destruct E as (_ & _ & _ & _ & _ & _ & E1 & E2 & E3 & _).
    destruct H as [H|[H|H]]; congruence.
  Qed.
End Valid.

(* C17: zone wrapper *)
Section ZoneProofs.
  Variables state request class stat : Type.
  Variable inner_get : state -> option N -> request -> res (N * class) * state.
  Variable inner_put : state -> N -> request -> res unit * state.
  Variable inner_stats_at : state -> N -> nat -> stat.
  Variable stat_default : stat.
  Variable frames : N.
  (* C01's in-range property of the inner allocator *)
  Hypothesis inner_in_range : forall s fr rq f c s', inner_get s fr rq = (Ok (f, c), s') -> f < frames.

  Definition shift (off : N) (r : res (N * class) * state) : res (N * class) * state :=
    (match fst r with Ok (f, c) => Ok (f + off, c) | Err e => Err e | Panic p => Panic p end, snd r).

  Notation zget := (zone_get state request class inner_get).
  Notation zput := (zone_put state request inner_put).
  Notation zstat := (zone_stats_at state stat inner_stats_at stat_default).

  Lemma zone_get_conj off s frame rq :
    off + frames <= W64 ->
    zget off s frame rq =
      match frame with
      | Some f => if f <? off then (Err EArgument, s) else shift off (inner_get s (Some (f - off)) rq)
      | None => shift off (inner_get s None rq)
      end.
  Proof.
    intros Hov. unfold zone_get, shift.
    assert (K : forall fr, (let '(r, s') := inner_get s fr rq in
                 (match r with
                  | Ok (f, c) => match zone_add f off with Ok f' => Ok (f', c) | Err e => Err e | Panic p => Panic p end
                  | Err e => Err e | Panic p => Panic p end, s'))
                = (match fst (inner_get s fr rq) with Ok (f, c) => Ok (f + off, c) | Err e => Err e | Panic p => Panic p end,
                   snd (inner_get s fr rq))).
    { intros fr. destruct (inner_get s fr rq) as [r s'] eqn:E. cbn [fst snd].
      destruct r as [[f c]|e|p]; auto.
      apply inner_in_range in E. unfold zone_add.
      assert (f + off <? W64 = true) as -> by lia. reflexivity. }
    destruct frame as [f|]; [destruct (f <? off)|]; auto.
  Qed.

  (* results lie in [off, off + frames); requests below the offset are refused without touching the
     inner allocator *)
  Lemma zone_get_range off s frame rq f c s' :
    off + frames <= W64 -> zget off s frame rq = (Ok (f, c), s') -> off <= f < off + frames.
  Proof.
    intros Hov H. rewrite zone_get_conj in H by auto.
    assert (K : forall fr, shift off (inner_get s fr rq) = (Ok (f, c), s') -> off <= f < off + frames).
    { intros fr. unfold shift. destruct (inner_get s fr rq) as [r s2] eqn:E. cbn [fst snd].
      destruct r as [[f0 c0]|e|p]; intros [= <- <- <-]. apply inner_in_range in E. lia. }
    destruct frame as [f0|]; [destruct (f0 <? off)|]; try discriminate; eauto.
  Qed.
  Lemma zone_get_below off s f rq : f < off -> zget off s (Some f) rq = (Err EArgument, s).
  Proof. intros. unfold zone_get. assert (f <? off = true) as -> by lia. reflexivity. Qed.
  Lemma zone_put_conj off s f rq :
    zput off s f rq = if f <? off then (Err EArgument, s) else inner_put s (f - off) rq.
  Proof. reflexivity. Qed.
  Lemma zone_put_below off s f rq : f < off -> zput off s f rq = (Err EArgument, s).
  Proof. intros. unfold zone_put. assert (f <? off = true) as -> by lia. reflexivity. Qed.
  Lemma zone_put_shifted off s f rq : zput off s (f + off) rq = inner_put s f rq.
  Proof.
    unfold zone_put. assert (f + off <? off = false) as -> by lia.
    now replace (f + off - off) with f by lia.
  Qed.
  Lemma zone_stats_at_conj off s f o :
    zstat off s f o = if f <? off then stat_default else inner_stats_at s (f - off) o.
  Proof. reflexivity. Qed.
  Lemma zone_stats_at_shifted off s f o : zstat off s (f + off) o = inner_stats_at s f o.
  Proof.
    unfold zone_stats_at. assert (f + off <? off = false) as -> by lia.
    now replace (f + off - off) with f by lia.
  Qed.
  (* a frame handed out by the wrapper can be given back: the inner allocator sees its own frame *)
  Lemma zone_get_put_roundtrip off s rq c s' f0 :
    off + frames <= W64 -> inner_get s None rq = (Ok (f0, c), s') ->
    zget off s None rq = (Ok (f0 + off, c), s') /\ forall rq', zput off s' (f0 + off) rq' = inner_put s' f0 rq'.
  Proof.
    intros Hov E. rewrite zone_get_conj by auto. unfold shift. rewrite E. cbn [fst snd].
    split; auto. intros. apply zone_put_shifted.
  Qed.
End ZoneProofs.

(* C17: persistent layout *)
Section NvmProofs.
  Variable g : geom.
  Hypothesis WF : wf_geom g.
  Variable fs : N.
  Hypothesis FS : 0 < fs.

  Lemma nvm_layout_spec z :
    match nvm_layout g fs z with
    | Panic _ => False
    | Err e => e = EInit /\ z * fs < lower_size g z + fs
    | Ok l =>
        lower_size g z + fs <= z * fs
        /\ nl_managed l + nl_meta_pages l + 1 = z
        /\ nl_lower_off l = nl_managed l * fs
        /\ nl_lower_len l = lower_size g z
        /\ nl_lower_off l + nl_lower_len l <= nl_header_off l
        /\ nl_header_off l + fs = z * fs
        /\ lower_size g (nl_managed l) <= nl_lower_len l
        /\ trees_size g (nl_managed l) <= trees_size g z
    end.
  Proof.
    unfold nvm_layout. destruct (z * fs <? lower_size g z + fs) eqn:G.
    - split; auto. lia.
    - apply N.ltb_ge in G. set (m := lower_size g z) in *.
      pose proof (div_ceil_mul_lt m fs FS) as Hp. pose proof (div_ceil_ge m fs ltac:(lia)) as Hq.
      set (p := div_ceil m fs) in *.
      assert (Hpz : p < z) by (apply (N.mul_lt_mono_pos_r fs); lia).
      assert (z - 1 <? p = false) as -> by lia.
      cbn [nl_managed nl_meta_pages nl_lower_off nl_lower_len nl_header_off].
      repeat split; try lia; try nia.
      + apply lower_size_mono. lia.
      + apply trees_size_mono. lia.
  Qed.

  Lemma nvm_layout_no_panic z p : nvm_layout g fs z <> Panic p.
  Proof. pose proof (nvm_layout_spec z). destruct (nvm_layout g fs z); congruence || tauto. Qed.

  (* a block of k frames starting at managed frame f: its bytes end at or before the first metadata
     byte, which in turn lies before the header page *)
  Lemma nvm_block_below_meta z l f k :
    nvm_layout g fs z = Ok l -> f + k <= nl_managed l ->
    (f + k) * fs <= nl_lower_off l /\ (f + k) * fs <= nl_header_off l /\ nl_header_off l + fs = z * fs.
  Proof.
    intros E H. pose proof (nvm_layout_spec z) as S. rewrite E in S.
    destruct S as (_ & _ & S3 & _ & S5 & S6 & _).
    assert ((f + k) * fs <= nl_managed l * fs) by (apply N.mul_le_mono_r; lia).
    repeat split; lia.
  Qed.

  Lemma nvm_create_spec base z rec hm hf :
    match nvm_create g fs base z rec hm hf with
    | Panic _ => False
    | Err e => e = EInit
    | Ok (off, l, wr) =>
        nvm_layout g fs z = Ok l /\ off * fs = base /\ zone_create_ok g off = true /\ wr = negb rec
        /\ (rec = true -> hm = NVM_MAGIC /\ hf = z - 1)
    end.
  Proof using WF FS.   (* WF is not needed; the C17 statements carry it *)
    unfold nvm_create. pose proof (nvm_layout_spec z) as S.
    destruct (z * fs <? lower_size g z + fs) eqn:G; cbn [orb]; auto.
    destruct (base mod (fs * TF g) =? 0) eqn:A; cbn [negb]; auto.
    destruct (rec && negb ((hm =? NVM_MAGIC) && (hf =? z - 1))) eqn:R; auto.
    destruct (nvm_layout g fs z) as [l|e|p] eqn:L; try tauto.
    pose proof (TF_pos g) as HT.
    apply N.eqb_eq in A. apply N.div_exact in A; try nia.
    set (q := base / (fs * TF g)) in *.
    assert (Hdiv : base / fs = TF g * q).
    { rewrite A. replace (fs * TF g * q) with (TF g * q * fs) by lia. apply N.div_mul. lia. }
    repeat split; auto.
    - rewrite Hdiv. lia.
    - unfold zone_create_ok. rewrite Hdiv. rewrite N.mul_comm, N.mod_mul by lia. reflexivity.
    - destruct rec; try discriminate. cbn [andb] in R. apply negb_false_iff in R. lia.
    - destruct rec; try discriminate. cbn [andb] in R. apply negb_false_iff in R. lia.
  Qed.

  (* recover refuses unless the header holds the magic and the frame count z - 1 *)
  Lemma nvm_recover_refuses base z hm hf :
    hm <> NVM_MAGIC \/ hf <> z - 1 -> nvm_create g fs base z true hm hf = Err EInit.
  Proof.
    intros H. pose proof (nvm_create_spec base z true hm hf) as S.
    destruct (nvm_create g fs base z true hm hf) as [[[off l] wr]|e|p]; cbn beta iota in S.
    - exfalso. destruct S as (_ & _ & _ & _ & S). destruct (S eq_refl). tauto.
    - now subst.
    - tauto.
  Qed.
  Lemma nvm_create_misaligned base z rec hm hf :
    base mod (fs * TF g) <> 0 -> nvm_create g fs base z rec hm hf = Err EInit.
  Proof.
    intros H. unfold nvm_create. apply N.eqb_neq in H. rewrite H. cbn [negb]. now rewrite orb_true_r.
  Qed.

  (* the in-zone lower buffer passes the inner allocator's size and alignment checks and ends before
     the header page *)
  Lemma nvm_lower_buf_ok base z rec hm hf off l wr :
    fs mod 64 = 0 ->
    nvm_create g fs base z rec hm hf = Ok (off, l, wr) ->
    lower_new_ok g (nl_managed l) (nvm_lower_buf base l) = true
    /\ b_end (nvm_lower_buf base l) <= base + nl_header_off l
    /\ base + nl_managed l * fs = b_addr (nvm_lower_buf base l).
  Proof.
    intros F64 E. pose proof (nvm_create_spec base z rec hm hf) as S. rewrite E in S.
    destruct S as (L & Hb & _). pose proof (nvm_layout_spec z) as S. rewrite L in S.
    destruct S as (_ & _ & S3 & S4 & S5 & _ & S7 & _).
    unfold lower_new_ok, nvm_lower_buf, aligned64, b_end. cbn [b_addr b_len].
    repeat split; try lia.
    apply andb_true_intro. split; [lia|]. apply N.eqb_eq.
    apply N.div_exact in F64; try lia. rewrite S3, <- Hb, F64.
    replace (off * (64 * (fs / 64)) + nl_managed l * (64 * (fs / 64)))
      with ((off * (fs / 64) + nl_managed l * (fs / 64)) * 64) by lia.
    apply N.mod_mul. lia.
  Qed.

  (* the whole property about returned frames: the inner allocator (managing n = nl_managed frames,
     in range by C01) behind the zone wrapper at offset base / fs *)
  Section Returned.
    Variables state request class : Type.
    Variable inner_get : state -> option N -> request -> res (N * class) * state.
    Variable req_frames : request -> N.                           (* 2^order *)
    Variables (base z : N) (rec : bool) (hm hf off : N) (l : nvm_layout_t) (wr : bool).
    Hypothesis created : nvm_create g fs base z rec hm hf = Ok (off, l, wr).
    Hypothesis inner_in_range :
      forall s fr rq f c s', inner_get s fr rq = (Ok (f, c), s') -> f + req_frames rq <= nl_managed l.
    Hypothesis addr_space : base + z * fs <= W64.

    Lemma nvm_returned_frames s frame rq f c s' :
      zone_get state request class inner_get off s frame rq = (Ok (f, c), s') ->
      (* the block's bytes [f*fs, (f + 2^order)*fs) lie inside the zone's frame area ... *)
      base <= f * fs
      /\ (f + req_frames rq) * fs <= base + nl_lower_off l
      (* ... which ends before the lower metadata and the header page *)
      /\ base + nl_lower_off l + nl_lower_len l <= base + nl_header_off l
      /\ base + nl_header_off l + fs = base + z * fs.
    Proof.
      intros H. pose proof (nvm_create_spec base z rec hm hf) as S. rewrite created in S.
      destruct S as (L & Hb & _). pose proof (nvm_layout_spec z) as S. rewrite L in S.
      destruct S as (S1 & S2 & S3 & S4 & S5 & S6 & _).
      assert (Hin : forall s fr rq f c s', inner_get s fr rq = (Ok (f, c), s') -> f < nl_managed l + 1).
      { intros. apply inner_in_range in H0. lia. }
      assert (Hov : off + (nl_managed l + 1) <= W64).
      { assert ((off + (nl_managed l + 1)) * fs <= W64 * fs) by nia.
        apply (N.mul_le_mono_pos_r _ _ fs); lia. }
      rewrite (zone_get_conj state request class inner_get (nl_managed l + 1) Hin) in H by auto.
      assert (K : forall fr, shift state class off (inner_get s fr rq) = (Ok (f, c), s') ->
                  exists f0, f = f0 + off /\ f0 + req_frames rq <= nl_managed l).
      { intros fr. unfold shift. destruct (inner_get s fr rq) as [r s2] eqn:E. cbn [fst snd].
        destruct r as [[f0 c0]|e|p]; intros [= <- <- <-]. apply inner_in_range in E. eauto. }
      assert (exists f0, f = f0 + off /\ f0 + req_frames rq <= nl_managed l) as (f0 & -> & Hf0).
      { destruct frame as [fq|]; [destruct (fq <? off)|]; try discriminate; eauto. }
      assert ((f0 + req_frames rq) * fs <= nl_managed l * fs) by (apply N.mul_le_mono_r; lia).
      repeat split; nia.
    Qed.
  End Returned.
End NvmProofs.

(* non-vacuity (default geometry) *)
Definition g0 : geom := {| hord := 9; tlog := 2 |}.
Lemma g0_wf : wf_geom g0.
Proof. unfold wf_geom, g0; cbn; lia. Qed.

Example ex_sizes :
  bitfield_bytes g0 = 64 /\ table_bytes g0 = 64
  /\ lower_size g0 0 = 0 /\ lower_size g0 1 = 128 /\ lower_size g0 2048 = 320 /\ lower_size g0 2049 = 448
  /\ trees_size g0 0 = 0 /\ trees_size g0 1 = 64 /\ trees_size g0 (16 * 2048 + 1) = 128
  /\ local_size [(0, 2); (1, 0); (2, 3)] = 320.
Proof. vm_compute. repeat split. Qed.

Example ex_locs :
  row_loc g0 4 7 = 312 /\ ent_loc g0 2049 4 = 384 /\ ent_loc g0 2049 7 = 390 /\ tree_loc 16 = 64
  /\ slot_loc [(0, 2); (1, 0); (2, 3)] 2 1 = Some 192 /\ slot_loc [(0, 2); (1, 0); (2, 3)] 1 0 = None
  /\ narrow_loc g0 (512 + 72) 3 = 64 + 9 /\ narrow_loc g0 (512 + 96) 5 = 64 + 12.
Proof. vm_compute. repeat split. Qed.

(* a zone of 2049 frames of 4 KiB keeps 2047 frames; 2 frames keep 0 (the D1 input); 1 frame is refused *)
Example ex_nvm :
  nvm_layout g0 4096 2049 = Ok {| nl_managed := 2047; nl_meta_pages := 1; nl_lower_off := 2047 * 4096;
                                  nl_lower_len := 448; nl_header_off := 2048 * 4096 |}
  /\ (exists l, nvm_layout g0 4096 2 = Ok l /\ nl_managed l = 0)
  /\ nvm_layout g0 4096 1 = Err EInit /\ nvm_layout g0 4096 0 = Err EInit
  /\ (exists l, nvm_layout g0 4096 2051 = Ok l /\ nl_managed l = 2049).
Proof. vm_compute. repeat split; eexists; split; reflexivity. Qed.

Example ex_valid :
  let l := {| b_addr := 4096; b_len := 128 |} in
  let t := {| b_addr := 4224; b_len := 64 |} in
  let w := {| b_addr := 4288; b_len := 448 |} in
  meta_valid g0 2049 [(0, 1); (1, 1)] l t w = true                                     (* adjacent: accepted *)
  /\ meta_valid g0 2049 [(0, 1); (1, 1)] l t {| b_addr := 4288; b_len := 447 |} = false (* one byte short *)
  /\ meta_valid g0 2049 [(0, 1); (1, 1)] l {| b_addr := 4225; b_len := 64 |} w = false  (* misaligned *)
  /\ meta_valid g0 2049 [(0, 1); (1, 1)] l {| b_addr := 4160; b_len := 128 |} w = false (* overlapping *)
  /\ meta_valid g0 2049 [(0, 1); (1, 1)] l {| b_addr := 4096; b_len := 1024 |} w = false (* nested *)
  /\ meta_valid g0 2049 [(0, 1); (1, 1)] l l w = false                                  (* identical *)
  (* empty buffers: a zero-slot classing; the empty buffer may be anywhere except inside or touching
     another buffer *)
  /\ meta_valid g0 2049 [(0, 0)] {| b_addr := 64; b_len := 0 |} t w = true
  /\ meta_valid g0 2049 [(0, 0)] {| b_addr := 4224; b_len := 0 |} t w = false           (* at t's start *)
  /\ meta_valid g0 2049 [(0, 0)] {| b_addr := 4736; b_len := 0 |} t w = false           (* at w's end: touching only *)
  /\ intersects {| b_addr := 4736; b_len := 0 |} w = false
  /\ meta_valid g0 0 [(0, 0)] {| b_addr := 64; b_len := 0 |} {| b_addr := 64; b_len := 0 |} {| b_addr := 64; b_len := 0 |} = true.
Proof. vm_compute. repeat split. Qed.
