(* C05: a crash at any point of any interleaving, followed by recovery from the persistent metadata alone.

   The crash point is ANY reachable state `s` of the machine M1 (LowerMachine.v: one transition per atomic
   load / compare-exchange, so "between any two writes to the persistent metadata, with any calls in flight").
   The persistent metadata is `lower_of s`; the volatile part (thread pool, ghost) is lost.  Recovery is
   `lower_recover g (lower_of s)` (what `Lower::new(.., Init::Recover)` leaves).
   Everything follows from the invariant `Inv g s` (ConcInvDef.v / ConcProps.conc_inv) read through the
   theorems of RecoverProofs.v (recover does not change which frames are allocated nor which huge frames are
   whole, and re-establishes the counters).

   `touched s f`: frame f is touched by a call in flight, defined from the ghost record of the in-flight
   threads (ConcInvDef.ghost_of): f lies in the owned interval of a thread, or in a transit row of its focus
   huge frame.  Per program point this is (see `gpc`):
     put, order < hord   P1/PP3, toggling (TL..TW XPut), panicked "Exceeding retries": the frames of its block
                         not yet cleared (rows already cleared by a multi-row put are free and not touched);
                         PS2L/PS2C (bits cleared, counter not yet incremented): nothing - the block is free;
     put of a part of a marker huge frame (split protocol) TL..TU (XSplit _), PP2: its block and the rows
                         [0, cnt) of the huge frame that its own CAS filled so far (at PP2: the whole huge
                         frame).  This includes the "stale split" window: a splitter whose huge frame was
                         already split by another thread fills rows whose frames others have freed in the
                         meantime, until its CAS fails and it rolls back;
     put, order >= hord  HC _ q: the entries not yet released [frame + q HF, frame + n);
     get, order <= 6     nothing (one CAS on the counter, one on the row: the successful last CAS goes straight
                         to `finish`, so "committed but not yet returned" is empty in M1);
     get, 7 <= order < hord   G2W/G2U: the rows of the chunk filled so far;
     get / get_at, order >= hord   HC/HU: the entries claimed so far;
     get_at, order < hord     TW/TU XGetAt: the rows of its block toggled so far (a successful last CAS goes to
                         `finish`).
   Definitions and proofs; the property theorems are restated in Properties/C05.v. *)
From Coq Require Import PeanoNat ZArith ZifyN ZifyBool.
From LLF Require Import Base BitLemmas Row RowProofs Bitfield Lower Spec AbsLemmas LowerMachine
  ConcBase ConcInvDef ConcInvGeom ConcInvStep ConcInvTac ConcInv ConcInvInit ConcProps RecoverProofs.
Local Open Scope N_scope.

(* frame f lies in a block returned by a completed allocation and not passed to a (started) free *)
Definition covered_by_held (s : mstate) (f : N) : Prop :=
  exists F K, In (F, K) (ms_held s) /\ F <= f < F + pow2 K.
Definition covered_b (s : mstate) (f : N) : bool := existsb (fun b => cover b f) (ms_held s).
(* no call in flight *)
Definition quiescent (s : mstate) : Prop := forall x, In x (ms_pool s) -> exists l, x = TIdle l.

Section Defs.
  Variable g : geom.

  Definition touches (x : thr) (f : N) : bool :=
    let G := ghost_of g x in
    inb (own_lo G) (own_n G) f ||
    ((f / HF g =? g_h G) && inb (tr_lo G) (tr_n G) ((f mod HF g) / 64)).
  Definition touched (s : mstate) (f : N) : Prop := exists x, In x (ms_pool s) /\ touches x f = true.

  (* boolean forms (testing, examples) *)
  Definition touched_b (s : mstate) (f : N) : bool := existsb (fun x => touches x f) (ms_pool s).
  Definition crash_ok_b (s : mstate) : bool :=
    let m := lower_recover g (lower_of s) in
    let a := abs g m in
    lower_invb g m &&
    forallb (fun b => spec_put_enabled g a (fst b) (snd b)) (ms_held s) &&
    allb (ms_frames s) (fun f => negb (N.testbit (o_alloc a) f) || covered_b s f || touched_b s f).
End Defs.

Lemma sumf_b2n_pos {A} (p : A -> bool) l : 1 <= sumf (fun x => b2n (p x)) l <-> exists x, In x l /\ p x = true.
Proof.
  split.
  - induction l as [|a r IH]; [rewrite sumf_nil; lia|]. rewrite sumf_cons. intros H.
    destruct (p a) eqn:E; [exists a; split; [left; reflexivity|exact E]|].
    destruct IH as (x & Hx & Hp); [cbn [b2n] in H; lia|]. exists x. split; [right; exact Hx|exact Hp].
  - intros (x & Hx & Hp). pose proof (sumf_ge_in (fun x => b2n (p x)) l x Hx) as G. cbn beta in G.
    rewrite Hp in G. exact G.
Qed.

Lemma inb_0 lo x : inb lo 0 x = false.
Proof. unfold inb. lia. Qed.

Section Crash.
  Variable g : geom.
  Hypothesis wf : wf_geom g.
  Notation HF := (HF g).
  Notation THUGE := (THUGE g).
  Notation ROWS := (ROWS g).

  Lemma fidx_divmod h r i : r < ROWS -> i < 64 ->
    fidx g h r i / HF = h /\ fidx g h r i mod HF = r * 64 + i /\ (r * 64 + i) / 64 = r /\ (r * 64 + i) mod 64 = i.
  Proof.
    intros Hr Hi. pose proof (rowbit_lt g wf r i Hr Hi) as Hb. pose proof (HF_pos g) as HP. unfold fidx.
    repeat split.
    - symmetry. apply (N.div_unique _ _ _ (r * 64 + i)); [exact Hb|lia].
    - symmetry. apply (N.mod_unique _ _ h); [exact Hb|lia].
    - symmetry. apply (N.div_unique _ _ _ i); [exact Hi|lia].
    - symmetry. apply (N.mod_unique _ _ r); [exact Hi|lia].
  Qed.

  Lemma frame_decomp f : exists r i, f = fidx g (f / HF) r i /\ r < ROWS /\ i < 64.
  Proof.
    destruct (small_decomp g wf f 0 (N.mod_1_r f)) as (E & Hr & Hi); [destruct wf; lia|].
    exists ((f / 64) mod ROWS), (f mod 64). auto.
  Qed.

  Lemma inv_ent s h : Inv g s -> h < nbf g (ms_frames s) -> rd_ent s h = Some (entv s h).
  Proof.
    intros I Hh. destruct (has_ent g s h I) as (v & E); [pose proof (nbf_le_ents g (ms_frames s)); lia|].
    rewrite (entv_rd s h v E). exact E.
  Qed.

  Lemma rows_bit s h rows r i : Inv g s -> nth_error (ms_bfs s) (nn h) = Some rows -> r < ROWS -> i < 64 ->
    N.testbit (rows_bits rows) (r * 64 + i) = bit s h r i.
  Proof.
    intros I E Hr Hi. pose proof (I_rows g s I _ _ E) as Hok.
    destruct (fidx_divmod 0 r i Hr Hi) as (_ & _ & Ed & Em).
    rewrite (rows_bits_testbit g rows Hok), Ed, Em. unfold bit, rowv, rd_row. rewrite E.
    destruct (nth_error rows (nn r)); [reflexivity|symmetry; apply N.bits_0].
  Qed.

  Lemma alloc_at_bit s h r i : Inv g s -> h < nbf g (ms_frames s) -> r < ROWS -> i < 64 ->
    alloc_at g (lower_of s) (fidx g h r i) =
    (fidx g h r i <? ms_frames s) && ((entv s h =? MARK) || bit s h r i).
  Proof.
    intros I Hh Hr Hi. destruct (fidx_divmod h r i Hr Hi) as (Ed & Em & _).
    destruct (has_rows g s h I Hh) as (rows & Eb & _).
    unfold alloc_at. rewrite Ed, Em. cbn [frames lower_of]. f_equal.
    change (ent (lower_of s) h) with (rd_ent s h). change (bf (lower_of s) h) with (nth_error (ms_bfs s) (nn h)).
    rewrite (inv_ent s h I Hh), Eb, (rows_bit s h rows r i I Eb Hr Hi). reflexivity.
  Qed.

  Lemma whole_at_mark s h : Inv g s -> h < nbf g (ms_frames s) -> whole_at (lower_of s) h = (entv s h =? MARK).
  Proof.
    intros I Hh. destruct (has_rows g s h I Hh) as (rows & Eb & _). unfold whole_at.
    change (ent (lower_of s) h) with (rd_ent s h). change (bf (lower_of s) h) with (nth_error (ms_bfs s) (nn h)).
    rewrite (inv_ent s h I Hh), Eb. reflexivity.
  Qed.

  (* slots at or beyond `frames` are set and lie under a counter entry *)
  Lemma oor_bit s h r i : Inv g s -> h < nbf g (ms_frames s) -> r < ROWS -> i < 64 ->
    ms_frames s <= fidx g h r i -> bit s h r i = true /\ entv s h <> MARK.
  Proof.
    intros I Hh Hr Hi Ho. pose proof (I_A g s I h r i Hh Hr Hi) as A.
    assert (Hm : entv s h <> MARK).
    { intros E. pose proof (I_G g s I h Hh E). pose proof (rowbit_lt g wf r i Hr Hi). unfold fidx in Ho. lia. }
    unfold isMark, oor in A. destruct (N.eqb_spec (entv s h) MARK); [contradiction|].
    destruct (N.leb_spec (ms_frames s) (fidx g h r i)); [|lia]. cbn [b2n] in A.
    split; [|exact Hm]. destruct (bit s h r i); [reflexivity|cbn [b2n] in A; lia].
  Qed.

  Lemma ent_bf_at s h e rows : Inv g s -> nth_error (ms_ents s) h = Some e -> nth_error (ms_bfs s) h = Some rows ->
    N.of_nat h < nbf g (ms_frames s) /\ entv s (N.of_nat h) = e /\ nth_error (ms_bfs s) (nn (N.of_nat h)) = Some rows.
  Proof.
    intros I He Hb. unfold entv, rd_ent, nn. rewrite Nat2N.id, He. split; [|split; [reflexivity|exact Hb]].
    apply nth_error_some_lt in Hb. rewrite (I_len1 g s I) in Hb. unfold nn in Hb. lia.
  Qed.

  (* recover's precondition holds at every crash point *)
  Theorem inv_lower_pre s : Inv g s -> LowerPre g (lower_of s).
  Proof.
    intros I. unfold LowerPre. cbn [frames bfs ents lower_of].
    split; [exact (I_len1 g s I)|]. split; [exact (I_len2 g s I)|]. split.
    - intros h e rows He Hb. destruct (ent_bf_at s h e rows I He Hb) as (Hh & Ee & Eb).
      split; [exact (I_rows g s I _ _ Hb)|]. split.
      + intros Em. apply (I_G g s I _ Hh). rewrite Ee. exact Em.
      + intros i Hi Ho. pose proof (ROWS_pos g wf) as PR.
        assert (Hr : i / 64 < ROWS) by (apply N.div_lt_upper_bound; [lia|]; rewrite <- (HF_64 g wf); exact Hi).
        assert (Hj : i mod 64 < 64) by (apply N.mod_lt; lia).
        assert (Ei : i = i / 64 * 64 + i mod 64) by (pose proof (N.div_mod i 64 ltac:(lia)); lia).
        rewrite Ei, (rows_bit s _ rows _ _ I Eb Hr Hj).
        apply (oor_bit s _ _ _ I Hh Hr Hj). unfold fidx. lia.
    - intros h e He Hb.
      assert (Hh : nbf g (ms_frames s) <= N.of_nat h).
      { apply nth_error_None in Hb. rewrite (I_len1 g s I) in Hb. unfold nn in Hb. lia. }
      pose proof (I_nobf g s I _ Hh) as Z. unfold entv, rd_ent, nn in Z. rewrite Nat2N.id, He in Z. exact Z.
  Qed.

  Lemma covered_heldc s f : covered_by_held s f <-> 1 <= heldc f (ms_held s).
  Proof.
    unfold heldc. rewrite sumf_b2n_pos. split.
    - intros (F & K & Hin & Hf). exists (F, K). split; [exact Hin|]. unfold cover, inb. cbn [fst snd]. lia.
    - intros ((F, K) & Hin & Hc). exists F, K. split; [exact Hin|]. unfold cover, inb in Hc. cbn [fst snd] in Hc. lia.
  Qed.

  (* `touched` is exact: it contains every allocated frame that no held block covers, and no frame that recovery
     could free *)
  Theorem alloc_iff_owned s f : Inv g s -> f < ms_frames s ->
    (alloc_at g (lower_of s) f = true <-> covered_by_held s f \/ touched g s f).
  Proof.
    intros I Hfr. destruct (frame_decomp f) as (r & i & E & Hr & Hi). pose proof (lt_nbf g _ _ Hfr) as Hh.
    destruct (fidx_divmod (f / HF) r i Hr Hi) as (_ & Em & Ed & _). rewrite <- E in Em.
    (* I_A at the coordinates of f: the bit and the marker on the left, the owners on the right *)
    pose proof (I_A g s I _ r i Hh Hr Hi) as A. rewrite <- E in A. unfold oor, isMark in A.
    destruct (N.leb_spec (ms_frames s) f); [lia|]. cbn [b2n] in A. rewrite N.add_0_r in A.
    rewrite E, (alloc_at_bit s _ r i I Hh Hr Hi), <- E.
    destruct (N.ltb_spec f (ms_frames s)); [|lia]. cbn [andb].
    assert (T : touched g s f <-> 1 <= sumf (fr g (f / HF) r i) (ms_pool s) + sumf (tr g (f / HF) r) (ms_pool s)).
    { unfold touched, touches. cbv zeta. rewrite Em, Ed.
      transitivity (1 <= sumf (fr g (f / HF) r i) (ms_pool s) \/ 1 <= sumf (tr g (f / HF) r) (ms_pool s)); [|lia].
      change (fr g (f / HF) r i)
        with (fun x => b2n (inb (own_lo (ghost_of g x)) (own_n (ghost_of g x)) (fidx g (f / HF) r i))).
      change (tr g (f / HF) r)
        with (fun x => b2n ((f / HF =? g_h (ghost_of g x)) && inb (tr_lo (ghost_of g x)) (tr_n (ghost_of g x)) r)).
      rewrite !sumf_b2n_pos, <- E. split.
      - intros (x & Hx & T). apply orb_true_iff in T. destruct T; [left|right]; eauto.
      - intros [(x & Hx & T)|(x & Hx & T)]; exists x; rewrite T; auto using orb_true_r. }
    rewrite covered_heldc, T.
    destruct (entv s (f / HF) =? MARK), (bit s (f / HF) r i); cbn [orb b2n] in *;
      split; intros X; try reflexivity; try discriminate X; lia.
  Qed.

  Lemma held_in_range s F K : Inv g s -> In (F, K) (ms_held s) -> F mod pow2 K = 0 /\ F + pow2 K <= ms_frames s.
  Proof.
    intros I Hin. pose proof (proj1 (Forall_forall _ _) (I_H g s I) _ Hin) as B. cbn beta in B.
    unfold blk_ok in B. cbn [fst snd] in B. lia.
  Qed.

  Lemma held_alloc s F K f : Inv g s -> In (F, K) (ms_held s) -> F <= f < F + pow2 K ->
    alloc_at g (lower_of s) f = true.
  Proof.
    intros I Hin Hf. destruct (held_in_range s F K I Hin) as (_ & Hr).
    apply alloc_iff_owned; [exact I|lia|]. left. exists F, K. auto.
  Qed.

  Lemma alloc_owner s f : Inv g s -> alloc_at g (lower_of s) f = true -> covered_by_held s f \/ touched g s f.
  Proof.
    intros I Ha. apply alloc_iff_owned; [exact I| |exact Ha].
    unfold alloc_at in Ha. cbn [frames lower_of] in Ha. apply andb_true_iff in Ha. lia.
  Qed.

  Lemma held_whole s F K h : Inv g s -> In (F, K) (ms_held s) -> (hord g <= K)%nat ->
    F / HF <= h < F / HF + pow2 (K - hord g) -> whole_at (lower_of s) h = true.
  Proof.
    intros I Hin HK Hh. destruct (held_in_range s F K I Hin) as (Hal & Hr). pose proof (HF_pos g) as HP.
    assert (Ek : pow2 K = pow2 (K - hord g) * HF) by (rewrite (HF_pow2 g); apply pow2_split; exact HK).
    assert (EF : F = F / HF * HF).
    { pose proof (N.div_mod F HF ltac:(lia)) as D.
      assert (F mod HF = 0); [|lia].
      apply (mod_of_multiple F HF (pow2 (K - hord g))); [lia|apply pow2_nz|]. rewrite N.mul_comm, <- Ek. exact Hal. }
    assert (Hc : F <= h * HF /\ h * HF + HF <= F + pow2 K) by (rewrite Ek; nia).
    assert (Hn : h < nbf g (ms_frames s)).
    { assert (h + 1 <= nbf g (ms_frames s)); [apply (le_nbf g)|]; lia. }
    rewrite (whole_at_mark s h I Hn). apply N.eqb_eq.
    destruct (N.eq_dec (entv s h) MARK) as [E|E]; [exact E|exfalso].
    pose proof (I_F g s I h E) as Fz.
    pose proof (sumf_ge_in (hugeb g h) _ _ Hin) as G. fold (hugec g h (ms_held s)) in G.
    assert (hugeb g h (F, K) = 1); [|lia].
    unfold hugeb, cover, inb. cbn [fst snd]. destruct (Nat.leb_spec (hord g) K); [|lia]. cbn [andb]. lia.
  Qed.

  Theorem crash_safe_inv s : Inv g s ->
    let m := lower_recover g (lower_of s) in
    LowerPre g (lower_of s) /\ LowerInv g m /\ abs g m = abs g (lower_of s) /\
    (forall f k, In (f, k) (ms_held s) -> spec_put_enabled g (abs g m) f k = true) /\
    (forall f, N.testbit (o_alloc (abs g m)) f = true -> covered_by_held s f \/ touched g s f).
  Proof.
    intros I m. pose proof (inv_lower_pre s I) as Pre.
    pose proof (recover_inv g wf _ Pre) as LI. fold m in LI.
    pose proof (recover_abs g wf _ Pre) as EA. fold m in EA.
    assert (Hbit : forall f, N.testbit (o_alloc (abs g m)) f = alloc_at g (lower_of s) f).
    { intros f. rewrite (abs_alloc_testbit g wf m LI). apply (recover_alloc_at g wf _ f Pre). }
    assert (Hwh : forall h, N.testbit (o_whole (abs g m)) h = whole_at (lower_of s) h).
    { intros h. rewrite abs_whole_testbit_gen. apply (recover_whole_at g wf _ h Pre). }
    split; [exact Pre|]. split; [exact LI|]. split; [exact EA|]. split.
    - intros f k Hin. unfold spec_put_enabled. apply andb_true_iff. split.
      + apply all_alloc_spec. intros i Hi. rewrite Hbit. apply (held_alloc s f k i I Hin Hi).
      + destruct (Nat.leb_spec (hord g) k) as [Hk|Hk]; [|reflexivity].
        apply all_whole_spec. intros h Hh. rewrite Hwh. apply (held_whole s f k h I Hin Hk Hh).
    - intros f Hf. rewrite Hbit in Hf. apply (alloc_owner s f I Hf).
  Qed.

  (* the complement reading: a frame that is neither held nor touched is free after recovery; and a frame that
     is free in the crashed metadata (bit clear under a counter entry) is free after recovery *)
  Corollary crash_free_inv s f : Inv g s -> ~ covered_by_held s f -> ~ touched g s f ->
    N.testbit (o_alloc (abs g (lower_recover g (lower_of s)))) f = false.
  Proof.
    intros I H1 H2. destruct (crash_safe_inv s I) as (_ & _ & _ & _ & H).
    destruct (N.testbit (o_alloc (abs g (lower_recover g (lower_of s)))) f) eqn:E; [|reflexivity].
    destruct (H f E); contradiction.
  Qed.
  Corollary crash_keeps_free_inv s f : Inv g s -> alloc_at g (lower_of s) f = false ->
    N.testbit (o_alloc (abs g (lower_recover g (lower_of s)))) f = false.
  Proof.
    intros I H. pose proof (inv_lower_pre s I) as Pre.
    rewrite (abs_alloc_testbit g wf _ (recover_inv g wf _ Pre)), (recover_alloc_at g wf _ f Pre). exact H.
  Qed.

  (* exact characterisation of the recovered allocation state *)
  Theorem crash_alloc_iff_inv s f : Inv g s -> f < ms_frames s ->
    (N.testbit (o_alloc (abs g (lower_recover g (lower_of s)))) f = true <-> covered_by_held s f \/ touched g s f).
  Proof.
    intros I Hfr. pose proof (inv_lower_pre s I) as Pre.
    rewrite (abs_alloc_testbit g wf _ (recover_inv g wf _ Pre)), (recover_alloc_at g wf _ f Pre).
    exact (alloc_iff_owned s f I Hfr).
  Qed.
End Crash.

(* quiescent crash points: the metadata is consistent, recovery is the identity *)
Section Quiescent.
  Variable g : geom.
  Hypothesis wf : wf_geom g.
  Notation HF := (HF g).
  Notation ROWS := (ROWS g).

  Lemma idle_sums s (F : thr -> N) : quiescent s -> (forall l, F (TIdle l) = 0) -> sumf F (ms_pool s) = 0.
  Proof. intros Q H. apply sumf_all_zero. intros x Hx. destruct (Q x Hx) as (l & ->). apply H. Qed.

  (* whenever no call is in flight the persistent metadata satisfies the sequential invariant (in particular
     every counter equals the number of zero bits of its bitfield) *)
  Theorem quiescent_inv s : Inv g s -> quiescent s -> LowerInv g (lower_of s).
  Proof.
    intros I Q. destruct (inv_lower_pre g wf s I) as (P1 & P2 & P3 & P4).
    split; [exact P1|]. split; [exact P2|]. split; [|exact P4].
    cbn [frames bfs ents lower_of] in *. intros h e rows He Hb.
    destruct (P3 h e rows He Hb) as (Hok & Hm & Ht). destruct (ent_bf_at g s h e rows I He Hb) as (Hh & Ee & Eb).
    split; [exact Hok|]. split; [|split; [|exact Ht]].
    - intros Em. split; [|exact (Hm Em)]. specialize (Hm Em). rewrite <- Ee in Em.
      apply Forall_forall. intros v Hv. apply In_nth_error in Hv. destruct Hv as (n & Hn).
      destruct Hok as (Hl & Hw).
      assert (Hr : N.of_nat n < ROWS).
      { assert ((n < length rows)%nat) by (apply nth_error_Some; congruence). rewrite Hl in H. rewrite (ROWS_nat g wf). lia. }
      assert (Ev : rowv s (N.of_nat h) (N.of_nat n) = v).
      { unfold rowv, rd_row. rewrite Eb. unfold nn. rewrite Nat2N.id, Hn. reflexivity. }
      apply row_all_clear; [exact (Forall_nth_error _ _ _ _ Hw Hn)|]. intros i Hi.
      pose proof (I_A g s I _ _ i Hh Hr Hi) as A. pose proof (I_B g s I _ Hh Em _ i Hr Hi) as B.
      rewrite (idle_sums s _ Q) in A, B by (intros; gsimp; unfold inb; lia).
      rewrite (idle_sums s _ Q) in A by (intros; gsimp; unfold inb; lia).
      unfold isMark, oor, bit in A. rewrite Ev in A. rewrite Em in A. change (MARK =? MARK) with true in A.
      pose proof (rowbit_lt g wf _ i Hr Hi). unfold fidx in A, B.
      destruct (N.leb_spec (ms_frames s) (N.of_nat h * HF + N.of_nat n * 64 + i)); [lia|].
      destruct (N.testbit v i); [cbn [b2n] in A; lia|reflexivity].
    - intros En. rewrite <- Ee in En. pose proof (I_C g s I _ Hh En) as C.
      rewrite !(idle_sums s _ Q) in C by (intros; gsimp; destr_if; lia).
      assert (Ez : zeros s (N.of_nat h) = bf_count_zeros rows).
      { unfold zeros. rewrite Eb. apply sumf_cz_count. apply Hok. }
      rewrite Ee, Ez in C. split; [lia|]. rewrite N.add_0_r in C. rewrite C, N.mul_0_r, N.add_0_r.
      apply (bf_count_zeros_le g wf rows Hok).
  Qed.

  Lemma idle_touches l f : touches g (TIdle l) f = false.
  Proof. unfold touches. cbn [ghost_of gh0 own_lo own_n tr_lo tr_n g_h]. rewrite !inb_0. apply andb_false_r. Qed.

  (* at a quiescent crash point recovery changes nothing, and the allocated frames are exactly the frames of
     the held blocks *)
  Theorem quiescent_crash s : Inv g s -> quiescent s ->
    LowerInv g (lower_of s) /\ lower_recover g (lower_of s) = lower_of s /\
    (forall f, N.testbit (o_alloc (abs g (lower_of s))) f = true <-> covered_by_held s f).
  Proof.
    intros I Q. pose proof (quiescent_inv s I Q) as LI. split; [exact LI|]. split; [exact (recover_id g wf _ LI)|].
    intros f. rewrite (abs_alloc_testbit g wf _ LI). split.
    - intros H. destruct (alloc_owner g wf s f I H) as [C|(x & Hx & T)]; [exact C|exfalso].
      destruct (Q x Hx) as (l & ->). rewrite idle_touches in T. discriminate.
    - intros (F & K & Hin & Hf). exact (held_alloc g wf s F K f I Hin Hf).
  Qed.
End Quiescent.

Definition in_block (c : call) (f : N) : Prop := c_frame c <= f < c_frame c + c_n c.
Definition splitting (p : pc) : bool :=
  match p with
  | TL (XSplit _) | TC (XSplit _) _ | TN (XSplit _) | TW (XSplit _) _ | TU (XSplit _) _ | PP2 _ => true
  | _ => false
  end.

Section Readable.
  Variable g : geom.
  Hypothesis wf : wf_geom g.
  Notation HF := (HF g).
  Notation TF := (TF g).
  Notation THUGE := (THUGE g).
  Notation ROWS := (ROWS g).

  (* `touches` at a concrete program point; empty intervals are removed *)
  Ltac tsimp H := unfold touches in H; cbv zeta in H;
    cbn [ghost_of gpc gtoggle gpend gtr gown ghuge gput gsplit gh0 g_h own_lo own_n tr_lo tr_n p_n nd hu is_put is_get is_getat] in H;
    rewrite ?inb_0, ?andb_false_r, ?orb_false_r in H; cbn [orb] in H.

  (* f in row r of huge frame h *)
  Lemma in_row_bounds f h lo cnt : (f / HF =? h) && inb lo cnt ((f mod HF) / 64) = true ->
    h * HF + lo * 64 <= f < h * HF + (lo + cnt) * 64.
  Proof.
    intros H. apply andb_true_iff in H. destruct H as (Hh & Hr). apply N.eqb_eq in Hh. unfold inb in Hr.
    pose proof (HF_pos g). pose proof (N.div_mod f HF ltac:(lia)) as D. rewrite Hh in D.
    pose proof (N.div_mod (f mod HF) 64 ltac:(lia)) as D2. pose proof (N.mod_lt (f mod HF) 64 ltac:(lia)). lia.
  Qed.

  Lemma claimed_in_block fr c cnt f : inb (c_huge g c * HF) (cnt * HF) f = true ->
    cwf g fr c = true -> (hord g <= c_order c)%nat -> is_get c = false -> cnt <= c_hnum g c -> in_block c f.
  Proof.
    intros T Hc Hk Hg Hq. destruct (huge_call_aligned_geom g fr c Hc Hk Hg) as (E1 & E2).
    unfold in_block. rewrite E2, E1. unfold inb in T. nia.
  Qed.

  Lemma toggled_in_block fr c cnt f : (f / HF =? c_huge g c) && inb (t_row g XPut c) cnt (f mod HF / 64) = true ->
    cwf g fr c = true -> small g c = true -> is_get c = false ->
    (7 <= c_order c)%nat -> cnt <= pow2 (c_order c - 6) -> in_block c f.
  Proof.
    intros T Hc Hs Hg H7 Hq. apply in_row_bounds in T.
    destruct (toggle_rows_fit g wf fr c Hc Hs Hg H7) as (E0 & En & Hfit).
    destruct (small_call_decomp g wf fr c Hc Hs Hg) as (Ed & _).
    unfold in_block. rewrite En, Ed, E0. unfold fidx. lia.
  Qed.

  Lemma touches_getat fr f0 k p f : cwf g fr (CGetAt f0 k) = true -> lpc g fr (CGetAt f0 k) p = true ->
    touches g (TRun (CGetAt f0 k) p) f = true -> in_block (CGetAt f0 k) f.
  Proof.
    intros Hc L T.
    destruct p; try destruct x; cbn [lpc ctx_ok not_xput is_get is_getat is_put andb negb] in L;
      rewrite ?andb_false_r, ?andb_true_r in L; try discriminate L; tsimp T; cbn [group_h] in T; try discriminate T.
    1-2: apply (claimed_in_block fr _ _ f T Hc); [lia|reflexivity|lia].   (* HC q, HU (q + 1) *)
    1-2: unfold t_nrows in L; cbn [t_order] in L;                               (* TW q, TU (q + 1) *)
      apply (toggled_in_block fr _ _ f T Hc); [lia|reflexivity|lia|lia].
  Qed.

  Lemma touches_put fr f0 k p f : cwf g fr (CPut f0 k) = true -> lpc g fr (CPut f0 k) p = true ->
    touches g (TRun (CPut f0 k) p) f = true ->
    in_block (CPut f0 k) f \/ (splitting p = true /\ f / HF = c_huge g (CPut f0 k)).
  Proof.
    intros Hc L T. unfold in_block. pose proof (HF_pos g) as HP.
    destruct p; try destruct x; cbn [lpc ctx_ok not_xput is_get is_getat is_put andb negb] in L;
      rewrite ?andb_false_r, ?andb_true_r in L; try discriminate L; tsimp T; try discriminate T; cbn [splitting].
    (* the owned interval lies in the block; a transit row occurs only while splitting *)
    all: try (left; unfold inb in T; lia).
    all: apply orb_true_iff in T; destruct T as [T|T]; [left; unfold inb in T; lia|right; split; [reflexivity|]];
      apply andb_true_iff in T; destruct T as (T & _); apply N.eqb_eq in T; exact T.
  Qed.

  (* an aligned block of order k <= tord lies in one tree *)
  Lemma block_in_tree G k f : (k <= tord g)%nat -> G mod pow2 k = 0 -> G <= f < G + pow2 k -> f / TF = G / TF.
  Proof.
    intros Hk Hal Hf. pose proof (pow2_nz k) as HP. pose proof (pow2_nz (tord g - k)) as HM.
    assert (ET : TF = pow2 k * pow2 (tord g - k)) by (rewrite (TF_pow2 g), (pow2_split k (tord g) Hk); lia).
    pose proof (TF_pos g) as PT.
    pose proof (N.div_mod G TF ltac:(lia)) as D. pose proof (N.mod_lt G TF ltac:(lia)) as Lr.
    assert (Hr : (G mod TF) mod pow2 k = 0) by (rewrite ET; apply mod_mod_aligned; assumption).
    assert (Hfit : G mod TF + pow2 k <= TF).
    { apply aligned_fit; [exact HP| |exact Hr|exact Lr]. rewrite ET, N.mul_comm. apply N.mod_mul. exact HP. }
    symmetry. apply (N.div_unique _ _ _ (G mod TF + (f - G))); lia.
  Qed.

  Lemma tbase_tree c y : y < THUGE -> (c_tbase g c + y) / THUGE = c_frame c / TF.
  Proof.
    intros Hy. unfold c_tbase. symmetry. apply (N.div_unique _ _ _ y); [exact Hy|lia].
  Qed.

  Lemma child_tree c j f : f / HF = child_h g c j -> f / TF = c_frame c / TF.
  Proof. intros E. rewrite (div_TF g f), E. unfold child_h. apply tbase_tree, N.mod_lt, THUGE_nz. Qed.

  Lemma group_tree fr c gi cnt f : inb (group_h g c gi * HF) (cnt * HF) f = true ->
    cwf g fr c = true -> (hord g <= c_order c)%nat -> is_get c = true -> cnt <= c_hnum g c -> f / TF = c_frame c / TF.
  Proof.
    intros T Hc Hk Hg Hq. pose proof (HF_pos g) as HP. pose proof (THUGE_pos g) as PT.
    destruct (huge_group g fr c gi Hc Hk) as (_ & Hal).
    assert (Ek : pow2 (c_order c) = c_hnum g c * HF) by (unfold c_hnum; rewrite (HF_pow2 g); apply pow2_split; exact Hk).
    assert (Hto : (c_order c <= tord g)%nat) by (unfold cwf in Hc; lia).
    rewrite (block_in_tree (group_h g c gi * HF) (c_order c) f Hto Hal) by (rewrite Ek; unfold inb in T; nia).
    rewrite (TF_eq g), N.div_mul_cancel_r by lia. destruct c; try discriminate. cbn [group_h].
    apply tbase_tree, N.mod_lt, THUGE_nz.
  Qed.

  Lemma touches_get fr st k p f : cwf g fr (CGet st k) = true -> lpc g fr (CGet st k) p = true ->
    touches g (TRun (CGet st k) p) f = true ->
    ((7 <= k)%nat \/ (hord g <= k)%nat) /\ f / TF = st * 64 / TF.
  Proof.
    intros Hc L T. change (st * 64) with (c_frame (CGet st k)).
    destruct p; try destruct x; cbn [lpc ctx_ok not_xput is_get is_getat is_put andb negb] in L;
      rewrite ?andb_false_r, ?andb_true_r in L; try discriminate L; tsimp T; try discriminate T.
    1-2: split; [left; cbn [c_order] in L; lia|];                                (* G2W, G2U *)
      apply andb_true_iff in T; destruct T as (T & _); apply N.eqb_eq in T; exact (child_tree _ j f T).
    1-2: split; [right; cbn [c_order] in L; lia|];                               (* HC q, HU (q + 1) *)
      apply (group_tree fr _ gi _ f T Hc); [lia|reflexivity|lia].
  Qed.

  Definition touch_shape (x : thr) (f : N) : Prop :=
    match x with
    | TIdle _ => False
    | TPanic st c => st = SExceedingRetries /\ is_put c = true /\ in_block c f
    | TRun (CPut f0 k) p => in_block (CPut f0 k) f \/ (splitting p = true /\ f / HF = f0 / HF)
    | TRun (CGetAt f0 k) p => in_block (CGetAt f0 k) f
    | TRun (CGet st k) p => ((7 <= k)%nat \/ (hord g <= k)%nat) /\ f / TF = st * 64 / TF
    end.

  Lemma touches_shape fr x f : local_b g fr x = true -> touches g x f = true -> touch_shape x f.
  Proof.
    intros L T. destruct x as [l|c p|st c].
    - rewrite (idle_touches g) in T. discriminate.
    - cbn [local_b] in L. apply andb_true_iff in L. destruct L as (Hc & L). destruct c; cbn [touch_shape].
      + exact (touches_get fr _ _ p f Hc L T).
      + exact (touches_getat fr _ _ p f Hc L T).
      + exact (touches_put fr _ _ p f Hc L T).
    - cbn [touch_shape]. destruct st; tsimp T; try discriminate T.
      cbn [local_b] in L. split; [reflexivity|]. split; [lia|]. unfold in_block. unfold inb in T. lia.
  Qed.

  (* a touched frame lies in the block of an in-flight put or get_at, or in the huge frame of an in-flight split,
     or in the tree searched by an in-flight get of at least 64 frames *)
  Theorem touched_readable s f : Inv g s -> touched g s f -> exists x, In x (ms_pool s) /\ touch_shape x f.
  Proof.
    intros I (x & Hx & T). exists x. split; [exact Hx|].
    apply (touches_shape (ms_frames s)); [|exact T]. exact (proj1 (Forall_forall _ _) (I_L g s I) x Hx).
  Qed.
End Readable.

(* C05: ANY reachable state s of any schedule of any number of threads = any crash point, any calls in flight *)
Theorem crash_safe : forall g l held0 n sch, wf_geom g -> LowerInv g l -> HeldInit g l held0 ->
  let s := mrun g sch (boot l held0 n) in
  let m := lower_recover g (lower_of s) in
  LowerPre g (lower_of s) /\
  LowerInv g m /\
  (forall f k, In (f, k) (ms_held s) -> spec_put_enabled g (abs g m) f k = true) /\
  (forall f, N.testbit (o_alloc (abs g m)) f = true -> covered_by_held s f \/ touched g s f).
Proof.
  intros g l held0 n sch wf HL HI s m.
  destruct (crash_safe_inv g wf s (conc_inv g l held0 n sch wf HL HI)) as (A & B & _ & C & D). auto.
Qed.

(* recovery neither allocates nor frees: the ownership state read off the recovered metadata is the one read
   off the crashed metadata *)
Theorem crash_abs : forall g l held0 n sch, wf_geom g -> LowerInv g l -> HeldInit g l held0 ->
  let s := mrun g sch (boot l held0 n) in
  abs g (lower_recover g (lower_of s)) = abs g (lower_of s).
Proof.
  intros g l held0 n sch wf HL HI s.
  destruct (crash_safe_inv g wf s (conc_inv g l held0 n sch wf HL HI)) as (_ & _ & A & _). exact A.
Qed.

(* the complement reading used by the oracle *)
Theorem crash_free_stays_free : forall g l held0 n sch f, wf_geom g -> LowerInv g l -> HeldInit g l held0 ->
  let s := mrun g sch (boot l held0 n) in
  let m := lower_recover g (lower_of s) in
  (~ covered_by_held s f -> ~ touched g s f -> N.testbit (o_alloc (abs g m)) f = false) /\
  (alloc_at g (lower_of s) f = false -> N.testbit (o_alloc (abs g m)) f = false).
Proof.
  intros g l held0 n sch f wf HL HI s m. pose proof (conc_inv g l held0 n sch wf HL HI) as I. split.
  - apply (crash_free_inv g wf s f I).
  - apply (crash_keeps_free_inv g wf s f I).
Qed.

(* `touched` is exact: a managed frame is allocated after recovery iff it is held or touched *)
Theorem crash_alloc_iff : forall g l held0 n sch f, wf_geom g -> LowerInv g l -> HeldInit g l held0 ->
  let s := mrun g sch (boot l held0 n) in
  f < ms_frames s ->
  (N.testbit (o_alloc (abs g (lower_recover g (lower_of s)))) f = true <-> covered_by_held s f \/ touched g s f).
Proof.
  intros g l held0 n sch f wf HL HI s. apply (crash_alloc_iff_inv g wf s f (conc_inv g l held0 n sch wf HL HI)).
Qed.

Theorem crash_quiescent : forall g l held0 n sch, wf_geom g -> LowerInv g l -> HeldInit g l held0 ->
  let s := mrun g sch (boot l held0 n) in
  quiescent s ->
  LowerInv g (lower_of s) /\ lower_recover g (lower_of s) = lower_of s /\
  (forall f, N.testbit (o_alloc (abs g (lower_of s))) f = true <-> covered_by_held s f).
Proof.
  intros g l held0 n sch wf HL HI s Q. apply (quiescent_crash g wf s (conc_inv g l held0 n sch wf HL HI) Q).
Qed.

(* every managed frame count, both initialisation modes *)
From LLF Require Import LowerInitProofs.

Corollary crash_safe_free_all : forall g fr n sch, wf_geom g ->
  let s := mrun g sch (boot (free_all g fr) [] n) in
  let m := lower_recover g (lower_of s) in
  LowerPre g (lower_of s) /\ LowerInv g m /\
  (forall f k, In (f, k) (ms_held s) -> spec_put_enabled g (abs g m) f k = true) /\
  (forall f, N.testbit (o_alloc (abs g m)) f = true -> covered_by_held s f \/ touched g s f).
Proof.
  intros g fr n sch wf. apply crash_safe; [exact wf|apply free_all_inv; exact wf|apply held_init_free_all; exact wf].
Qed.

Corollary crash_safe_reserve_all : forall g fr n sch, wf_geom g ->
  let s := mrun g sch (boot (reserve_all g fr) (alloc_all_held g fr) n) in
  let m := lower_recover g (lower_of s) in
  LowerPre g (lower_of s) /\ LowerInv g m /\
  (forall f k, In (f, k) (ms_held s) -> spec_put_enabled g (abs g m) f k = true) /\
  (forall f, N.testbit (o_alloc (abs g m)) f = true -> covered_by_held s f \/ touched g s f).
Proof.
  intros g fr n sch wf. apply crash_safe; [exact wf|apply reserve_all_inv; exact wf|apply held_init_reserve_all; exact wf].
Qed.

(* composition with the upper allocator: LLFree::new(.., Init::Recover) over the crashed metadata and zeroed
   volatile buffers *)
From LLF Require Import Upper UpperInvDef LowerFacts LowerFactsProofs UpperStatsProofs GlueProofs.

Lemma sumN_repeat0 n : sumN (repeat 0 n) = 0.
Proof. induction n as [|n IH]; [reflexivity|]. cbn [repeat sumN fold_right]. fold (sumN (repeat 0 n)). rewrite IH. reflexivity. Qed.

Section CrashUpper.
  Variable g : geom.
  Hypothesis wf : wf_geom g.
  Variable policy : N -> N -> N -> pol.

  Theorem crash_upper_inv s classing d tbuf sbuf : ConcInvDef.Inv g s ->
    Forall (fun sl => s_pres sl = false) sbuf ->
    (forall c k, In (c, k) classing -> c < 8) ->
    (exists k, In (d, k) classing) ->
    exists u ts,
      llfree_new g (ms_frames s) IRecover classing d (lower_of s) tbuf sbuf = Ok u /\
      UpperInv g policy (ustate_new u) /\
      low u = lower_recover g (lower_of s) /\
      llfree_tree_stats g u = Ok ts /\
      ts_free ts = free_frames (llfree_stats g u) /\
      ts_free ts = exact_free (abs g (lower_of s)) /\
      llfree_validate g u = Ok tt.
  Proof.
    intros I Hbuf Hcl Hd. pose proof (inv_lower_pre g wf s I) as Pre.
    destruct (init_inv g wf policy (ms_frames s) IRecover classing d (lower_of s) tbuf sbuf Pre Hbuf Hcl Hd)
      as (u & E & HI & Hl & _).
    change (lower_new g (ms_frames s) IRecover (lower_of s)) with (lower_recover g (lower_of s)) in Hl.
    pose proof (lower_facts_proved g wf) as LF.
    destruct (tree_stats_correct g policy wf LF _ HI) as (ts & Et & _).
    cbn [us ustate_new] in Et.
    pose proof (llfree_tree_stats_free g policy wf LF _ HI (LS_sum g wf) ts Et) as Fs.
    cbn [us off ustate_new] in Fs. rewrite sumN_repeat0, N.add_0_r in Fs.
    exists u, ts. split; [exact E|]. split; [exact HI|]. split; [exact Hl|]. split; [exact Et|].
    split; [exact Fs|]. split.
    - rewrite Fs, Hl. destruct (lower_stats_abs g wf _ (recover_inv g wf _ Pre)) as (-> & _).
      rewrite (recover_abs g wf _ Pre). reflexivity.
    - apply (llfree_validate_ok g policy wf LF _ HI (LS_sum g wf)). cbn [off ustate_new].
      apply Forall_forall. intros x Hx. apply repeat_spec in Hx. exact Hx.
  Qed.
End CrashUpper.

(* the recovered allocator's fast and exact counts agree, whatever the crash point *)
Theorem crash_counts_agree : forall g policy l held0 n sch classing d tbuf sbuf,
  wf_geom g -> LowerInv g l -> HeldInit g l held0 ->
  Forall (fun sl => s_pres sl = false) sbuf ->
  (forall c k, In (c, k) classing -> c < 8) ->
  (exists k, In (d, k) classing) ->
  let s := mrun g sch (boot l held0 n) in
  exists u ts,
    llfree_new g (ms_frames s) IRecover classing d (lower_of s) tbuf sbuf = Ok u /\
    UpperInv g policy (ustate_new u) /\
    low u = lower_recover g (lower_of s) /\
    llfree_tree_stats g u = Ok ts /\
    ts_free ts = free_frames (llfree_stats g u) /\
    ts_free ts = exact_free (abs g (lower_of s)) /\
    llfree_validate g u = Ok tt.
Proof.
  intros g policy l held0 n sch classing d tbuf sbuf wf HL HI Hbuf Hcl Hd s.
  apply (crash_upper_inv g wf policy s classing d tbuf sbuf (conc_inv g l held0 n sch wf HL HI) Hbuf Hcl Hd).
Qed.

(* quiescent crash points: the lower allocator's own statistics are exact *)
Theorem crash_quiescent_counts : forall g l held0 n sch, wf_geom g -> LowerInv g l -> HeldInit g l held0 ->
  let s := mrun g sch (boot l held0 n) in
  quiescent s ->
  free_frames (lower_stats g (lower_of s)) = exact_free (abs g (lower_of s)) /\
  free_huge (lower_stats g (lower_of s)) = free_huge_count g (abs g (lower_of s)) /\
  free_trees (lower_stats g (lower_of s)) = free_tree_count g (abs g (lower_of s)).
Proof.
  intros g l held0 n sch wf HL HI s Q. apply (lower_stats_abs g wf).
  apply (quiescent_inv g wf s (conc_inv g l held0 n sch wf HL HI) Q).
Qed.

(* non-vacuity: three crash points with calls in flight and a quiescent one, and what recovery yields *)
Definition gx8 : geom := {| hord := 8; tlog := 1 |}.       (* 256-frame huge frames = 4 rows, 2 per tree *)
Lemma wf_gx8 : wf_geom gx8. Proof. unfold wf_geom; cbn; lia. Qed.
Definition recovered (s : mstate) : lower := lower_recover gx8 (lower_of s).
(* frames lo .. lo+n-1 are all: allocated after recovery, not held, touched *)
Definition lost_b (s : mstate) (lo n : N) : bool :=
  forallb (fun i => N.testbit (o_alloc (abs gx8 (recovered s))) (lo + i) && negb (covered_b s (lo + i)) && touched_b gx8 s (lo + i)) (nseq n).
Definition free_after_b (s : mstate) (lo n : N) : bool :=
  forallb (fun i => negb (N.testbit (o_alloc (abs gx8 (recovered s))) (lo + i))) (nseq n).

(* 1. in the middle of a multi-row get (order 7 = 2 rows): counter already decremented by 128, first row filled.
      Recovery rewrites the counter to the number of zero bits (192); the 64 frames of the filled row stay
      allocated: they are touched (transit row of the in-flight get), nothing else is. *)
Definition ex_get := mrun gx8 ([(0%nat, CGet 0 7)] ++ run_n 0 5) (boot (free_all gx8 512) [] 1).
Example crash_mid_get :
  ms_pool ex_get = [TRun (CGet 0 7) (G2W 0 0 1)] /\
  ms_ents ex_get = [128; 256] /\ ms_bfs ex_get = [[MAX64; 0; 0; 0]; [0; 0; 0; 0]] /\
  ents (recovered ex_get) = [192; 256] /\ bfs (recovered ex_get) = ms_bfs ex_get /\
  lost_b ex_get 0 64 = true /\ free_after_b ex_get 64 448 = true /\
  crash_ok_b gx8 ex_get = true.
Proof. vm_compute. repeat split. Qed.

(* 2. in the middle of a split: thread 0 frees frame 5 of a held huge frame and is frozen at PP2 (all rows
      filled, marker not yet cleared).  Recovery keeps the marker and clears the bitfield: the whole huge frame
      is allocated again; the siblings the client still holds are all freeable at their orders; frame 5 itself
      (the in-flight free) stays allocated. *)
Definition ex_split := mrun gx8 ([(0%nat, CPut 5 0)] ++ run_n 0 5) (boot (reserve_all gx8 512) (alloc_all_held gx8 512) 2).
Example crash_mid_split :
  ms_pool ex_split = [TRun (CPut 5 0) (PP2 MARK); TIdle None] /\
  ms_ents ex_split = [MARK; MARK] /\ ms_bfs ex_split = [[MAX64; MAX64; MAX64; MAX64]; [0; 0; 0; 0]] /\
  ms_held ex_split = [(4, 0%nat); (6, 1%nat); (0, 2%nat); (8, 3%nat); (16, 4%nat); (32, 5%nat); (64, 6%nat); (128, 7%nat); (256, 8%nat)] /\
  ents (recovered ex_split) = [MARK; MARK] /\ bfs (recovered ex_split) = [[0; 0; 0; 0]; [0; 0; 0; 0]] /\
  forallb (fun b => spec_put_enabled gx8 (abs gx8 (recovered ex_split)) (fst b) (snd b)) (ms_held ex_split) = true /\
  lost_b ex_split 5 1 = true /\
  crash_ok_b gx8 ex_split = true.
Proof. vm_compute. repeat split. Qed.

(* 3. the stale-split window.  Thread 1 starts freeing frame 200 of a held huge frame and sees the marker (P1);
      thread 0 then frees frames 0..63 of the same huge frame: it performs the whole split and RETURNS Ok; the
      huge frame now has counter 64 and row 0 clear.  Thread 1, still believing it has to split, fills row 0
      (its CAS 0 -> MAX64 succeeds) before failing on row 1 and rolling back.  A crash inside that window
      leaves frames 0..63 allocated although their free completed: they are `touched` by thread 1's put. *)
Definition ex_stale_pre := mrun gx8 ([(1%nat, CPut 200 0)] ++ run_n 1 1 ++ [(0%nat, CPut 0 6)] ++ run_n 0 9)
                                (boot (reserve_all gx8 512) (alloc_all_held gx8 512) 2).
Definition ex_stale := fst (mstep gx8 ex_stale_pre 1 (CGet 0 0)).
Example crash_stale_split :
  ms_pool ex_stale_pre = [TIdle (Some (Ok 0)); TRun (CPut 200 0) (TW (XSplit MARK) 0)] /\
  ms_ents ex_stale_pre = [64; MARK] /\ ms_bfs ex_stale_pre = [[0; MAX64; MAX64; MAX64]; [0; 0; 0; 0]] /\
  free_after_b ex_stale_pre 0 64 = true /\ crash_ok_b gx8 ex_stale_pre = true /\
  ms_pool ex_stale = [TIdle (Some (Ok 0)); TRun (CPut 200 0) (TW (XSplit MARK) 1)] /\
  ms_ents ex_stale = [64; MARK] /\ ms_bfs ex_stale = [[MAX64; MAX64; MAX64; MAX64]; [0; 0; 0; 0]] /\
  ents (recovered ex_stale) = [0; MARK] /\
  lost_b ex_stale 0 64 = true /\ lost_b ex_stale 200 1 = true /\
  forallb (fun b => spec_put_enabled gx8 (abs gx8 (recovered ex_stale)) (fst b) (snd b)) (ms_held ex_stale) = true /\
  crash_ok_b gx8 ex_stale = true /\
  (* without the crash thread 1 rolls back and completes: solo, 7 more steps *)
  ms_pool (mrun gx8 (run_n 1 7) ex_stale) = [TIdle (Some (Ok 0)); TIdle (Some (Ok 0))] /\
  ms_ents (mrun gx8 (run_n 1 7) ex_stale) = [65; MARK].
Proof. vm_compute. repeat split. Qed.

(* 4. a quiescent crash point: recovery is the identity *)
Definition ex_quiet := mrun gx8 ([(0%nat, CGet 0 3)] ++ run_n 0 4 ++ [(1%nat, CGetAt 256 8)] ++ run_n 1 1)
                            (boot (free_all gx8 512) [] 2).
Example crash_quiet :
  ms_pool ex_quiet = [TIdle (Some (Ok 0)); TIdle (Some (Ok 256))] /\ ms_held ex_quiet = [(256, 8%nat); (0, 3%nat)] /\
  recovered ex_quiet = lower_of ex_quiet /\ ms_ents ex_quiet = [248; MARK] /\ crash_ok_b gx8 ex_quiet = true.
Proof. vm_compute. repeat split. Qed.

Print Assumptions crash_safe.
Print Assumptions crash_abs.
Print Assumptions crash_free_stays_free.
Print Assumptions crash_alloc_iff.
Print Assumptions crash_quiescent.
Print Assumptions crash_counts_agree.
Print Assumptions crash_quiescent_counts.
Print Assumptions crash_safe_free_all.
Print Assumptions crash_safe_reserve_all.
Print Assumptions touched_readable.
