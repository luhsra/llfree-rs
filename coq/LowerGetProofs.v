(* Allocation side of the lower allocator model: `lower_get`, `lower_get_at`, `lower_get_opt`
   refine the frame-ownership specification (`spec_get_enabled` / `spec_get`) through `abs`,
   preserve `LowerInv`, never panic, and the search is complete within the tree (C12). *)
From Coq Require Import PeanoNat ZArith ZifyN ZifyBool.
From LLF Require Import Base BitLemmas Row RowProofs Bitfield Lower Spec LowerFacts AbsLemmas BitfieldProofs.
Local Open Scope N_scope.

(* a search that starts at chunk c and tries Q chunks of n entries, wrapping around, reaches every
   aligned chunk x of the Q chunks that begin at a * n *)
Lemma rot_chunk Q n c a x : 0 < n -> a * n <= x < a * n + Q * n -> x mod n = 0 ->
  exists j, j < Q /\ a * n + ((c + j) mod Q) * n = x.
Proof.
  intros Hn Hx Hal. pose proof (aligned_mul x n ltac:(lia) Hal) as Ex. revert Ex Hx. generalize (x / n).
  intros q -> Hx. clear Hal.
  assert (Hq : a <= q < a + Q) by nia.
  destruct (wrap_scan_complete Q c (q - a) ltac:(lia)) as (j & Hj & Ej). exists j. split; [exact Hj|].
  rewrite (N.add_comm c j), Ej. nia.
Qed.

Section Get.
  Variable g : geom.
  Hypothesis WF : wf_geom g.

  Lemma e_dec_some e n e' : e_dec e n = Some e' -> e <> MARK /\ n <= e /\ e' = e - n.
  Proof.
    unfold e_dec, e_free, e_huge. destruct (N.eqb_spec e MARK); cbn [negb andb]; [discriminate|].
    destruct (N.leb_spec n e); [|discriminate]. intros [= <-]. auto.
  Qed.

  Lemma e_dec_none e n : e_dec e n = None -> e = MARK \/ e < n.
  Proof.
    unfold e_dec, e_free, e_huge. destruct (N.eqb_spec e MARK); cbn [negb andb]; [auto|].
    destruct (N.leb_spec n e); [discriminate|auto].
  Qed.

  Lemma e_dec_complete e n : e <> MARK -> n <= e -> e_dec e n = Some (e - n).
  Proof.
    intros H1 H2. unfold e_dec, e_free, e_huge. destruct (N.eqb_spec e MARK); [contradiction|].
    cbn [negb andb]. destruct (N.leb_spec n e); [reflexivity|lia].
  Qed.

  Lemma e_inc_undo e n : n <= e -> e <= HF g -> e_inc g (e - n) n <> None.
  Proof.
    intros H1 H2. pose proof (HF_lt_MARK g WF). unfold e_inc, e_free, e_huge.
    destruct (N.eqb_spec (e - n) MARK); [lia|]. cbn [negb andb].
    destruct (N.leb_spec (e - n + n) (HF g)); [discriminate|lia].
  Qed.

  Lemma mul_add_mod_pow2 h off k : (k <= hord g)%nat -> (h * HF g + off) mod pow2 k = off mod pow2 k.
  Proof.
    intros Hk. rewrite HF_pow2, (pow2_split k (hord g) Hk), N.mul_assoc, N.add_comm.
    apply N.mod_add, pow2_nz.
  Qed.

  (* one small allocation in huge frame h *)
  Lemma small_step l h e rows rows' off k :
    LowerInv g l -> (k < hord g)%nat ->
    ent l h = Some e -> bf l h = Some rows -> e <> MARK -> pow2 k <= e ->
    off mod pow2 k = 0 -> off + pow2 k <= HF g -> rows_ok g rows' ->
    N.land (rows_bits rows) (blk off (pow2 k)) = 0 ->
    rows_bits rows' = N.lor (rows_bits rows) (blk off (pow2 k)) ->
    spec_get_enabled (abs g l) (h * HF g + off) k = true /\
    abs g (set_bf (set_ent l h (e - pow2 k)) h rows') = spec_get g (abs g l) (h * HF g + off) k /\
    LowerInv g (set_bf (set_ent l h (e - pow2 k)) h rows') /\
    (forall t, tree_free g (set_bf (set_ent l h (e - pow2 k)) h rows') t + delta t (h / THUGE g) (pow2 k)
               = tree_free g l t).
  Proof.
    intros Inv Hk He Hb Hne Hle Hal Hfit Hok' Hz Hbits.
    destruct (LowerInv_huge_ok g l h e rows Inv He Hb) as (Hok & _ & Hcnt & Hhi).
    destruct (Hcnt Hne) as (Ecnt & EleHF). pose proof (pow2_pos k) as Hp.
    set (f := h * HF g + off).
    assert (Hzb : forall i, off <= i < off + pow2 k -> N.testbit (rows_bits rows) i = false)
      by (apply land_blk_zero; exact Hz).
    (* the bits at or beyond `frames` are set (last clause of `huge_ok`), so a clear block ends below it *)
    assert (Hrange : f + pow2 k <= frames l).
    { destruct (N.le_gt_cases (f + pow2 k) (frames l)) as [|Hgt]; [assumption|]. exfalso.
      assert (T : N.testbit (rows_bits rows) (off + pow2 k - 1) = true) by (apply Hhi; subst f; lia).
      rewrite Hzb in T by lia. discriminate. }
    assert (Htf : forall t, tree_free g (set_bf (set_ent l h (e - pow2 k)) h rows') t + delta t (h / THUGE g) (pow2 k)
                          = tree_free g l t).
    { intros t. pose proof (set_tree_free g l h e (e - pow2 k) rows' He t) as E.
      unfold e_free in E. rewrite (e_huge_false e Hne), (e_huge_le g WF (e - pow2 k)) in E by lia.
      unfold delta. destruct (t =? h / THUGE g); lia. }
    assert (Ee : e - pow2 k = bf_count_zeros rows').
    { pose proof (count_zeros_set_block g WF rows rows' _ _ Hok Hok' Hz Hbits). lia. }
    rewrite Ee in *.
    destruct (cell_update g WF l h e rows rows' off (pow2 k) true Inv He Hb Hok' Hfit) as (Inv' & Ha & Hw).
    { rewrite N.mul_comm. exact Hrange. }
    { intros i. rewrite Hbits, lor_blk_testbit, (e_huge_false e Hne). cbn [orb].
      destruct ((off <=? i) && (i <? off + pow2 k)); [apply orb_true_r|]. rewrite orb_false_r.
      destruct (N.ltb_spec i (HF g)); [rewrite andb_true_r; reflexivity|].
      rewrite (rows_bits_high g WF rows i Hok) by assumption. reflexivity. }
    assert (Hwh : whole_at l h = false) by (unfold whole_at; rewrite He, Hb; apply e_huge_false, Hne).
    split; [|split; [|split; [exact Inv' | exact Htf]]].
    - apply spec_get_enabled_spec. rewrite abs_frames. split; [|split; [exact Hrange|]].
      + subst f. rewrite mul_add_mod_pow2 by lia. exact Hal.
      + intros i Hi. rewrite (abs_alloc_testbit g WF l Inv).
        destruct (in_huge_divmod g h i) as (Ed & Em); [subst f; lia|].
        rewrite (alloc_at_eq g l i e rows) by (rewrite Ed; assumption).
        rewrite (e_huge_false e Hne), Em, Hzb by (subst f; clear - Hi; lia). apply andb_false_r.
    - apply (abs_eq g WF _ _ Inv'); [reflexivity | |].
      + intros i. rewrite Ha, (N.mul_comm (HF g)), spec_get_alloc_testbit, (abs_alloc_testbit g WF l Inv). fold f.
        destruct ((f <=? i) && (i <? f + pow2 k)); [rewrite orb_true_r | rewrite orb_false_r]; reflexivity.
      + intros x. rewrite Hw, spec_get_whole_testbit, abs_whole_testbit_gen.
        replace (Nat.leb (hord g) k) with false by (symmetry; apply Nat.leb_gt; lia).
        cbn [andb]. rewrite orb_false_r.
        destruct (N.eqb_spec x h) as [->|_]; [rewrite Hwh | rewrite andb_true_r]; reflexivity.
  Qed.

  (* one huge allocation: 2^(k-hord) entries starting at h *)
  Lemma huge_step l h es k :
    LowerInv g l -> (hord g <= k)%nat -> (k <= tord g)%nat -> h mod pow2 (k - hord g) = 0 ->
    cas_all (ents l) (nn h) (nn (pow2 (k - hord g))) (HF g) MARK = Some es ->
    spec_get_enabled (abs g l) (h * HF g) k = true /\
    abs g {| frames := frames l; bfs := bfs l; ents := es |} = spec_get g (abs g l) (h * HF g) k /\
    LowerInv g {| frames := frames l; bfs := bfs l; ents := es |} /\
    (forall t, tree_free g {| frames := frames l; bfs := bfs l; ents := es |} t + delta t (h / THUGE g) (pow2 k)
               = tree_free g l t).
  Proof.
    intros Inv Hk Hkt Hal C. set (n := pow2 (k - hord g)) in *. pose proof (HF_pos g) as Hp.
    assert (Hn1 : 0 < n) by apply pow2_pos.
    assert (Epow : pow2 k = n * HF g) by (rewrite HF_pow2; apply pow2_split, Hk).
    destruct (cells_update g WF l es h n (HF g) MARK Inv (or_intror eq_refl) (or_introl eq_refl) C)
      as (Inv' & Ha & Hw & Hin). change (e_huge MARK) with true in Ha, Hw.
    assert (Hblk : forall i, (h * HF g <=? i) && (i <? h * HF g + pow2 k) = (h <=? i / HF g) && (i / HF g <? h + n)).
    { intros i. rewrite Epow, (N.mul_comm h), (N.mul_comm n). apply in_cells, HF_nz. }
    split; [|split; [|split; [exact Inv'|]]].
    - apply spec_get_enabled_spec. rewrite abs_frames. split; [|split].
      + rewrite (aligned_mul h n) by (try exact Hal; lia).
        replace (h / n * n * HF g) with (h / n * pow2 k) by (rewrite Epow; lia).
        apply N.mod_mul, pow2_nz.
      + destruct (Hin (h + n - 1)) as (_ & R); [lia|].
        replace (h + n - 1 + 1) with (h + n) in R by lia. rewrite Epow. clear - R. lia.
      + intros i Hi. rewrite (abs_alloc_testbit g WF l Inv).
        assert (Hd : h <= i / HF g < h + n) by (apply (div_range_in g); rewrite Epow in Hi; lia).
        destruct (Hin _ Hd) as (He & _).
        destruct (whole_cell g WF l _ _ Inv He (or_intror eq_refl)) as (rows & Hb & _ & Z & _).
        rewrite (alloc_at_eq g l i (HF g) rows He Hb), (rows_zero_bits rows Z), N.bits_0.
        rewrite (e_huge_le g WF (HF g) (N.le_refl _)). apply andb_false_r.
    - apply (abs_eq g WF _ _ Inv'); [reflexivity | |].
      + intros i. rewrite Ha, spec_get_alloc_testbit, (abs_alloc_testbit g WF l Inv), Hblk.
        destruct ((h <=? i / HF g) && (i / HF g <? h + n)); [rewrite orb_true_r | rewrite orb_false_r]; reflexivity.
      + intros x. rewrite Hw, spec_get_whole_testbit, abs_whole_testbit_gen.
        replace (Nat.leb (hord g) k) with true by (symmetry; apply Nat.leb_le; lia).
        rewrite N.div_mul by apply HF_nz. cbn [andb]. fold n.
        destruct ((h <=? x) && (x <? h + n)); [rewrite orb_true_r | rewrite orb_false_r]; reflexivity.
    - intros t. apply cas_all_some in C. destruct C as (_ & Hold & Hnew).
      pose proof (tree_free_ents g l es h n (HF g) MARK (aligned_fit_pow2 (k - hord g) (tlog g) h ltac:(unfold tord in Hkt; lia) Hal)
                    Hold Hnew t) as E.
      unfold e_free in E. rewrite (e_huge_le g WF (HF g) (N.le_refl _)) in E. change (e_huge MARK) with true in E.
      rewrite N.mul_0_r, <- Epow in E. unfold delta. destruct (t =? h / THUGE g); lia.
  Qed.

  (* what an enabled small block says about its huge frame *)
  Lemma enabled_small_block l f k :
    LowerInv g l -> (k < hord g)%nat -> spec_get_enabled (abs g l) f k = true ->
    exists e rows, ent l (f / HF g) = Some e /\ bf l (f / HF g) = Some rows /\
                   e <> MARK /\ pow2 k <= e /\ rows_ok g rows /\
                   N.land (rows_bits rows) (blk (f mod HF g) (pow2 k)) = 0.
  Proof.
    intros Inv Hk En. apply spec_get_enabled_spec in En. rewrite abs_frames in En.
    destruct En as (Hal & Hr & Hfree). pose proof (pow2_pos k) as Hp.
    destruct (LowerInv_frame g l f Inv) as (e & rows & He & Hb); [lia|].
    destruct (LowerInv_huge_ok g l _ e rows Inv He Hb) as (Hok & _ & Hcnt & _).
    pose proof (aligned_in_huge g f k ltac:(lia) Hal) as Hfit.
    assert (Hbit : forall t, f mod HF g <= t < f mod HF g + pow2 k ->
                             e_huge e || N.testbit (rows_bits rows) t = false).
    { apply (block_alloc_at g l f k e rows false ltac:(lia) Hal Hr He Hb).
      intros i Hi. rewrite <- (abs_alloc_testbit g WF l Inv). apply Hfree, Hi. }
    assert (Hne : e <> MARK).
    { intros ->. specialize (Hbit (f mod HF g) ltac:(lia)). discriminate. }
    assert (Z : N.land (rows_bits rows) (blk (f mod HF g) (pow2 k)) = 0).
    { apply land_blk_zero. intros i Hi. specialize (Hbit i Hi). rewrite (e_huge_false e Hne) in Hbit. exact Hbit. }
    exists e, rows. repeat (split; [assumption|]). split; [|split; [exact Hok|exact Z]].
    destruct (Hcnt Hne) as (-> & _). apply (count_zeros_ge_block g WF rows _ _ Hok Hfit Z).
  Qed.

  (* the small-order search loop *)
  (* child h cannot serve the request *)
  Definition child_fail (l : lower) (h start : N) (k : nat) : Prop :=
    exists e, ent l h = Some e /\
      (e_dec e (pow2 k) = None \/
       exists rows, bf l h = Some rows /\ bf_set_first_zeros g rows start k = None).

  Lemma child_fail_no_block l h start k f :
    LowerInv g l -> (k < hord g)%nat -> child_fail l h start k -> f / HF g = h ->
    spec_get_enabled (abs g l) f k = false.
  Proof.
    intros Inv Hk (e & He & Hc) Hf.
    destruct (spec_get_enabled (abs g l) f k) eqn:En; [exfalso|reflexivity].
    pose proof En as En'. apply spec_get_enabled_spec in En'. destruct En' as (Hal & _).
    destruct (enabled_small_block l f k Inv Hk En) as (e0 & rows & He0 & Hb & Hne & Hle & Hok & Z).
    rewrite Hf in He0, Hb. rewrite He in He0. injection He0 as <-.
    destruct Hc as [Hd|(rows0 & Hb0 & Hs)].
    - apply e_dec_none in Hd. lia.
    - rewrite Hb in Hb0. injection Hb0 as <-.
      apply (bf_sfz_none g WF rows start k Hok ltac:(lia) Hs (f mod HF g)).
      + apply aligned_mod_HF; [lia|exact Hal].
      + apply aligned_in_huge; [lia|exact Hal].
      + exact Z.
  Qed.

  Definition small_loop_outcome l ts co start k (j : N) (n : nat) (r : res N) (l' : lower) : Prop :=
    (r = Err EMemory /\ l' = l /\
     forall j', j <= j' < j + N.of_nat n -> child_fail l (ts + (co + j') mod THUGE g) start k) \/
    (exists h e rows rows' off,
        ts <= h < ts + THUGE g /\ ent l h = Some e /\ e <> MARK /\ pow2 k <= e /\
        bf l h = Some rows /\ bf_set_first_zeros g rows start k = Some (rows', off) /\
        r = Ok (h * HF g + off) /\ l' = set_bf (set_ent l h (e - pow2 k)) h rows').

  Lemma get_small_loop_spec l ts co start k :
    LowerInv g l -> (k < hord g)%nat ->
    (forall h, ts <= h < ts + THUGE g -> ent l h <> None) ->
    forall n j r l', get_small_loop g l ts co start k j n = (r, l') -> small_loop_outcome l ts co start k j n r l'.
  Proof.
    intros Inv Hk Hent. pose proof (THUGE_pos g) as HT. pose proof (pow2_pos k) as Hp.
    induction n as [|n IH]; intros j r l' H; cbn [get_small_loop] in H.
    - injection H as <- <-. left. repeat split. intros j' Hj'. lia.
    - cbv zeta in H. set (h := ts + (co + j) mod THUGE g) in *.
      assert (Hh : ts <= h < ts + THUGE g).
      { subst h. pose proof (N.mod_lt (co + j) (THUGE g) ltac:(lia)). lia. }
      destruct (ent l h) as [e|] eqn:He; [|exfalso; apply (Hent h Hh He)].
      assert (Hnext : forall (F : child_fail l h start k),
                 get_small_loop g l ts co start k (j + 1) n = (r, l') ->
                 small_loop_outcome l ts co start k j (S n) r l').
      { intros F H'. destruct (IH _ _ _ H') as [(-> & -> & Hall)|Hex]; [left|right; exact Hex].
        repeat split. intros j' Hj'. destruct (N.eq_dec j' j) as [->|Hne]; [exact F|].
        apply Hall. lia. }
      destruct (e_dec e (pow2 k)) as [e'|] eqn:Hd.
      + destruct (e_dec_some e _ e' Hd) as (Hne & Hle & ->).
        destruct (bf l h) as [rows|] eqn:Hb.
        * destruct (LowerInv_huge_ok g l h e rows Inv He Hb) as (Hok & _ & Hcnt & _).
          destruct (Hcnt Hne) as (_ & HleHF).
          destruct (bf_set_first_zeros g rows start k) as [[rows' off]|] eqn:Hs.
          -- injection H as <- <-. right. exists h, e, rows, rows', off. repeat split; try assumption; lia.
          -- destruct (e_inc g (e - pow2 k) (pow2 k)) eqn:Hi;
               [|exfalso; apply (e_inc_undo e (pow2 k) Hle HleHF Hi)].
             apply Hnext; [|exact H]. exists e. split; [exact He|]. right. exists rows. split; assumption.
        * exfalso. pose proof (LowerInv_no_bf g l h e Inv He Hb). lia.
      + apply Hnext; [|exact H]. exists e. split; [exact He|]. left. exact Hd.
  Qed.

  (* the huge-order search loop *)
  Lemma get_huge_loop_spec l ts co hn :
    forall n kk r l', get_huge_loop g l ts co hn kk n = (r, l') ->
    (r = Err EMemory /\ l' = l /\
     forall k', kk <= k' < kk + N.of_nat n ->
                cas_all (ents l) (nn (ts + (co + k' * hn) mod THUGE g)) (nn hn) (HF g) MARK = None) \/
    (exists k' es, kk <= k' < kk + N.of_nat n /\
        cas_all (ents l) (nn (ts + (co + k' * hn) mod THUGE g)) (nn hn) (HF g) MARK = Some es /\
        r = Ok ((ts + (co + k' * hn) mod THUGE g) * HF g) /\
        l' = {| frames := frames l; bfs := bfs l; ents := es |}).
  Proof.
    induction n as [|n IH]; intros kk r l' H; cbn [get_huge_loop] in H.
    - injection H as <- <-. left. repeat split. intros k' Hk'. lia.
    - cbv zeta in H.
      destruct (cas_all (ents l) (nn (ts + (co + kk * hn) mod THUGE g)) (nn hn) (HF g) MARK) as [es|] eqn:C.
      + injection H as <- <-. right. exists kk, es. repeat split; try assumption; lia.
      + destruct (IH _ _ _ H) as [(-> & -> & Hall)|(k' & es & Hk' & Hex)].
        * left. repeat split. intros k' Hk'. destruct (N.eq_dec k' kk) as [->|Hne]; [exact C|].
          apply Hall. lia.
        * right. exists k', es. split; [lia|exact Hex].
  Qed.

  Lemma tree_ents l t : LowerInv g l -> t < ntab g (frames l) ->
    forall h, t * THUGE g <= h < t * THUGE g + THUGE g -> ent l h <> None.
  Proof.
    intros Inv Ht h Hh. destruct (LowerInv_ent_some g l h Inv) as (e & He); [|congruence].
    pose proof (THUGE_pos g). nia.
  Qed.

  Lemma enabled_huge_block l f k :
    LowerInv g l -> (hord g <= k)%nat -> spec_get_enabled (abs g l) f k = true ->
    f = (f / HF g) * HF g /\ (f / HF g) mod pow2 (k - hord g) = 0 /\
    forall h', f / HF g <= h' < f / HF g + pow2 (k - hord g) -> ent l h' = Some (HF g).
  Proof.
    intros Inv Hk En. apply spec_get_enabled_spec in En. rewrite abs_frames in En.
    destruct En as (Hal & Hr & Hfree).
    destruct (aligned_huge g f k Hk Hal) as (Ef & Ehm). split; [exact Ef|]. split; [exact Ehm|].
    assert (Epow : pow2 k = pow2 (k - hord g) * HF g) by (rewrite HF_pow2; apply pow2_split, Hk).
    set (h := f / HF g) in *. set (hn := pow2 (k - hord g)) in *.
    intros h' Hh'.
    assert (M1 : h * HF g <= h' * HF g) by (apply N.mul_le_mono_r; lia).
    assert (M2 : (h' + 1) * HF g <= (h + hn) * HF g) by (apply N.mul_le_mono_r; lia).
    apply (free_huge_entry g WF l h' Inv).
    - rewrite Ef, Epow in Hr. clear - Hr M2. lia.
    - intros i Hi. rewrite <- (abs_alloc_testbit g WF l Inv). apply Hfree.
      rewrite Ef, Epow. clear - Hi M1 M2. lia.
  Qed.

  Theorem lower_get_at_spec l f k :
    LowerInv g l -> (k <= tord g)%nat -> aligned f k = true -> f + pow2 k <= frames l ->
    (spec_get_enabled (abs g l) f k = true /\
     exists l', lower_get_at g l f k = (Ok tt, l') /\
                abs g l' = spec_get g (abs g l) f k /\ LowerInv g l' /\ frames l' = frames l /\
                (forall t, tree_free g l' t + delta t (f / TF g) (pow2 k) = tree_free g l t)) \/
    (spec_get_enabled (abs g l) f k = false /\ lower_get_at g l f k = (Err EMemory, l)).
  Proof.
    intros Inv Hkt Hal Hr. unfold aligned in Hal. apply N.eqb_eq in Hal.
    pose proof (pow2_pos k) as Hp.
    assert (Hf : f < frames l) by lia.
    unfold lower_get_at. cbv zeta.
    rewrite (proj2 (has_tree_spec g l _ Inv) (frame_lt_ntab g _ _ Hf)). cbn [negb].
    destruct (Nat.leb_spec (hord g) k) as [Hk|Hk].
    - (* huge orders *)
      destruct (aligned_huge g f k Hk Hal) as (Ef & Ehm).
      pose proof (huge_index_fits g _ k Hk Hkt Ehm) as Hfits.
      destruct (N.ltb_spec (THUGE g) ((f / HF g) mod THUGE g + pow2 (k - hord g))) as [C|_]; [lia|].
      destruct (cas_all (ents l) (nn (f / HF g)) (nn (pow2 (k - hord g))) (HF g) MARK) as [es|] eqn:C.
      + destruct (huge_step l _ es k Inv Hk Hkt Ehm C) as (En & Ea & Inv' & Ht). rewrite <- Ef in En, Ea.
        rewrite <- div_TF in Ht.
        left. split; [exact En|]. eexists. split; [reflexivity|].
        split; [exact Ea|]. split; [exact Inv'|]. split; [reflexivity|exact Ht].
      + right. split; [|reflexivity].
        destruct (spec_get_enabled (abs g l) f k) eqn:En; [exfalso|reflexivity].
        destruct (enabled_huge_block l f k Inv Hk En) as (_ & _ & Hall).
        apply cas_all_none in C. destruct C as (j & Hj & Hne). apply Hne.
        specialize (Hall (N.of_nat j)). unfold ent, nn in Hall. rewrite Nat2N.id in Hall.
        apply Hall. unfold nn in Hj. lia.
    - (* small orders *)
      destruct (LowerInv_frame g l f Inv Hf) as (e & rows & He & Hb). rewrite He.
      destruct (LowerInv_huge_ok g l _ e rows Inv He Hb) as (Hok & _ & Hcnt & _).
      destruct (e_dec e (pow2 k)) as [e'|] eqn:Hd.
      + destruct (e_dec_some e _ e' Hd) as (Hne & Hle & ->). rewrite Hb.
        destruct (Hcnt Hne) as (_ & HleHF).
        destruct (bf_toggle g rows f k false) as [rows'|] eqn:Ht.
        * destruct (bf_toggle_false_some g WF rows f k rows' Hok ltac:(lia) Hal Ht) as (Hok' & Z & Hbits).
          pose proof (aligned_mod_HF g f k ltac:(lia) Hal) as Halo.
          pose proof (aligned_in_huge g f k ltac:(lia) Hal) as Hfit.
          destruct (small_step l _ e rows rows' _ k Inv Hk He Hb Hne Hle Halo Hfit Hok' Z Hbits)
            as (En & Ea & Inv' & Htf).
          replace (f / HF g * HF g + f mod HF g) with f in En, Ea
            by (pose proof (N.div_mod f (HF g) (HF_nz g)); lia).
          rewrite <- div_TF in Htf.
          left. split; [exact En|]. eexists. split; [reflexivity|].
          split; [exact Ea|]. split; [exact Inv'|]. split; [reflexivity|exact Htf].
        * destruct (e_inc g (e - pow2 k) (pow2 k)) eqn:Hi;
            [|exfalso; apply (e_inc_undo e (pow2 k) Hle HleHF Hi)].
          right. split; [|reflexivity]. apply not_true_is_false. intros En.
          destruct (enabled_small_block l f k Inv Hk En) as (e0 & rows0 & He0 & Hb0 & _ & _ & _ & Z).
          rewrite Hb in Hb0. injection Hb0 as <-.
          apply (bf_toggle_false_none g WF rows f k Hok ltac:(lia) Hal Ht Z).
      + right. split; [|reflexivity]. apply not_true_is_false. intros En.
        destruct (enabled_small_block l f k Inv Hk En) as (e0 & rows0 & He0 & _ & Hne & Hle & _).
        rewrite He in He0. injection He0 as <-. apply e_dec_none in Hd. lia.
  Qed.

  Definition get_outcome (l : lower) (t : N) (k : nat) (res : res N * lower) : Prop :=
    (exists f l', res = (Ok f, l') /\ f / TF g = t /\
                  spec_get_enabled (abs g l) f k = true /\
                  abs g l' = spec_get g (abs g l) f k /\ LowerInv g l' /\ frames l' = frames l /\
                  (forall t', tree_free g l' t' + delta t' (f / TF g) (pow2 k) = tree_free g l t')) \/
    (res = (Err EMemory, l) /\
     forall f, f / TF g = t -> spec_get_enabled (abs g l) f k = false).

  Lemma lower_get_small l start k :
    LowerInv g l -> (k < hord g)%nat -> (start * 64) / TF g < ntab g (frames l) ->
    get_outcome l ((start * 64) / TF g) k (lower_get g l start k).
  Proof.
    intros Inv Hk Ht. set (t := start * 64 / TF g) in *.
    pose proof (THUGE_pos g) as HT.
    unfold lower_get. cbv zeta. fold t. rewrite (proj2 (has_tree_spec g l t Inv) Ht). cbn [negb].
    replace (Nat.leb (hord g) k) with false by (symmetry; apply Nat.leb_gt; lia).
    set (ts := t * THUGE g). set (co := (start * 64 / HF g) mod THUGE g).
    destruct (get_small_loop g l ts co start k 0 (thuge_nat g)) as [r l'] eqn:E.
    destruct (get_small_loop_spec l ts co start k Inv Hk (tree_ents l t Inv Ht) _ _ _ _ E)
      as [(-> & -> & Hall)|(h & e & rows & rows' & off & Hh & He & Hne & Hle & Hb & Hs & -> & ->)].
    - right. split; [reflexivity|]. intros f Hf.
      rewrite div_TF in Hf. apply (tree_of_huge g) in Hf. fold ts in Hf.
      destruct (wrap_scan_complete (THUGE g) co (f / HF g - ts)) as (j & Hj & Ej); [lia|].
      apply (child_fail_no_block l (f / HF g) start k f Inv Hk); [|reflexivity].
      specialize (Hall j). rewrite <- THUGE_nat in Hall.
      rewrite (N.add_comm co j), Ej in Hall.
      replace (ts + (f / HF g - ts)) with (f / HF g) in Hall by (clear - Hf; lia).
      apply Hall. lia.
    - left. destruct (LowerInv_huge_ok g l h e rows Inv He Hb) as (Hok & _).
      destruct (bf_sfz_some g WF rows start k rows' off Hok ltac:(lia) Hs) as (Hal & Hfit & Hok' & Z & Hbits).
      destruct (small_step l h e rows rows' off k Inv Hk He Hb Hne Hle Hal Hfit Hok' Z Hbits)
        as (En & Ea & Inv' & Htf).
      pose proof (pow2_pos k). destruct (in_huge_divmod g h (h * HF g + off)) as (Ed & _); [lia|].
      eexists. eexists. split; [reflexivity|].
      split; [|split; [exact En|split; [exact Ea|split; [exact Inv'|split; [reflexivity|]]]]].
      + rewrite div_TF, Ed. apply (tree_of_huge g). exact Hh.
      + rewrite div_TF, Ed. exact Htf.
  Qed.

  Lemma lower_get_huge l start k :
    LowerInv g l -> (hord g <= k)%nat -> (k <= tord g)%nat -> (start * 64) / TF g < ntab g (frames l) ->
    get_outcome l ((start * 64) / TF g) k (lower_get g l start k).
  Proof.
    intros Inv Hk Hkt Ht. set (t := start * 64 / TF g) in *.
    pose proof (THUGE_pos g) as HT.
    unfold lower_get. cbv zeta. fold t. rewrite (proj2 (has_tree_spec g l t Inv) Ht). cbn [negb].
    replace (Nat.leb (hord g) k) with true by (symmetry; apply Nat.leb_le; lia).
    set (hn := pow2 (k - hord g)).
    assert (Hle : (k - hord g <= tlog g)%nat) by (unfold tord in Hkt; lia).
    assert (EQ : THUGE g = pow2 (tlog g - (k - hord g)) * hn) by (rewrite THUGE_pow2; apply pow2_split, Hle).
    set (Q := pow2 (tlog g - (k - hord g))) in *.
    assert (HQ : 0 < Q) by apply pow2_pos. assert (Hhn : 0 < hn) by apply pow2_pos.
    destruct (N.ltb_spec (THUGE g) hn) as [C|_]; [nia|].
    assert (EQd : THUGE g / hn = Q) by (rewrite EQ; apply N.div_mul; lia).
    rewrite EQd.
    set (ts := t * THUGE g). set (c := (start * 64 / HF g) mod THUGE g / hn).
    (* THUGE = Q * hn: the loop (lower.rs `Lower::get`, `(child_off + i) % TREE_HUGE` in steps of h_num)
       visits the chunk ((c + k') mod Q) * hn at step k',
       and `rot_chunk` says these are all aligned chunks of the tree *)
    assert (Eidx : forall k', (c * hn + k' * hn) mod THUGE g = ((c + k') mod Q) * hn).
    { intros k'. rewrite EQ, <- N.mul_add_distr_r. apply N.mul_mod_distr_r; lia. }
    destruct (get_huge_loop g l ts (c * hn) hn 0 (nn Q)) as [r l'] eqn:E.
    destruct (get_huge_loop_spec l ts (c * hn) hn _ _ _ _ E)
      as [(-> & -> & Hall)|(k' & es & Hk' & C & -> & ->)].
    - right. split; [reflexivity|]. intros f Hf.
      destruct (spec_get_enabled (abs g l) f k) eqn:En; [exfalso|reflexivity].
      destruct (enabled_huge_block l f k Inv Hk En) as (Ef & Ehm & Hents). fold hn in Ehm, Hents.
      rewrite div_TF in Hf. apply (tree_of_huge g) in Hf. fold ts in Hf.
      set (h := f / HF g) in *.
      assert (Ets : ts = t * Q * hn) by (subst ts; rewrite EQ; lia).
      destruct (rot_chunk Q hn c (t * Q) h Hhn) as (j & Hj & Ej); [rewrite <- Ets, <- EQ; exact Hf | exact Ehm |].
      specialize (Hall j). unfold nn in Hall. rewrite N2Nat.id in Hall.
      rewrite Eidx, Ets, Ej in Hall.
      apply cas_all_none in Hall; [|clear - Hj; lia]. destruct Hall as (i & Hi & Hne). apply Hne.
      specialize (Hents (N.of_nat i)). unfold ent, nn in Hents. rewrite Nat2N.id in Hents.
      apply Hents. clear - Hi. lia.
    - left. rewrite Eidx in C |- *.
      set (h := ts + (c + k') mod Q * hn) in *.
      assert (Ets : ts = t * Q * hn) by (subst ts; rewrite EQ; lia).
      assert (Ehm : h mod hn = 0).
      { subst h. rewrite Ets, <- N.mul_add_distr_r. apply N.mod_mul. lia. }
      destruct (huge_step l h es k Inv Hk Hkt Ehm C) as (En & Ea & Inv' & Htf).
      eexists. eexists. split; [reflexivity|].
      split; [|split; [exact En|split; [exact Ea|split; [exact Inv'|split; [reflexivity|]]]]];
        [|rewrite div_TF, N.div_mul by apply HF_nz; exact Htf].
      rewrite div_TF, N.div_mul by apply HF_nz. apply (tree_of_huge g). fold ts.
      pose proof (N.mod_lt (c + k') Q ltac:(lia)) as HX.
      assert (HXn : (c + k') mod Q * hn < Q * hn) by (apply N.mul_lt_mono_pos_r; assumption).
      subst h ts. rewrite EQ. set (X := (c + k') mod Q) in *. clearbody X. clear - HXn. clearbody hn Q. lia.
  Qed.

  Theorem lower_get_spec l start k :
    LowerInv g l -> (k <= tord g)%nat -> (start * 64) / TF g < ntab g (frames l) ->
    get_outcome l ((start * 64) / TF g) k (lower_get g l start k).
  Proof.
    intros Inv Hkt Ht. destruct (Nat.lt_ge_cases k (hord g)) as [Hk|Hk].
    - apply lower_get_small; assumption.
    - apply lower_get_huge; assumption.
  Qed.

  (* readings of lower_get_spec *)
  Theorem lower_get_no_panic l start k :
    LowerInv g l -> (k <= tord g)%nat -> (start * 64) / TF g < ntab g (frames l) ->
    forall s, fst (lower_get g l start k) <> Panic s.
  Proof.
    intros Inv Hkt Ht s.
    destruct (lower_get_spec l start k Inv Hkt Ht) as [(f & l' & -> & _)|(-> & _)]; discriminate.
  Qed.

  Theorem lower_get_err l start k e l' :
    LowerInv g l -> (k <= tord g)%nat -> (start * 64) / TF g < ntab g (frames l) ->
    lower_get g l start k = (Err e, l') ->
    e = EMemory /\ l' = l /\
    (* C12: nothing of that order was available in the tree *)
    forall f, f / TF g = (start * 64) / TF g -> spec_get_enabled (abs g l) f k = false.
  Proof.
    intros Inv Hkt Ht H.
    destruct (lower_get_spec l start k Inv Hkt Ht) as [(f & l0 & E & _)|(E & Hno)]; rewrite E in H.
    - discriminate.
    - injection H as <- <-. auto.
  Qed.

  Theorem lower_get_ok l start k f l' :
    LowerInv g l -> (k <= tord g)%nat -> (start * 64) / TF g < ntab g (frames l) ->
    lower_get g l start k = (Ok f, l') ->
    f / TF g = (start * 64) / TF g /\
    spec_get_enabled (abs g l) f k = true /\
    abs g l' = spec_get g (abs g l) f k /\
    LowerInv g l' /\ frames l' = frames l /\
    (forall t, tree_free g l' t + delta t (f / TF g) (pow2 k) = tree_free g l t).
  Proof.
    intros Inv Hkt Ht H.
    destruct (lower_get_spec l start k Inv Hkt Ht) as [(f0 & l0 & E & R)|(E & _)]; rewrite E in H.
    - injection H as <- <-. exact R.
    - discriminate.
  Qed.

  (* C12, positive form: if a block of order k is available in the tree, the search finds one *)
  Corollary lower_get_complete l start k f :
    LowerInv g l -> (k <= tord g)%nat -> (start * 64) / TF g < ntab g (frames l) ->
    f / TF g = (start * 64) / TF g -> spec_get_enabled (abs g l) f k = true ->
    exists f' l', lower_get g l start k = (Ok f', l').
  Proof.
    intros Inv Hkt Ht Hf En.
    destruct (lower_get_spec l start k Inv Hkt Ht) as [(f0 & l0 & E & _)|(_ & Hno)]; [eauto|].
    rewrite (Hno f Hf) in En. discriminate.
  Qed.

  (* readings of lower_get_at_spec *)
  Theorem lower_get_at_no_panic l f k :
    LowerInv g l -> (k <= tord g)%nat -> aligned f k = true -> f + pow2 k <= frames l ->
    forall s, fst (lower_get_at g l f k) <> Panic s.
  Proof.
    intros Inv Hkt Hal Hr s.
    destruct (lower_get_at_spec l f k Inv Hkt Hal Hr) as [(_ & l' & -> & _)|(_ & ->)]; discriminate.
  Qed.

  Theorem lower_get_at_ok_iff l f k :
    LowerInv g l -> (k <= tord g)%nat -> aligned f k = true -> f + pow2 k <= frames l ->
    ((exists l', lower_get_at g l f k = (Ok tt, l')) <-> spec_get_enabled (abs g l) f k = true).
  Proof.
    intros Inv Hkt Hal Hr.
    destruct (lower_get_at_spec l f k Inv Hkt Hal Hr) as [(En & l' & E & _)|(En & E)]; rewrite En, E.
    - split; eauto.
    - split; [intros (l' & H)|]; discriminate.
  Qed.

  Theorem lower_get_at_ok l f k u l' :
    LowerInv g l -> (k <= tord g)%nat -> aligned f k = true -> f + pow2 k <= frames l ->
    lower_get_at g l f k = (Ok u, l') ->
    spec_get_enabled (abs g l) f k = true /\ abs g l' = spec_get g (abs g l) f k /\ LowerInv g l' /\
    frames l' = frames l /\
    (forall t, tree_free g l' t + delta t (f / TF g) (pow2 k) = tree_free g l t).
  Proof.
    intros Inv Hkt Hal Hr H.
    destruct (lower_get_at_spec l f k Inv Hkt Hal Hr) as [(En & l0 & E & R)|(_ & E)]; rewrite E in H.
    - destruct u. injection H as <-. split; [exact En|exact R].
    - discriminate.
  Qed.

  Theorem lower_get_at_err l f k e l' :
    LowerInv g l -> (k <= tord g)%nat -> aligned f k = true -> f + pow2 k <= frames l ->
    lower_get_at g l f k = (Err e, l') ->
    e = EMemory /\ l' = l /\ spec_get_enabled (abs g l) f k = false.
  Proof.
    intros Inv Hkt Hal Hr H.
    destruct (lower_get_at_spec l f k Inv Hkt Hal Hr) as [(_ & l0 & E & _)|(En & E)]; rewrite E in H.
    - discriminate.
    - injection H as <- <-. auto.
  Qed.

  (* lower_get_opt: `Lower::get(start, order, frame)` *)
  Definition get_opt_pre (l : lower) (start : N) (k : nat) (frame : option N) : Prop :=
    match frame with
    | Some f => aligned f k = true /\ f + pow2 k <= frames l
    | None => (start * 64) / TF g < ntab g (frames l)
    end.

  Theorem lower_get_opt_no_panic l start k frame :
    LowerInv g l -> (k <= tord g)%nat -> get_opt_pre l start k frame ->
    forall s, fst (lower_get_opt g l start k frame) <> Panic s.
  Proof.
    intros Inv Hkt Hpre s. destruct frame as [f|]; cbn [lower_get_opt get_opt_pre] in *.
    - destruct Hpre as (Hal & Hr).
      destruct (lower_get_at_spec l f k Inv Hkt Hal Hr) as [(_ & l' & -> & _)|(_ & ->)]; discriminate.
    - apply lower_get_no_panic; assumption.
  Qed.

  Theorem lower_get_opt_ok l start k frame f l' :
    LowerInv g l -> (k <= tord g)%nat -> get_opt_pre l start k frame ->
    lower_get_opt g l start k frame = (Ok f, l') ->
    match frame with Some f0 => f = f0 | None => f / TF g = (start * 64) / TF g end /\
    spec_get_enabled (abs g l) f k = true /\
    abs g l' = spec_get g (abs g l) f k /\
    LowerInv g l' /\ frames l' = frames l /\
    (forall t, tree_free g l' t + delta t (f / TF g) (pow2 k) = tree_free g l t).
  Proof.
    intros Inv Hkt Hpre H. destruct frame as [f0|]; cbn [lower_get_opt get_opt_pre] in *.
    - destruct Hpre as (Hal & Hr).
      destruct (lower_get_at_spec l f0 k Inv Hkt Hal Hr) as [(En & l0 & E & R)|(_ & E)]; rewrite E in H.
      + injection H as <- <-. split; [reflexivity|]. split; [exact En|exact R].
      + discriminate.
    - apply lower_get_ok; assumption.
  Qed.

  Theorem lower_get_opt_err l start k frame e l' :
    LowerInv g l -> (k <= tord g)%nat -> get_opt_pre l start k frame ->
    lower_get_opt g l start k frame = (Err e, l') ->
    e = EMemory /\ l' = l /\
    match frame with
    | Some f0 => spec_get_enabled (abs g l) f0 k = false
    | None => forall f, f / TF g = (start * 64) / TF g -> spec_get_enabled (abs g l) f k = false
    end.
  Proof.
    intros Inv Hkt Hpre H. destruct frame as [f0|]; cbn [lower_get_opt get_opt_pre] in *.
    - destruct Hpre as (Hal & Hr).
      destruct (lower_get_at_spec l f0 k Inv Hkt Hal Hr) as [(_ & l0 & E & _)|(En & E)]; rewrite E in H.
      + discriminate.
      + injection H as <- <-. auto.
    - apply lower_get_err; assumption.
  Qed.
End Get.

(* the hypotheses are satisfiable: a non-trivial state, by computation *)
Module Examples.
  Definition g9 : geom := {| hord := 9; tlog := 2 |}.
  Lemma wf9 : wf_geom g9.
  Proof. unfold wf_geom; cbn; lia. Qed.

  (* 5000 frames: two full trees and a partial one (4096..4999, its last huge frame cut at 392 frames) *)
  Definition l0 : lower := free_all g9 5000.
  Definition l1 : lower := snd (lower_get g9 l0 0 0).              (* frame 0 *)
  Definition l2 : lower := snd (lower_get g9 l1 17 3).             (* 8 frames, hint row 17 (huge frame 2) *)
  Definition l3 : lower := snd (lower_get_at g9 l2 2048 10).       (* two huge frames of tree 1 *)
  Definition l4 : lower := snd (lower_get_at g9 l3 4608 7).        (* 128 frames in the cut huge frame *)
  Definition l5 : lower := snd (lower_get g9 l4 64 9).             (* a huge frame in tree 2 (row 64 = frame 4096) *)

  Example ex_results :
    (fst (lower_get g9 l0 0 0), fst (lower_get g9 l1 17 3), fst (lower_get_at g9 l2 2048 10),
     fst (lower_get_at g9 l3 4608 7), fst (lower_get g9 l4 64 9))
    = (Ok 0, Ok 1088, Ok tt, Ok tt, Ok 4096).
  Proof. vm_compute. reflexivity. Qed.

  Example ex_inv : lower_invb g9 l5 = true.
  Proof. vm_compute. reflexivity. Qed.
  Lemma inv5 : LowerInv g9 l5.
  Proof. apply lower_invb_sound, ex_inv. Qed.

  (* lower_get: preconditions hold and both outcomes occur on l5 *)
  Example ex_get_pre : (3 <= tord g9)%nat /\ (20 * 64) / TF g9 < ntab g9 (frames l5).
  Proof. vm_compute. split; [lia|reflexivity]. Qed.
  Example ex_get_ok : fst (lower_get g9 l5 20 3) = Ok 1280.
  Proof. vm_compute. reflexivity. Qed.
  Example ex_get_ok_spec :
    spec_get_enabled (abs g9 l5) 1280 3 = true /\
    abs g9 (snd (lower_get g9 l5 20 3)) = spec_get g9 (abs g9 l5) 1280 3.
  Proof.
    destruct (lower_get g9 l5 20 3) as [r l'] eqn:E.
    assert (Er : r = Ok 1280) by (change r with (fst (r, l')); rewrite <- E; apply ex_get_ok). subst r.
    destruct (lower_get_ok g9 wf9 l5 20 3 1280 l' inv5 ltac:(cbn; lia) (proj2 ex_get_pre) E)
      as (_ & En & Ea & _). split; assumption.
  Qed.
  (* tree 0 has no free block of order 11 (frame 0 is allocated), tree 2 none of order 10 *)
  Example ex_get_err : lower_get g9 l5 0 11 = (Err EMemory, l5) /\ lower_get g9 l5 64 10 = (Err EMemory, l5).
  Proof. vm_compute. split; reflexivity. Qed.
  Example ex_get_err_spec : forall f, f / TF g9 = 0 -> spec_get_enabled (abs g9 l5) f 11 = false.
  Proof.
    destruct (lower_get_err g9 wf9 l5 0 11 EMemory l5 inv5 ltac:(cbn; lia) ltac:(vm_compute; reflexivity)
                (proj1 ex_get_err)) as (_ & _ & H). exact H.
  Qed.

  (* lower_get_at: preconditions, Ok and Err *)
  Example ex_get_at_pre : aligned 3072 9 = true /\ 3072 + pow2 9 <= frames l5 /\
                          aligned 2048 9 = true /\ 2048 + pow2 9 <= frames l5.
  Proof. vm_compute. repeat split; discriminate. Qed.
  Example ex_get_at_ok : fst (lower_get_at g9 l5 3072 9) = Ok tt /\
                         spec_get_enabled (abs g9 l5) 3072 9 = true.
  Proof. vm_compute. split; reflexivity. Qed.
  Example ex_get_at_err : lower_get_at g9 l5 2048 9 = (Err EMemory, l5) /\
                          spec_get_enabled (abs g9 l5) 2048 9 = false.
  Proof. vm_compute. split; reflexivity. Qed.
  Example ex_get_at_iff :
    (exists l', lower_get_at g9 l5 3072 9 = (Ok tt, l')) <-> spec_get_enabled (abs g9 l5) 3072 9 = true.
  Proof.
    apply (lower_get_at_ok_iff g9 wf9 l5 3072 9 inv5 ltac:(cbn; lia)).
    - apply ex_get_at_pre.
    - apply ex_get_at_pre.
  Qed.

  (* lower_get_opt *)
  Example ex_get_opt : fst (lower_get_opt g9 l5 20 0 (Some 1)) = Ok 1 /\
                       fst (lower_get_opt g9 l5 20 0 (Some 0)) = Err EMemory /\
                       fst (lower_get_opt g9 l5 20 0 None) = Ok 1280.
  Proof. vm_compute. repeat split; reflexivity. Qed.
End Examples.
