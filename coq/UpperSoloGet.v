(* A call run ALONE on M2 computes the big-step function of Upper.v: the call kind get (with and without a frame),
   and the summary theorems for all call kinds.
   Hypothesis `SInv g u` (a fragment of UpperInv, see `UpperInv_SInv`): LowerInv of the lower state, one tree entry
   per table, every present slot points into an existing tree.  It is what makes the embedded lower calls satisfy
   M1's `call_ok`, and it is carried along the call (`Keeps`).
   Simulation lemmas: get_local (`get_local_step`: locals.get, Lower::get, set_start / undo, and the retry after
   trees.sync + locals.put), steal_global, reserve_or_steal (`ros_sim`), search_best for a simulated access closure
   (`sb_try_sim`, `sb_loop_sim`: the loops `sb_next`/KSBL/KSBA/KSBT vs `sb_loop`/`sb_try`), search_and_reserve
   (`sar_sim`), steal_local (`steal_slots_sim`/`steal_any_sim`: the flat scan `steal_scan` vs the nested loops
   `steal_any_loop`/`steal_slots`), demote_local (`demote_slots_sim`/`demote_any_sim`), both ending in Lower::get at
   the row that was taken (`low_tail_sim`), the fallback chain KGet2/KOom1 (`get2_sim`), get_at (`get_at_sim`),
   get (`get_none_sim`).
   Theorems: usolo_get, usolo_call (every call kind), usolo_one_thread (the `usolo` form of UpperMachine.v). *)
From Coq Require Import PeanoNat ZifyBool.
From LLF Require Import Base BitLemmas Row RowProofs Bitfield Lower Spec Sorted Upper LowerMachine
  UpperInvDef LowerFacts LowerFactsProofs UpperPrims SoloRunLemmas SoloRun Progress UpperMachine UpperScan
  UpperSoloLemmas UpperSolo.
From LLF Require UpperProgress UpperGetProofs.

(* conversion checks (`exact`, `Qed`) must not unfold `settle` with fuel 64, the fuel-9 scans or the model's loops *)
Local Strategy 1000 [settle steal_scan demote_scan steal_slots demote_slots sl_next dl_next steal_any_loop demote_any_loop].

Section GetCalls.
  Variable g : geom.
  Variable policy : N -> N -> N -> pol.
  Hypothesis WF : wf_geom g.
  Notation TF := (TF g).
  Notation At := (At g policy).
  Notation Reach := (Reach g policy).
  Notation Lands := (Lands g policy).
  Notation Delivers := (Delivers g policy).
  Notation res_ok := UpperProgress.res_ok.

  (* get *)
  (* what the correspondence needs of the upper invariant (a fragment of UpperInv): the lower invariant, one tree
     entry per table, present slots point into existing trees *)
  Definition SInv (u : upper) : Prop :=
    LowerInv g (low u) /\ ntrees u = ntab g (frames (low u)) /\
    (forall c idx s, slot_at u c idx = Some s -> s_pres s = true -> row_tree g (s_row s) < ntrees u).

  Lemma SInv_set_tree u i t : SInv u -> SInv (set_tree u i t).
  Proof.
    intros (H1 & H2 & H3). unfold SInv. rewrite ntrees_set_tree. split; [exact H1|]. split; [exact H2 | exact H3].
  Qed.
  Lemma SInv_with_low u l' : SInv u -> LowerInv g l' -> frames l' = frames (low u) -> SInv (with_low u l').
  Proof.
    intros (H1 & H2 & H3) HL HF. split; [exact HL|]. split.
    - unfold ntrees, with_low in *. cbn [trees low]. rewrite HF. exact H2.
    - exact H3.
  Qed.
  Lemma slot_at_set_slot_inv u c idx s' c2 idx2 s :
    slot_at (set_slot u c idx s') c2 idx2 = Some s -> s = s' \/ slot_at u c2 idx2 = Some s.
  Proof.
    (* `slot_at` is defined twice, in UpperMachine.v and UpperPrims.v, with the same body; the lemmas are about the latter *)
    change (UpperPrims.slot_at (set_slot u c idx s') c2 idx2 = Some s -> s = s' \/ UpperPrims.slot_at u c2 idx2 = Some s).
    intros H. destruct (N.eq_dec c2 c) as [->|Hc]; [destruct (N.eq_dec idx2 idx) as [->|Hi]|].
    2, 3: right; rewrite slot_at_set_slot_other in H by congruence; exact H.
    destruct (UpperPrims.slot_at u c idx) eqn:E.
    - left. rewrite slot_at_set_slot_same in H by (rewrite E; discriminate). congruence.
    - (* out of range: nothing there afterwards either *)
      exfalso. unfold UpperPrims.slot_at, set_slot in *. destruct (class_slots u c) as [l|] eqn:Ec.
      + pose proof (class_slots_set_slot_same u c idx s' l Ec) as E3. unfold set_slot in E3. rewrite Ec in E3.
        rewrite E3 in H. apply ConcBase.nth_error_some_lt in H. rewrite upd_length in H. apply nth_error_None in E. lia.
      + rewrite Ec in H. discriminate.
  Qed.
  Lemma SInv_set_slot u c idx s' : SInv u -> (s_pres s' = true -> row_tree g (s_row s') < ntrees u) ->
    SInv (set_slot u c idx s').
  Proof.
    intros (H1 & H2 & H3) Hs'. unfold SInv. rewrite set_slot_low, ntrees_set_slot. split; [exact H1|]. split; [exact H2|].
    intros c2 idx2 s Hs Hp. apply slot_at_set_slot_inv in Hs. destruct Hs as [->|Hs]; [exact (Hs' Hp) | exact (H3 _ _ _ Hs Hp)].
  Qed.

  Definition Keeps (u u' : upper) : Prop := SInv u' /\ frames (low u') = frames (low u).
  Lemma Keeps_refl u : SInv u -> Keeps u u.
  Proof. intros H. split; [exact H | reflexivity]. Qed.
  Lemma Keeps_trans u u1 u2 : Keeps u u1 -> Keeps u1 u2 -> Keeps u u2.
  Proof. intros [_ H1] [H2 H3]. split; [exact H2 | congruence]. Qed.
  Lemma Keeps_set_tree u u1 i t : Keeps u u1 -> Keeps u (set_tree u1 i t).
  Proof. intros [H1 H2]. split; [apply SInv_set_tree; exact H1 | exact H2]. Qed.
  Lemma Keeps_set_slot u u1 c idx s' : Keeps u u1 -> (s_pres s' = true -> row_tree g (s_row s') < ntrees u1) ->
    Keeps u (set_slot u1 c idx s').
  Proof. intros [H1 H2] Hs. split; [apply SInv_set_slot; assumption | rewrite set_slot_low; exact H2]. Qed.
  Lemma Keeps_ntrees u u' : SInv u -> Keeps u u' -> ntrees u' = ntrees u.
  Proof. intros (_ & H & _) [(_ & H' & _) HF]. rewrite H, H', HF. reflexivity. Qed.
  (* a present slot of a state that keeps the invariant points into an existing tree *)
  Lemma Keeps_slot u0 u c idx s : Keeps u0 u -> slot_at u c idx = Some s -> s_pres s = true ->
    row_tree g (s_row s) < ntrees u.
  Proof. intros [(_ & _ & HS) _]. apply HS. Qed.

  (* what a function of llfree.rs delivers to k *)
  Notation RPost d k u0 := (Delivers (fun y => y) d k (Keeps u0)).

  (* Lower::get / get_at from the upper layer *)
  Definition lowget_ok (u : upper) (row : N) (order : nat) (frame : option N) : Prop :=
    Nat.leb order (tord g) = true /\
    match frame with
    | None => row_tree g row < ntrees u
    | Some f => f mod pow2 order = 0 /\ f + pow2 order <= frames (low u)
    end.

  Lemma big_lgc l row order frame : big g l (low_get_call row order frame) = lower_get_opt g l row order frame.
  Proof. destruct frame; reflexivity. Qed.

  Lemma lowget_sim u row order frame k d cf : SInv u -> lowget_ok u row order frame ->
    At d u (enter_low g (low_get_call row order frame) k) cf ->
    Reach cf (fun c' =>
      match lget_low g u row order frame with
      | (Ok f, u') => At 0 u' (ARet (VL (Ok f)) k) c' /\ Keeps u u' /\ f / TF < ntrees u /\
                      match frame with None => f / TF = row_tree g row | Some f0 => f = f0 end
      | (Err e, u') => At 0 u' (ARet (VL (Err e)) k) c' /\ u' = u
      | (Panic s, _) => False
      end).
  Proof.
    intros HI (Ho & Hf) HA. pose proof HI as (HL & HN & HS).
    pose proof (lower_facts_proved g WF) as LF. pose proof (LowerInv_Shape g _ HL) as Sh.
    eapply Reach_weaken; [apply (low_sim g policy WF u (low_get_call row order frame) k d cf Sh); [|exact HA]|].
    { unfold call_ok. destruct frame as [f|]; cbn [low_get_call c_order mk ms_frames]; rewrite Ho; cbn [andb].
      - destruct Hf as [Hf1 Hf2]. apply andb_true_iff. split; [apply N.eqb_eq; exact Hf1 | apply N.leb_le; exact Hf2].
      - apply N.ltb_lt. rewrite <- HN. exact Hf. }
    intros c1 Q1. rewrite big_lgc in Q1. unfold lget_low.
    apply Nat.leb_le in Ho.
    destruct frame as [f|]; cbn [lower_get_opt] in *.
    - destruct Hf as [Hf1 Hf2].
      pose proof (lf_get_at g LF (low u) f order) as Hg.
      destruct (lower_get_at g (low u) f order) as [[y|e|x] l'] eqn:Eg;
        specialize (Hg _ _ HL Ho ltac:(unfold aligned; apply N.eqb_eq; exact Hf1) Hf2 eq_refl);
        cbn [fst snd low_out UpperSoloLemmas.Lands] in Q1; [destruct Q1 as [Q1 _]..|].
      + destruct Hg as (_ & _ & HL' & HF' & _). split; [exact Q1|]. split; [split; [apply SInv_with_low; assumption | exact HF']|].
        split; [|reflexivity]. rewrite HN. apply (div_lt_ntab g). pose proof (AbsLemmas.pow2_pos order). lia.
      + destruct Hg as (_ & -> & _). rewrite with_low_id in *. split; [exact Q1 | reflexivity].
      + exact Hg.
    - pose proof (lf_get g LF (low u) row order) as Hg.
      destruct (lower_get g (low u) row order) as [[f|e|x] l'] eqn:Eg;
        specialize (Hg _ _ HL Ho ltac:(rewrite <- HN; exact Hf) eq_refl);
        cbn [fst snd low_out UpperSoloLemmas.Lands] in Q1; [destruct Q1 as [Q1 _]..|].
      + destruct Hg as (Ht & _ & _ & HL' & HF' & _). split; [exact Q1|]. split; [split; [apply SInv_with_low; assumption | exact HF']|].
        unfold row_tree. rewrite Ht. split; [exact Hf | reflexivity].
      + destruct Hg as (_ & -> & _). rewrite with_low_id in *. split; [exact Q1 | reflexivity].
      + exact Hg.
  Qed.

  (* the block of a get_at: aligned and inside the managed range *)
  Definition blk_ok (u : upper) (frame : option N) (order : nat) : Prop :=
    match frame with Some f => f mod pow2 order = 0 /\ f + pow2 order <= frames (low u) | None => True end.
  Lemma blk_ok_keeps u u' frame order : Keeps u u' -> blk_ok u frame order -> blk_ok u' frame order.
  Proof. intros [_ H]. unfold blk_ok. destruct frame; [rewrite H|]; auto. Qed.
  Lemma lowget_ok_intro u0 u row order frame : Nat.leb order (tord g) = true -> blk_ok u0 frame order -> Keeps u0 u ->
    row_tree g row < ntrees u -> lowget_ok u row order frame.
  Proof.
    intros Ho Hf HK Hr. split; [exact Ho|]. apply (blk_ok_keeps _ _ _ _ HK) in Hf. destruct frame; [exact Hf | exact Hr].
  Qed.

  (* model level: the tree operations keep the invariant *)
  Lemma trees_put_keeps u0 u i free : Keeps u0 u -> Keeps u0 (snd (trees_put g policy u i free)).
  Proof.
    intros H. unfold trees_put. destruct (tree_at u i); [|exact H].
    destruct (tree_put g policy (dflt u) t free); cbn [snd]; [apply Keeps_set_tree|..]; exact H.
  Qed.
  Lemma trees_unreserve_keeps u0 u i free class : Keeps u0 u -> Keeps u0 (snd (trees_unreserve g policy u i free class)).
  Proof.
    intros H. unfold trees_unreserve. destruct (tree_at u i); [|exact H].
    destruct (tree_unreserve_add g policy (dflt u) t free class) as [[t'|e|x]|]; cbn [snd]; [apply Keeps_set_tree|..]; exact H.
  Qed.
  Lemma trees_sync_keeps u0 u i min : Keeps u0 u -> Keeps u0 (snd (trees_sync u i min)).
  Proof.
    intros H. unfold trees_sync. destruct (tree_at u i); [|exact H].
    destruct (tree_sync_steal t min); cbn [snd]; [apply Keeps_set_tree|]; exact H.
  Qed.
  Lemma trees_steal_keeps u0 u i class free : Keeps u0 u -> Keeps u0 (snd (trees_steal policy u i class free)).
  Proof.
    intros H. unfold trees_steal. destruct (tree_at u i); [|exact H].
    destruct (tree_steal policy t class free); cbn [snd]; [apply Keeps_set_tree|]; exact H.
  Qed.
  Lemma trees_ros_keeps u0 u i class free : Keeps u0 u -> Keeps u0 (snd (trees_reserve_or_steal policy u i class free)).
  Proof.
    intros H. unfold trees_reserve_or_steal. destruct (tree_at u i); [|exact H].
    destruct (tree_reserve_or_steal policy t free class); cbn [snd]; [apply Keeps_set_tree|]; exact H.
  Qed.

  (* the undo of a reservation, then return r0 *)
  Lemma tput_ret_keeps u0 u i free r0 k d cf : res_ok r0 = true -> Keeps u0 u ->
    At d u (enter_tput u i free (KRetR r0 :: k)) cf ->
    Reach cf (RPost 1 k u0 (lift (trees_put g policy u i free) (fun _ u' => (r0, u')))).
  Proof. intros Hr HK. apply tput_ret_sim; [exact Hr | apply trees_put_keeps; exact HK]. Qed.
  Lemma tunres_ret_keeps u0 u i free class r0 k d cf : res_ok r0 = true -> Keeps u0 u ->
    At d u (enter_tu u i (FUnres free class) (KUnres r0 :: k)) cf ->
    Reach cf (RPost 1 k u0 (lift (trees_unreserve g policy u i free class) (fun _ u' => (r0, u')))).
  Proof. intros Hr HK. apply tunres_ret_sim; [exact Hr | apply trees_unreserve_keeps; exact HK]. Qed.

  (* get_local *)
  Definition out_g (r : glr) : out := match r with GPanic s => OPanic s | _ => ORet (VG r) end.
  Notation GLPost d k u0 x := (Lands d k (Keeps u0) (out_g (fst x)) (snd x)).

  (* trees.put(..) (undo), then get_local returns Err (frame KGL4) *)
  Lemma tput_gl4_sim u0 u i free e t k d cf : Keeps u0 u -> At d u (enter_tput u i free (KGL4 e t :: k)) cf ->
    Reach cf (GLPost 1 k u0 (match trees_put g policy u i free with
                              | (Panic s, u') => (GPanic s, u')
                              | (_, u') => (GErr e (Some t), u')
                              end)).
  Proof.
    intros HK HA. pose proof (trees_put_keeps u0 u i free HK) as HKp.
    eapply Reach_weaken; [exact (tput_sim g policy _ _ _ _ _ _ _ HA)|]. intros c' H.
    destruct (trees_put g policy u i free) as [[y|e2|x] u']; [destruct H as (t1 & t' & _ & H)|destruct H|exact H].
    split; [exact H | exact HKp].
  Qed.

  (* after the slot delivered a row: Lower::get, then set_start or the undo *)
  Lemma get_local_row_sim u0 u order class local frame row k cf : Keeps u0 u -> lowget_ok u row order frame ->
    At 1 u (enter_low g (low_get_call row order frame) (KGL2 order class local row :: k)) cf ->
    Reach cf (GLPost 1 k u0
      (match lget_low g u row order frame with
       | (Ok f, u2) =>
           if negb (row =? f / 64) then
             match locals_set_start g u2 class local (f / 64) with
             | (Panic s, u3) => (GPanic s, u3)
             | (_, u3) => (GOk f class, u3)
             end
           else (GOk f class, u2)
       | (Err e, u2) =>
           match trees_put g policy u2 (row_tree g row) (pow2 order) with
           | (Panic s, u3) => (GPanic s, u3)
           | (_, u3) => (GErr e (Some (row_tree g row)), u3)
           end
       | (Panic s, u2) => (GPanic s, u2)
       end)).
  Proof.
    intros HK Hok HA.
    eapply Reach_bind; [exact (lowget_sim u row order frame _ 1 cf (proj1 HK) Hok HA)|]. intros c1 Q1.
    destruct (lget_low g u row order frame) as [[f|e|x] u2]; [| |destruct Q1].
    - destruct Q1 as (Q1 & HK2 & _). ret_step Q1.
      assert (HK02 : Keeps u0 u2) by (eapply Keeps_trans; eassumption).
      destruct (row =? f / 64); cbn [negb]; [apply Reach_here; split; [exact Q1 | exact HK02]|].
      unfold locals_set_start. apply slot_enter in Q1.
      destruct (class_slots u2 class) as [l|] eqn:Ecs; [|apply Reach_here; split; [exact Q1 | exact HK02]].
      destruct (nth_error l (nn local)) as [s|] eqn:En; [|apply Reach_here; exact Q1].
      apply (Reach_bind _ _ _ _ _ Q1). intros c2 Q2. unfold su_post in Q2. cbn [sf_apply] in Q2. apply Reach_here.
      destruct (slot_set_start g s (f / 64)) as [s'|] eqn:Ess; cbn [option_map] in Q2; ret_step Q2;
        (split; [exact Q2|]); [|exact HK02].
      (* the new start row lies in the tree of the old one *)
      apply Keeps_set_slot; [exact HK02|]. intros _. unfold slot_set_start in Ess.
      destruct (s_pres s && (row_tree g (s_row s) =? row_tree g (f / 64)) && negb (s_row s =? f / 64)) eqn:Ec; [|discriminate].
      injection Ess as <-. cbn [s_row].
      apply andb_true_iff in Ec. destruct Ec as [Ec _]. apply andb_true_iff in Ec. destruct Ec as [Ep Er].
      apply N.eqb_eq in Er. rewrite <- Er.
      apply (Keeps_slot u0 u2 class local s HK02); [unfold slot_at; rewrite Ecs; exact En | exact Ep].
    - destruct Q1 as (Q1 & ->). ret_step Q1. exact (tput_gl4_sim u0 u _ _ _ _ _ _ _ HK Q1).
  Qed.

  Lemma slot_put_some s tree free s' : slot_put g s tree free = Some (Ok s') ->
    s_pres s = true /\ s_row s' = s_row s.
  Proof.
    unfold slot_put. destruct (s_pres s); cbn [andb]; [|discriminate].
    destruct (row_tree g (s_row s) =? tree); [|discriminate].
    destruct (s_free s + free <=? TF); [|discriminate]. intros H. injection H as <-. split; reflexivity.
  Qed.

  Section GetLocal.
    Variable u0 : upper.
    Variable order : nat.
    Variable class local : N.
    Variable frame : option N.
    Hypothesis Hord : Nat.leb order (tord g) = true.
    Hypothesis Hfok : blk_ok u0 frame order.

    Lemma get_local_step sync fuel' :
      (sync = true -> forall u k d cf, Keeps u0 u ->    At d u (enter_get_local g u order class local frame false k) cf ->
         Reach cf (GLPost (Nat.max d 1) k u0 (get_local g policy fuel' u order class local frame false))) ->
      forall u k d cf, Keeps u0 u ->   At d u (enter_get_local g u order class local frame sync k) cf ->
        Reach cf (GLPost (Nat.max d 1) k u0 (get_local g policy (S fuel') u order class local frame sync)).
    Proof.
      intros Hrec u k d cf HK HA.
      (* results that arrive after a primitive *)
      assert (Hmono : forall x c1, Reach c1 (GLPost 1 k u0 x) -> Reach c1 (GLPost (Nat.max d 1) k u0 x)).
      { intros x c1 H. eapply Reach_weaken; [exact H|]. intros c'. apply Lands_mono; [lia | exact (fun H => H)]. }
      unfold enter_get_local in HA. cbn [get_local]. unfold locals_get. apply slot_enter in HA.
      destruct (class_slots u class) as [l|] eqn:Ecs.
      2: { apply Reach_here. split; [eapply At_mono; [exact HA | lia] | exact HK]. }
      destruct (nth_error l (nn local)) as [s|] eqn:En; [|apply Reach_here; exact HA].
      assert (Hsl : slot_at u class local = Some s) by (unfold slot_at; rewrite Ecs; exact En).
      apply (Reach_bind _ _ _ _ _ HA). clear HA. intros c1 Q. unfold su_post in Q. cbn [sf_apply] in Q.
      destruct (slot_get g s (option_map (fun f => f / TF) frame) (pow2 order)) as [s'|] eqn:Esg; cbn [option_map] in Q.
      - (* the slot has enough frames *)
        destruct (UpperGetProofs.slot_get_inv g _ _ _ _ Esg) as (Hp & _ & _ & Es'). ret_step Q.
        assert (Hrow : row_tree g (s_row s) < ntrees (set_slot u class local s'))
          by (rewrite ntrees_set_slot; exact (Keeps_slot u0 u _ _ _ HK Hsl Hp)).
        assert (HK1 : Keeps u0 (set_slot u class local s')).
        { apply Keeps_set_slot; [exact HK|]. intros _. rewrite Es'. cbn [s_row]. rewrite ntrees_set_slot in Hrow. exact Hrow. }
        apply Hmono. apply (get_local_row_sim u0 _ order class local frame (s_row s) k _ HK1); [|exact Q].
        exact (lowget_ok_intro u0 _ _ _ _ Hord Hfok HK1 Hrow).
      - (* no: a reservation that is too small, or none *)
        ret_step Q. destruct (s_pres s) eqn:Hp.
        2: { apply Reach_here. split; [eapply At_mono; [exact Q | lia] | exact HK]. }
        cbn [slot_resv rv_row rv_free].
        destruct (sync && match frame with Some fr => fr / TF =? row_tree g (s_row s) | None => true end) eqn:Esy.
        2: { apply Reach_here. split; [eapply At_mono; [exact Q | lia] | exact HK]. }
        assert (Hs : sync = true) by (destruct sync; [reflexivity | discriminate Esy]).
        destruct (pow2 order <? s_free s); [apply Reach_here; apply At_panic in Q; exact Q|].
        set (t := row_tree g (s_row s)) in *.
        pose proof (trees_sync_keeps u0 u t (pow2 order - s_free s) HK) as HK2.
        use_tu Q Q2. unfold trees_sync in *.
        destruct (tree_at u t) as [tt|] eqn:Et; [|apply Reach_here; exact Q2].
        destruct (tree_sync_steal tt (pow2 order - s_free s)) as [t'|]; cbn [option_map snd] in *.
        2: { ret_step Q2. apply Reach_here. split; [eapply At_mono; [exact Q2 | lia] | exact HK]. }
        ret_step Q2. set (u2 := set_tree u t t') in *.
        (* locals.put(tree, free) *)
        unfold locals_put. apply slot_enter in Q2.
        assert (Ecs2 : class_slots u2 class = Some l) by exact Ecs. rewrite Ecs2 in *. rewrite En in *.
        apply (Reach_bind _ _ _ _ _ Q2). clear Q2. intros c3 Q3. unfold su_post in Q3. cbn [sf_apply] in Q3.
        destruct (slot_put g s t (t_free tt)) as [[s2|e2|x2]|] eqn:Esp.
        + ret_step Q3. destruct (slot_put_some _ _ _ _ Esp) as (_ & Hr2).
          eapply Reach_weaken; [apply (Hrec Hs (set_slot u2 class local s2) k 1%nat _); [| exact Q3]|].
          * apply Keeps_set_slot; [exact HK2|]. intros _. rewrite Hr2.
            apply (Keeps_slot u0 u2 class local s HK2); [unfold slot_at; rewrite Ecs2; exact En | exact Hp].
          * intros c'. apply Lands_mono; [lia | exact (fun H => H)].
        + exfalso. eapply slot_put_no_err; exact Esp.
        + apply Reach_here. exact Q3.
        + ret_step Q3. apply Hmono. exact (tput_gl4_sim u0 u2 _ _ _ _ _ _ _ HK2 Q3).
    Qed.
  End GetLocal.

  Lemma get_local_sim u0 order class local frame : Nat.leb order (tord g) = true -> blk_ok u0 frame order ->
    forall u k d cf, Keeps u0 u -> At d u (enter_get_local g u order class local frame true k) cf ->
      Reach cf (GLPost (Nat.max d 1) k u0 (get_local g policy 2 u order class local frame true)).
  Proof.
    intros Ho Hf. apply (get_local_step u0 order class local frame Ho Hf true 1).
    intros _. apply (get_local_step u0 order class local frame Ho Hf false 0). intros H. discriminate H.
  Qed.

  (* steal_global *)
  Lemma steal_global_sim u0 u i class order frame k d cf : Keeps u0 u -> Nat.leb order (tord g) = true ->
    blk_ok u0 frame order -> At d u (enter_steal_global u i class order frame k) cf ->
    Reach cf (RPost 1 k u0 (steal_global g policy u i class order frame)).
  Proof.
    intros HK Ho Hf HA. unfold enter_steal_global in HA. use_tu HA Q. unfold steal_global, trees_steal.
    destruct (tree_at u i) as [t|] eqn:Et; cbn [lift]; [|apply Reach_here; exact Q].
    destruct (tree_steal policy t class (pow2 order)) as [t'|]; cbn [option_map lift] in *.
    2: { ret_step Q. apply Reach_here. split; [exact Q | exact HK]. }
    ret_step Q. set (u1 := set_tree u i t') in *.
    assert (HK1 : Keeps u0 u1) by (apply Keeps_set_tree; exact HK).
    assert (Hok : lowget_ok u1 (tree_row g i) order frame).
    { apply (lowget_ok_intro u0); [exact Ho | exact Hf | exact HK1 |].
      rewrite (row_tree_tree_row g WF). unfold u1. rewrite ntrees_set_tree. eapply tree_at_lt; exact Et. }
    eapply Reach_bind; [exact (lowget_sim u1 _ order frame _ _ _ (proj1 HK1) Hok Q)|]. intros c1 Q1.
    destruct (lget_low g u1 (tree_row g i) order frame) as [[f|e|x] u2]; [| |destruct Q1].
    - destruct Q1 as (Q1 & HK2 & _). ret_step Q1. apply Reach_here. split; [exact Q1 | eapply Keeps_trans; eassumption].
    - destruct Q1 as (Q1 & ->). ret_step Q1. exact (tput_ret_keeps u0 u1 _ _ (Err e) _ _ _ eq_refl HK1 Q1).
  Qed.

  (* reserve_or_steal *)
  Lemma ros_sim u0 u i order class local k d cf : Keeps u0 u -> Nat.leb order (tord g) = true ->
    At d u (enter_access u (AcRos order class local) i k) cf ->
    Reach cf (RPost 1 k u0 (reserve_or_steal g policy u i order class local)).
  Proof.
    intros HK Ho HA. cbn [enter_access] in HA. use_tu HA Q. unfold reserve_or_steal, trees_reserve_or_steal.
    destruct (tree_at u i) as [t|] eqn:Et; cbn [lift]; [|apply Reach_here; exact Q].
    destruct (tree_reserve_or_steal policy t (pow2 order) class) as [t'|]; cbn [option_map lift] in *.
    2: { ret_step Q. apply Reach_here. split; [exact Q | exact HK]. }
    ret_step Q. set (u1 := set_tree u i t') in *.
    assert (HK1 : Keeps u0 u1) by (apply Keeps_set_tree; exact HK).
    assert (Hok : lowget_ok u1 (tree_row g i) order None).
    { split; [exact Ho|]. rewrite (row_tree_tree_row g WF). unfold u1. rewrite ntrees_set_tree. eapply tree_at_lt; exact Et. }
    change (enter_low g (CGet (tree_row g i) order)) with (enter_low g (low_get_call (tree_row g i) order None)) in Q.
    eapply Reach_bind; [exact (lowget_sim u1 _ order None _ _ _ (proj1 HK1) Hok Q)|]. intros c1 Q1.
    destruct (lget_low g u1 (tree_row g i) order None) as [[f|e|x] u2]; [| |destruct Q1].
    - destruct Q1 as (Q1 & HK2 & Hft & _). ret_step Q1.
      assert (HK02 : Keeps u0 u2) by (eapply Keeps_trans; eassumption).
      destruct (t_res t'); [|apply Reach_here; split; [exact Q1 | exact HK02]].
      unfold class_locals in *.
      destruct (class_slots u2 (t_class t')) as [l|] eqn:Ecs; cbn [option_map] in *;
        [|apply Reach_here; split; [exact Q1 | exact HK02]].
      destruct (0 <? N.of_nat (length l)); [|apply Reach_here; split; [exact Q1 | exact HK02]].
      use_sw Q1 Q2. unfold locals_swap. rewrite Ecs. unfold slot_at in Q2. rewrite Ecs in Q2.
      destruct (nth_error l (nn (local mod N.of_nat (length l)))) as [old|]; cbn [lift]; [|apply Reach_here; exact Q2].
      ret_step Q2.
      set (u3 := set_slot u2 (t_class t') (local mod N.of_nat (length l))
                   {| s_pres := true; s_row := tree_row g (f / TF); s_free := t_free t - pow2 order |}) in *.
      assert (HK3 : Keeps u0 u3).
      { apply Keeps_set_slot; [exact HK02|]. intros _. cbn [s_row]. rewrite (row_tree_tree_row g WF).
        rewrite (Keeps_ntrees u1 u2 (proj1 HK1) HK2). exact Hft. }
      destruct (s_pres old); [|apply Reach_here; split; [exact Q2 | exact HK3]].
      cbn [slot_resv rv_row rv_free].
      exact (tunres_ret_keeps u0 u3 _ _ _ (Ok (f, t_class t')) _ _ _ eq_refl HK3 Q2).
    - destruct Q1 as (Q1 & ->). ret_step Q1. destruct (t_res t').
      + exact (tunres_ret_keeps u0 u1 _ _ _ (Err e) _ _ _ eq_refl HK1 Q1).
      + exact (tput_ret_keeps u0 u1 _ _ (Err e) _ _ _ eq_refl HK1 Q1).
  Qed.

  (* search_best, for an access closure that is simulated *)
  Section Search.
    Variable access : upper -> N -> res (N * N) * upper.
    Variable a : acc.
    Variable rate : N -> N -> pol.
    Variable rt : ratek.
    Variable u0 : upper.
    Hypothesis Hacc : forall u i k d cf, Keeps u0 u -> At d u (enter_access u a i k) cf ->
      Reach cf (RPost 1 k u0 (access u i)).
    Hypothesis Hrate : forall t f, rate_apply g policy rt t f = rate t f.

    Lemma sb_try_sim cands : forall u sb k d cf, sb_acc sb = a -> Keeps u0 u -> At d u (UpperMachine.sb_try u sb cands k) cf ->
      Reach cf (RPost (Nat.max d 2) k u0 (Upper.sb_try access u cands)).
    Proof.
      induction cands as [|[key i] r IH]; intros u sb k d cf Ha HK HA;
        cbn [UpperMachine.sb_try] in HA; cbn [Upper.sb_try].
      - apply Reach_here. split; [eapply At_mono; [exact HA | lia] | exact HK].
      - rewrite Ha in HA. eapply Reach_bind; [exact (Hacc _ _ _ _ _ HK HA)|]. intros c1 Q1.
        apply (retry_sim g policy (fun y => y) (KSBT sb r) k (fun u' => UpperMachine.sb_try u' sb r k)
                 (fun u' => Upper.sb_try access u' r) (Keeps u0) 1 (Nat.max d 2) (access u i) c1);
          [reflexivity | lia | unfold SETTLE; lia | | exact Q1].
        intros u1 c2 HK1 Q. eapply Delivers_mono; [|exact (IH u1 sb k 2%nat c2 Ha HK1 Q)]. lia.
    Qed.

    Lemma sb_loop_sim n : forall u sb k d cf, sb_acc sb = a -> sb_rate sb = rt -> sb_n sb = n -> Keeps u0 u ->
      At d u (sb_next u sb k) cf ->
      Reach cf (RPost (Nat.max d 2) k u0
                  (sb_loop g access rate (sb_cap sb) u (sb_start sb) (sb_i sb) n (sb_best sb))).
    Proof.
      induction n as [|n IH]; intros u sb k d cf Ha Hr Hn HK HA; unfold sb_next in HA; rewrite Hn in HA.
      - cbn [sb_loop]. apply (sb_try_sim _ _ _ _ _ _ Ha HK HA).
      - cbv zeta in HA. cbn [sb_loop]. set (idx := walk_idx (sb_start sb) (ntrees u) (sb_i sb)) in *.
        destruct (tree_at u idx) as [t|] eqn:Et.
        2: { rewrite (tree_ok_none u idx Et) in HA. apply Reach_here. apply At_panic in HA. exact HA. }
        rewrite (tree_ok_some u idx t Et) in HA.
        eapply Reach_bind; [exact (ld_sim g policy _ _ _ _ _ HA)|]. clear HA. intros c1 Q. rewrite Et in Q. ret_step Q.
        set (sb' := sb_adv sb (sb_best sb)) in *.
        assert (Ei : sb_i sb' - 1 = sb_i sb) by (unfold sb'; cbn [sb_adv sb_i]; lia).
        rewrite Ei in Q. fold idx in Q.
        (* the next round, entered after a primitive, whatever the candidates are by then *)
        assert (Fnext : forall u1 best d1 c2, Keeps u0 u1 -> (d1 <= 2)%nat ->
                  At d1 u1 (sb_next u1 {| sb_acc := sb_acc sb'; sb_rate := sb_rate sb'; sb_cap := sb_cap sb';
                                          sb_start := sb_start sb'; sb_i := sb_i sb'; sb_n := sb_n sb';
                                          sb_best := best |} k) c2 ->
                  Reach c2 (RPost (Nat.max d 2) k u0
                    (sb_loop g access rate (sb_cap sb) u1 (sb_start sb) (sb_i sb + 1) n best))).
        { intros u1 best d1 c2 HK1 Hd1 H.
          match type of H with At _ _ (sb_next _ ?sbx _) _ =>
            eapply Delivers_mono; [|apply (IH u1 sbx k d1 c2 Ha Hr); [cbn [sb_n]; unfold sb'; cbn [sb_adv sb_n]; rewrite Hn; reflexivity | exact HK1 | exact H]]
          end. lia. }
        destruct (t_res t); [exact (Fnext u _ 1%nat c1 HK ltac:(lia) Q)|].
        replace (rate_apply g policy (sb_rate sb') (t_class t) (t_free t)) with (rate (t_class t) (t_free t)) in Q
          by (change (sb_rate sb') with (sb_rate sb); rewrite Hr, Hrate; reflexivity).
        destruct (rate (t_class t) (t_free t)) as [[|q]| | |].
        all: repeat match type of Q with At _ _ (match ?q with _ => _ end) _ => destruct q end.
        all: try exact (Fnext u _ 1%nat c1 HK ltac:(lia) Q).
        (* a perfect match: the access closure is tried at once *)
        change (sb_acc sb') with (sb_acc sb) in Q. rewrite Ha in Q.
        eapply Reach_bind; [exact (Hacc u idx _ 1%nat c1 HK Q)|]. intros c2 Q2.
        apply (retry_sim g policy (fun y => y) (KSBA sb') k (fun u' => sb_next u' sb' k)
                 (fun u' => sb_loop g access rate (sb_cap sb) u' (sb_start sb) (sb_i sb + 1) n (sb_best sb))
                 (Keeps u0) 1 (Nat.max d 2) (access u idx) c2);
          [reflexivity | lia | unfold SETTLE; lia | | exact Q2].
        intros u1 c3 HK1 Q3. exact (Fnext u1 _ 2%nat c3 HK1 ltac:(lia) Q3).
    Qed.

    Lemma search_best_sim cap u start offset len k d cf : Keeps u0 u -> At d u (enter_sb u a rt cap start offset len k) cf ->
      Reach cf (RPost (Nat.max d 2) k u0 (search_best g access rate cap u start offset len)).
    Proof.
      intros HK HA. unfold enter_sb in HA. unfold search_best.
      destruct ((0 <? len - offset) && (ntrees u =? 0)).
      - apply Reach_here. apply At_panic in HA. exact HA.
      - match type of HA with At _ _ (sb_next _ ?sbx _) _ =>
          apply (sb_loop_sim _ u sbx k d cf eq_refl eq_refl eq_refl HK HA) end.
    Qed.
  End Search.

  (* the model's retry match when its scrutinee is a variable *)
  Lemma or_else_var {A} (x : res A * upper) f :
    match x with (Err EMemory, u1) => f u1 | other => other end = or_else x f.
  Proof. destruct x as [[y|[| |]|s] u']; reflexivity. Qed.

  (* search_and_reserve *)
  (* d + 3 < SETTLE, here and for the fallback chain below: up to three returns (KSR1, KGet2, KOom1) may follow the
     entry depth before a primitive resets it *)
  Lemma sar_sim u0 u order class local start k d cf : Keeps u0 u -> Nat.leb order (tord g) = true -> (d + 3 < SETTLE)%nat ->
    At d u (enter_search_and_reserve g u order class local start k) cf ->
    Reach cf (RPost (Nat.max d 2 + 1) k u0 (search_and_reserve g policy u order class local start)).
  Proof.
    intros HK Ho Hd HA. unfold enter_search_and_reserve in HA. unfold search_and_reserve.
    assert (Hacc : forall u i k d cf, Keeps u0 u -> At d u (enter_access u (AcRos order class local) i k) cf ->
              Reach cf (RPost 1 k u0 (reserve_or_steal g policy u i order class local))).
    { intros u' i k' d' cf' HK' H. apply (ros_sim u0 u' i order class local k' d' cf' HK' Ho H). }
    change (sr_start u start) with (align_down start (next_pow2 (2 * N.max (ntrees u / 16) 4))) in HA.
    cbv zeta. set (st := align_down start (next_pow2 (2 * N.max (ntrees u / 16) 4))) in *.
    assert (Hglob : forall u1 d1 c1, Keeps u0 u1 -> (d1 <= S (Nat.max d 2))%nat ->
              At d1 u1 (enter_sb u1 (AcRos order class local) (RGlob class (pow2 order)) 8 st 0 (ntrees u1) k) c1 ->
              Reach c1 (RPost (Nat.max d 2 + 1) k u0
                (search_best g (fun u i => reserve_or_steal g policy u i order class local)
                   (fun t f => match rate_req policy class (pow2 order) t f with
                               | PMatch _ => PMatch 255
                               | PDemote => if f =? TF then PMatch 255 else PDemote
                               | p => p end) 8 u1 st 0 (ntrees u1)))).
    { intros u1 d1 c1 HK1 Hd1 H. eapply Delivers_mono; [|apply (search_best_sim _ _ _ (RGlob class (pow2 order)) u0 Hacc (fun _ _ => eq_refl)
                                       8 u1 st 0 (ntrees u1) k d1 c1 HK1 H)]. lia. }
    rewrite or_else_var. destruct (Nat.ltb order (hord g)).
    - eapply Reach_bind; [exact (search_best_sim _ _ _ (RNear class (pow2 order)) u0 Hacc (fun _ _ => eq_refl)
                                     3 u st 1 (N.max (ntrees u / 16) 4) _ d cf HK HA)|].
      intros c1 Q1.
      apply (retry_sim g policy (fun y => y) (KSR1 order class local st) k
               (fun u1 => enter_sb u1 (AcRos order class local) (RGlob class (pow2 order)) 8 st 0 (ntrees u1) k)
               _ (Keeps u0) (Nat.max d 2) (Nat.max d 2 + 1) _ c1); [reflexivity | lia | unfold SETTLE in *; lia | | exact Q1].
      intros u1 c2 HK1 Q2. exact (Hglob u1 _ c2 HK1 (le_n _) Q2).
    - cbn [or_else]. apply (Hglob u d cf HK); [lia | exact HA].
  Qed.

  (* steal_local and demote_local: the flat scans of the machine vs the nested loops of the model *)
  Section LocalScans.
    Variable u0 : upper.
    Variable r : request.
    Variable frame : option N.
    Hypothesis Hord : Nat.leb (r_order r) (tord g) = true.
    Hypothesis Hfok : blk_ok u0 frame (r_order r).
    Notation class := (r_class r).
    Notation free := (pow2 (r_order r)).
    Notation tree := (option_map (fun f => f / TF) frame).
    Notation index := (match r_local r with Some x => x | None => 0 end).

    (* Lower::get at the row of a reservation that was taken from a slot; without memory there, its frames go
       back to the tree *)
    Definition low_tail (tc row : N) (u1 : upper) : res (N * N) * upper :=
      match lget_low g u1 row (r_order r) frame with
      | (Err EMemory, u2) => lift (trees_put g policy u2 (row_tree g row) (pow2 (r_order r))) (fun _ u3 => (Err EMemory, u3))
      | (Ok f, u2) => (Ok (f, tc), u2)
      | (Err e, u2) => (Err e, u2)
      | (Panic s, u2) => (Panic s, u2)
      end.
    Lemma low_tail_sim f tc u row k d cf :
      (forall u' x, resume g policy u' (VL x) f k =
         match x with
         | Err EMemory => enter_tput u' (row_tree g row) (pow2 (r_order r)) (KRetR (Err EMemory) :: k)
         | Ok fr => ARet (VR (Ok (fr, tc))) k
         | Err e => ARet (VR (Err e)) k
         | Panic s => APanic s
         end) ->
      Keeps u0 u -> row_tree g row < ntrees u ->
      At d u (enter_low g (low_get_call row (r_order r) frame) (f :: k)) cf ->
      Reach cf (RPost 1 k u0 (low_tail tc row u)).
    Proof.
      intros Hf HK Hrow HA. unfold low_tail.
      assert (Hok : lowget_ok u row (r_order r) frame) by exact (lowget_ok_intro u0 _ _ _ _ Hord Hfok HK Hrow).
      eapply Reach_bind; [exact (lowget_sim u row (r_order r) frame _ _ _ (proj1 HK) Hok HA)|]. intros c1 Q1.
      destruct (lget_low g u row (r_order r) frame) as [[fr|e|x] u2]; [| |destruct Q1].
      - destruct Q1 as (Q1 & HK2 & _). apply At_ret in Q1; [|unfold SETTLE; lia]. rewrite Hf in Q1.
        apply Reach_here. split; [exact Q1 | eapply Keeps_trans; eassumption].
      - destruct Q1 as (Q1 & ->). apply At_ret in Q1; [|unfold SETTLE; lia]. rewrite Hf in Q1. destruct e.
        + exact (tput_ret_keeps u0 u _ _ (Err EMemory) _ _ _ eq_refl HK Q1).
        + apply Reach_here. split; [exact Q1 | exact HK].
        + apply Reach_here. split; [exact Q1 | exact HK].
    Qed.

    Lemma scan_idx_lt (l : list slot) j m : length l = (nn j + S m)%nat ->
      (nn ((index + j) mod N.of_nat (length l)) < length l)%nat.
    Proof.
      intros H. pose proof (N.mod_lt (index + j) (N.of_nat (length l)) ltac:(lia)). unfold nn. lia.
    Qed.

    (* steal_local *)
    Lemma sl_next_end u i j k : 8 <= i -> sl_next g policy u r frame i j k = ARet (VR (Err EMemory)) k.
    Proof. intros H. unfold sl_next. rewrite steal_scan_gscan, gscan_end by exact H. reflexivity. Qed.
    Lemma sl_next_skip u i j k : i < 8 -> (sl_slots policy u class free i <= nn j)%nat ->
      sl_next g policy u r frame i j k = sl_next g policy u r frame (i + 1) 0 k.
    Proof.
      intros Hi Hj. unfold sl_next. rewrite !steal_scan_gscan, gscan_skip_fuel by (assumption || lia). reflexivity.
    Qed.
    Lemma sl_next_hit u i j k l : i < 8 -> class_slots u ((i + class) mod 8) = Some l ->
      (nn j < sl_slots policy u class free i)%nat ->
      sl_next g policy u r frame i j k =
        ADo (PSL ((i + class) mod 8) ((index + j) mod N.of_nat (length l)) (SGet tree free)) (KSL1 r frame i j :: k).
    Proof.
      intros Hi Hl Hj. unfold sl_next. rewrite steal_scan_gscan, gscan_hit by assumption.
      unfold class_locals. rewrite Hl. reflexivity.
    Qed.

    (* the tail of steal_local after locals.steal_any *)
    Definition sl_tail (o : option reservation) (u1 : upper) : res (N * N) * upper :=
      match o with
      | None => (Err EMemory, u1)
      | Some rv => low_tail (rv_class rv) (rv_row rv) u1
      end.

    (* the slots j.. of class index i; `rest`: what the later class indices deliver *)
    Lemma steal_slots_sim u i l k rest : Keeps u0 u -> i < 8 -> class_slots u ((i + class) mod 8) = Some l ->
      sl_slots policy u class free i = length l ->
      (forall d cf, At d u (sl_next g policy u r frame (i + 1) 0 k) cf ->
         Reach cf (RPost (Nat.max d 1) k u0 rest)) ->
      forall m j d cf, length l = (nn j + m)%nat -> At d u (sl_next g policy u r frame i j k) cf ->
        Reach cf (RPost (Nat.max d 1) k u0
          match steal_slots g u ((i + class) mod 8) index (N.of_nat (length l)) tree free j m with
          | Some (Upper.LRow row, u') => sl_tail (Some {| rv_row := row; rv_class := (i + class) mod 8; rv_free := 0 |}) u'
          | Some (LPanic s, u') => (Panic s, u')
          | _ => rest
          end).
    Proof.
      intros HK Hi Hl Hsl Hout. induction m as [|m IH]; intros j d cf Hlen HA.
      - cbn [steal_slots]. rewrite sl_next_skip in HA by lia. apply Hout. exact HA.
      - assert (Hlen1 : length l = (nn (j + 1) + m)%nat) by (unfold nn in *; lia).
        rewrite (sl_next_hit u i j k l Hi Hl) in HA by lia. cbn [steal_slots]. unfold locals_get. rewrite Hl.
        pose proof (scan_idx_lt l j m Hlen) as Hidx. set (idx := (index + j) mod N.of_nat (length l)) in *.
        destruct (nth_error l (nn idx)) as [s|] eqn:En; [|apply nth_error_None in En; lia].
        assert (Hs : slot_at u ((i + class) mod 8) idx = Some s) by (unfold slot_at; rewrite Hl; exact En).
        eapply Reach_bind; [exact (su_sim g policy _ _ _ _ _ _ _ _ Hs HA)|]. clear HA. intros c1 Q.
        unfold su_post in Q. cbn [sf_apply] in Q.
        destruct (slot_get g s tree free) as [s'|] eqn:Esg; cbn [option_map] in Q; ret_step Q.
        + (* the slot is taken: Lower::get at its row *)
          destruct (UpperGetProofs.slot_get_inv g _ _ _ _ Esg) as (Hp & _ & _ & Es').
          pose proof (Keeps_slot u0 u _ _ _ HK Hs Hp) as Hrow.
          apply (Delivers_mono _ _ _ 1); [lia|].
          apply (low_tail_sim (KSL2 r (s_row s) ((i + class) mod 8)) _ _ (s_row s) k 1%nat c1 (fun _ _ => eq_refl)); [| |exact Q].
          * apply Keeps_set_slot; [exact HK|]. intros _. rewrite Es'. exact Hrow.
          * rewrite ntrees_set_slot. exact Hrow.
        + eapply Delivers_mono; [|destruct (s_pres s); exact (IH (j + 1) 1%nat c1 Hlen1 Q)]. apply Nat.le_max_r.
    Qed.

    Lemma steal_any_sim u k : Keeps u0 u -> forall n i d cf, i + N.of_nat n = 8 -> At d u (sl_next g policy u r frame i 0 k) cf ->
      Reach cf (RPost (Nat.max d 1) k u0 (lift (steal_any_loop g policy u class index tree free i n) sl_tail)).
    Proof.
      intros HK. induction n as [|n IH]; intros i d cf Hi HA.
      - rewrite sl_next_end in HA by lia. apply Reach_here. split; [eapply At_mono; [exact HA | lia] | exact HK].
      - assert (Hi8 : i < 8) by lia.
        assert (Hrest : forall d cf, At d u (sl_next g policy u r frame (i + 1) 0 k) cf ->
                  Reach cf (RPost (Nat.max d 1) k u0 (lift (steal_any_loop g policy u class index tree free (i + 1) n) sl_tail)))
          by (intros d' cf' H; apply IH; [lia | exact H]).
        assert (Hskip : sl_slots policy u class free i = 0%nat ->
                  Reach cf (RPost (Nat.max d 1) k u0 (lift (steal_any_loop g policy u class index tree free (i + 1) n) sl_tail))).
        { intros E. rewrite sl_next_skip in HA by (try exact Hi8; rewrite E; lia). apply Hrest. exact HA. }
        cbn [steal_any_loop]. unfold sl_slots in Hskip.
        destruct (class_slots u ((i + class) mod 8)) as [l|] eqn:Hl; [|apply Hskip; reflexivity].
        pose proof (fun E => steal_slots_sim u i l k _ HK Hi8 Hl E Hrest (length l) 0 d cf ltac:(unfold nn; lia) HA) as Htry.
        unfold sl_slots in Htry. rewrite Hl in Htry.
        destruct (policy class ((i + class) mod 8) free); try (apply Hskip; reflexivity); specialize (Htry eq_refl);
          (destruct (steal_slots g u ((i + class) mod 8) index (N.of_nat (length l)) tree free 0 (length l)) as [[[row|rv| |s0] u']|];
           exact Htry).
    Qed.

    Lemma steal_local_sim u k d cf : Keeps u0 u -> At d u (enter_steal_local g policy u r frame k) cf ->
      Reach cf (RPost (Nat.max d 1) k u0 (steal_local g policy u r frame)).
    Proof.
      intros HK HA. unfold enter_steal_local in HA.
      exact (steal_any_sim u k HK 8 0 d cf eq_refl HA).
    Qed.

    (* demote_local *)
    Lemma dl_next_end u i j k : 8 <= i -> dl_next g policy u r frame i j k = ARet (VR (Err EMemory)) k.
    Proof. intros H. unfold dl_next. rewrite demote_scan_gscan, gscan_end by exact H. reflexivity. Qed.
    Lemma dl_next_skip u i j k : i < 8 -> (dl_slots policy u class free i <= nn j)%nat ->
      dl_next g policy u r frame i j k = dl_next g policy u r frame (i + 1) 0 k.
    Proof.
      intros Hi Hj. unfold dl_next. rewrite !demote_scan_gscan, gscan_skip_fuel by (assumption || lia). reflexivity.
    Qed.
    Lemma dl_next_hit u i j k l : i < 8 -> class_slots u ((i + class) mod 8) = Some l ->
      (nn j < dl_slots policy u class free i)%nat ->
      dl_next g policy u r frame i j k =
        ADo (PSL ((i + class) mod 8) ((index + j) mod N.of_nat (length l)) (SGetNone tree free)) (KDL1 r frame i j :: k).
    Proof.
      intros Hi Hl Hj. unfold dl_next. rewrite demote_scan_gscan, gscan_hit by assumption.
      unfold class_locals. rewrite Hl. reflexivity.
    Qed.

    Definition dl_tail (o : option (N * option reservation)) (u1 : upper) : res (N * N) * upper :=
      match o with
      | None => (Err EMemory, u1)
      | Some (row, old) =>
          lift (match old with
                | Some rv => trees_unreserve g policy u1 (row_tree g (rv_row rv)) (rv_free rv) (rv_class rv)
                | None => (Ok tt, u1)
                end) (fun _ u2 => low_tail class row u2)
      end.

    (* trees.unreserve(old reservation), then Lower::get (frame KDL3) *)
    Lemma dl_unres_sim u i fr cl row k d cf : Keeps u0 u -> row_tree g row < ntrees u ->
      At d u (enter_tu u i (FUnres fr cl) (KDL3 r frame row :: k)) cf ->
      Reach cf (RPost 1 k u0 (lift (trees_unreserve g policy u i fr cl) (fun _ u2 => low_tail class row u2))).
    Proof.
      intros HK Hrow HA. pose proof (trees_unreserve_keeps u0 u i fr cl HK) as HK2.
      eapply Reach_bind; [exact (tunres_sim g policy u i fr cl (KDL3 r frame row) k d cf (fun _ _ => eq_refl) HA)|].
      intros c1 Q.
      destruct (trees_unreserve g policy u i fr cl) as [[y|e|x] u2]; cbn [lift snd] in *; [|destruct Q|apply Reach_here; exact Q].
      destruct Q as (t & t' & -> & Q). cbn [resume] in Q.
      apply (low_tail_sim (KDL4 r row) class _ row k 1%nat c1 (fun _ _ => eq_refl) HK2); [|exact Q].
      rewrite ntrees_set_tree. exact Hrow.
    Qed.

    (* the slots j.. of class index i *)
    Lemma demote_slots_sim u i l k rest : Keeps u0 u -> i < 8 -> class_slots u ((i + class) mod 8) = Some l ->
      dl_slots policy u class free i = length l ->
      (forall d cf, At d u (dl_next g policy u r frame (i + 1) 0 k) cf ->
         Reach cf (RPost (Nat.max d 1) k u0 rest)) ->
      forall m j d cf, length l = (nn j + m)%nat -> At d u (dl_next g policy u r frame i j k) cf ->
        Reach cf (RPost (Nat.max d 1) k u0
          match demote_slots g u class ((i + class) mod 8) (r_local r) (N.of_nat (length l)) tree free j m with
          | Some (Ok x, u') => dl_tail (Some x) u'
          | Some (Panic s, u') => (Panic s, u')
          | Some (Err e, u') => (Err e, u')
          | None => rest
          end).
    Proof.
      intros HK Hi Hl Hsl Hout. induction m as [|m IH]; intros j d cf Hlen HA.
      - cbn [demote_slots]. rewrite dl_next_skip in HA by lia. apply Hout. exact HA.
      - assert (Hlen1 : length l = (nn (j + 1) + m)%nat) by (unfold nn in *; lia).
        rewrite (dl_next_hit u i j k l Hi Hl) in HA by lia. cbn [demote_slots]. rewrite Hl.
        pose proof (scan_idx_lt l j m Hlen) as Hidx. set (idx := (index + j) mod N.of_nat (length l)) in *.
        destruct (nth_error l (nn idx)) as [old|] eqn:En; [|apply nth_error_None in En; lia].
        assert (Hs : slot_at u ((i + class) mod 8) idx = Some old) by (unfold slot_at; rewrite Hl; exact En).
        eapply Reach_bind; [exact (su_sim g policy _ _ _ _ _ _ _ _ Hs HA)|]. clear HA. intros c1 Q.
        unfold su_post in Q. cbn [sf_apply] in Q.
        destruct (slot_get g old tree free) as [new|] eqn:Esg; cbn [option_map] in Q; ret_step Q.
        2: { eapply Delivers_mono; [|exact (IH (j + 1) 1%nat c1 Hlen1 Q)]. apply Nat.le_max_r. }
        (* the reservation is taken *)
        rewrite Esg in Q. apply (Delivers_mono _ _ _ 1); [lia|].
        destruct (UpperGetProofs.slot_get_inv g _ _ _ _ Esg) as (Hp & _ & _ & Enew).
        set (u1 := set_slot u ((i + class) mod 8) idx slot_none) in *.
        assert (HK1 : Keeps u0 u1) by (apply Keeps_set_slot; [exact HK | intros H; discriminate H]).
        assert (Hrow : row_tree g (s_row new) < ntrees u1).
        { unfold u1. rewrite ntrees_set_slot, Enew. exact (Keeps_slot u0 u _ _ _ HK Hs Hp). }
        destruct (r_local r) as [lc|] eqn:Elc.
        2: { cbn [dl_tail slot_resv rv_row rv_free rv_class]. exact (dl_unres_sim u1 _ _ _ (s_row new) k 1%nat _ HK1 Hrow Q). }
        unfold class_locals in Q.
        destruct (class_slots u1 class) as [ml|] eqn:Eml; cbn [option_map] in Q; [|apply Reach_here; apply At_panic in Q; exact Q].
        rewrite ltb_nth in Q.
        destruct (nth_error ml (nn lc)) as [o2|] eqn:Eo2; [|apply Reach_here; apply At_panic in Q; exact Q].
        use_sw Q Q2. unfold slot_at in Q2. rewrite Eml, Eo2 in Q2. ret_step Q2.
        set (u2 := set_slot u1 class lc new) in *.
        assert (HK2 : Keeps u0 u2) by (apply Keeps_set_slot; [exact HK1 | intros _; exact Hrow]).
        assert (Hrow2 : row_tree g (s_row new) < ntrees u2) by (unfold u2; rewrite ntrees_set_slot; exact Hrow).
        cbn [dl_tail]. destruct (s_pres o2); cbn [slot_resv rv_row rv_free rv_class].
        + exact (dl_unres_sim u2 _ _ _ (s_row new) k 1%nat _ HK2 Hrow2 Q2).
        + cbn [lift]. exact (low_tail_sim (KDL4 r (s_row new)) class u2 (s_row new) k 1%nat _ (fun _ _ => eq_refl) HK2 Hrow2 Q2).
    Qed.

    Lemma demote_any_sim u k : Keeps u0 u -> forall n i d cf, i + N.of_nat n = 8 -> At d u (dl_next g policy u r frame i 0 k) cf ->
      Reach cf (RPost (Nat.max d 1) k u0 (lift (demote_any_loop g policy u class (r_local r) tree free i n) dl_tail)).
    Proof.
      intros HK. induction n as [|n IH]; intros i d cf Hi HA.
      - rewrite dl_next_end in HA by lia. apply Reach_here. split; [eapply At_mono; [exact HA | lia] | exact HK].
      - assert (Hi8 : i < 8) by lia.
        assert (Hrest : forall d cf, At d u (dl_next g policy u r frame (i + 1) 0 k) cf ->
                  Reach cf (RPost (Nat.max d 1) k u0 (lift (demote_any_loop g policy u class (r_local r) tree free (i + 1) n) dl_tail)))
          by (intros d' cf' H; apply IH; [lia | exact H]).
        assert (Hskip : dl_slots policy u class free i = 0%nat ->
                  Reach cf (RPost (Nat.max d 1) k u0 (lift (demote_any_loop g policy u class (r_local r) tree free (i + 1) n) dl_tail))).
        { intros E. rewrite dl_next_skip in HA by (try exact Hi8; rewrite E; lia). apply Hrest. exact HA. }
        cbn [demote_any_loop]. unfold dl_slots in Hskip.
        destruct (class_slots u ((i + class) mod 8)) as [l|] eqn:Hl; [|apply Hskip; reflexivity].
        pose proof (fun E => demote_slots_sim u i l k _ HK Hi8 Hl E Hrest (length l) 0 d cf ltac:(unfold nn; lia) HA) as Htry.
        unfold dl_slots in Htry. rewrite Hl in Htry.
        destruct (policy class ((i + class) mod 8) free); try (apply Hskip; reflexivity); specialize (Htry eq_refl).
        destruct (demote_slots g u class ((i + class) mod 8) (r_local r) (N.of_nat (length l)) tree free 0 (length l)) as [[[x|e|s0] u']|];
          exact Htry.
    Qed.

    Lemma demote_local_sim u k d cf : Keeps u0 u -> At d u (enter_demote_local g policy u r frame k) cf ->
      Reach cf (RPost (Nat.max d 1) k u0 (demote_local g policy u r frame)).
    Proof.
      intros HK HA. unfold enter_demote_local in HA. unfold demote_local, locals_demote_any.
      destruct (class_slots u class).
      - exact (demote_any_sim u k HK 7 1 d cf eq_refl HA).
      - apply Reach_here. split; [eapply At_mono; [exact HA | lia] | exact HK].
    Qed.
  End LocalScans.

  (* the fallback after the tree search: steal_local, then demote_local (frames KGet2, KOom1) *)
  Definition oom_of (r : request) (frame : option N) (x : res (N * N) * upper) : res (N * N) * upper :=
    or_else x (fun u1 => or_else (steal_local g policy u1 r frame) (fun u2 => demote_local g policy u2 r frame)).

  Lemma get2_sim u0 r frame k x d cf : Nat.leb (r_order r) (tord g) = true -> blk_ok u0 frame (r_order r) -> (d + 3 < SETTLE)%nat ->
    RPost d (KGet2 r frame :: k) u0 x cf -> Reach cf (RPost (d + 3) k u0 (oom_of r frame x)).
  Proof.
    intros Ho Hf Hd HP.
    apply (retry_sim g policy (fun y => y) (KGet2 r frame) k
             (fun u1 => enter_steal_local g policy u1 r frame (KOom1 r frame :: k)) _ (Keeps u0) d (d + 3) x cf);
      [reflexivity | lia | unfold SETTLE in *; lia | | exact HP].
    intros u1 c1 HK1 Q1.
    eapply Reach_bind; [exact (steal_local_sim u0 r frame Ho Hf u1 _ (S d) c1 HK1 Q1)|]. intros c2 Q2.
    apply (retry_sim g policy (fun y => y) (KOom1 r frame) k (fun u2 => enter_demote_local g policy u2 r frame k) _
             (Keeps u0) (Nat.max (S d) 1) (d + 3) _ c2); [reflexivity | lia | unfold SETTLE in *; lia | | exact Q2].
    intros u2 c3 HK2 Q3. eapply Delivers_mono; [|exact (demote_local_sim u0 r frame Ho Hf u2 k (S (Nat.max (S d) 1)) c3 HK2 Q3)]. lia.
  Qed.

  Lemma res_match_id (x : res (N * N) * upper) :
    match x with (Err EMemory, u3) => (Err EMemory, u3) | other => other end = x.
  Proof. destruct x as [[y|[| |]|s] u]; reflexivity. Qed.

  Lemma get2_final u0 r frame x d cf : Nat.leb (r_order r) (tord g) = true -> blk_ok u0 frame (r_order r) -> (d + 3 < SETTLE)%nat ->
    RPost d [KGet2 r frame] u0 x cf -> Reach cf (Final (oom_of r frame x)).
  Proof.
    intros Ho Hf Hd HP. eapply Reach_weaken; [apply (get2_sim u0 r frame [] x d cf Ho Hf Hd HP)|].
    intros c'. apply Delivers_final.
  Qed.

  (* llfree_get ends its fallback chain with a match that changes nothing *)
  Lemma or_else_ext {A} (x : res A * upper) f f' : (forall u, f u = f' u) -> or_else x f = or_else x f'.
  Proof. intros H. destruct x as [[y|[| |]|s] u]; cbn [or_else]; [reflexivity | apply H | reflexivity..]. Qed.
  Lemma or_else_id {A} (x : res A * upper) : or_else x (fun u => (Err EMemory, u)) = x.
  Proof. destruct x as [[y|[| |]|s] u]; reflexivity. Qed.
  Lemma get2_final_none u0 r x d cf : Nat.leb (r_order r) (tord g) = true -> (d + 3 < SETTLE)%nat ->
    RPost d [KGet2 r None] u0 x cf ->
    Reach cf (Final (or_else x (fun u1 => or_else (steal_local g policy u1 r None)
                                  (fun u2 => or_else (demote_local g policy u2 r None) (fun u3 => (Err EMemory, u3)))))).
  Proof.
    intros Ho Hd HP.
    rewrite (or_else_ext x _ (fun u1 => or_else (steal_local g policy u1 r None) (fun u2 => demote_local g policy u2 r None)))
      by (intros u1; apply or_else_ext; intros u2; apply or_else_id).
    exact (get2_final u0 r None x d cf Ho I Hd HP).
  Qed.

  (* get_at *)
  Lemma get_at_sim u f r cf : SInv u -> Nat.leb (r_order r) (tord g) = true -> blk_ok u (Some f) (r_order r) ->
    At 0 u (enter_get_at g u f r []) cf -> Reach cf (Final (get_at g policy u f r)).
  Proof.
    intros HI Ho Hf HA. pose proof (Keeps_refl u HI) as HK. unfold enter_get_at in HA. unfold get_at.
    assert (Hafter : forall u1 d cf, Keeps u u1 -> At d u1 (after_local g u1 f r []) cf ->
              Reach cf (Final (oom_of r (Some f) (steal_global g policy u1 (f / TF) (r_class r) (r_order r) (Some f))))).
    { intros u1 d cf' HK1 H. unfold after_local in H.
      eapply Reach_bind; [exact (steal_global_sim u u1 _ _ _ (Some f) _ _ _ HK1 Ho Hf H)|]. intros c1 Q1.
      exact (get2_final u r (Some f) _ 1%nat c1 Ho Hf ltac:(unfold SETTLE; lia) Q1). }
    destruct (r_local r) as [local|]; [|exact (Hafter u 0%nat cf HK HA)].
    eapply Reach_bind; [exact (get_local_sim u (r_order r) (r_class r) local (Some f) Ho Hf u _ 0%nat cf HK HA)|].
    intros c1 Q1.
    destruct (get_local g policy 2 u (r_order r) (r_class r) local (Some f) true) as [[f' c2|e t|s] u1];
      cbn [of_glr fst snd out_g UpperSoloLemmas.Lands] in *; [| |apply Reach_here; exact Q1];
      destruct Q1 as [Q1 HK1]; ret_step Q1.
    - apply Reach_here. apply At_done in Q1. exact Q1.
    - destruct e; try (apply Reach_here; apply At_done in Q1; exact Q1).
      exact (Hafter u1 2%nat c1 HK1 Q1).
  Qed.

  (* get *)
  Lemma get_none_sim u r cf : SInv u -> Nat.leb (r_order r) (tord g) = true ->
    At 0 u (enter_get g u None r []) cf -> check g u 0 r = Ok tt ->
    Reach cf (Final (llfree_get g policy u None r)).
  Proof.
    intros HI Ho HA Hck. pose proof (Keeps_refl u HI) as HK.
    unfold enter_get in HA. unfold llfree_get. rewrite Hck in *. cbv zeta.
    assert (Hf : blk_ok u None (r_order r)) by exact I.
    assert (Hglob : forall cf, At 0 u (enter_global u r []) cf ->
              Reach cf (Final (or_else (search_best g (fun u i => steal_global g policy u i (r_class r) (r_order r) None)
                                          (rate_req policy (r_class r) (pow2 (r_order r))) 8 u (get_start0 u r) 0 (ntrees u))
                                 (fun u1 => or_else (steal_local g policy u1 r None)
                                    (fun u2 => or_else (demote_local g policy u2 r None) (fun u3 => (Err EMemory, u3))))))).
    { intros cf' H. unfold enter_global in H.
      assert (Hacc : forall u1 i k d cf, Keeps u u1 ->           At d u1 (enter_access u1 (AcSteal (r_class r) (r_order r)) i k) cf ->
                Reach cf (RPost 1 k u (steal_global g policy u1 i (r_class r) (r_order r) None))).
      { intros u1 i k d cf2 HK1 H2. apply (steal_global_sim u u1 i _ _ None k d cf2 HK1 Ho Hf H2). }
      eapply Reach_bind; [exact (search_best_sim _ _ (rate_req policy (r_class r) (pow2 (r_order r))) (RReq (r_class r) (pow2 (r_order r))) u Hacc (fun _ _ => eq_refl)
                                     8 u (get_start0 u r) 0 (ntrees u) _ 0%nat cf' HK H)|].
      intros c1 Q1. exact (get2_final_none u r _ 2%nat c1 Ho ltac:(unfold SETTLE; lia) Q1). }
    change ((if match class_locals u (r_class r) with Some n => n | None => 0 end =? 0 then 0
             else ntrees u / match class_locals u (r_class r) with Some n => n | None => 0 end) *
            match r_local r with Some i => i | None => 0 end) with (get_start0 u r).
    destruct (r_local r) as [local|] eqn:Elc; [|apply Hglob; exact HA].
    destruct ((0 <? match class_locals u (r_class r) with Some n => n | None => 0 end) &&
              (match class_locals u (r_class r) with Some n => n | None => 0 end <? ntrees u)); [|apply Hglob; exact HA].
    eapply Reach_bind; [exact (get_local_sim u (r_order r) (r_class r) local None Ho Hf u _ 0%nat cf HK HA)|].
    intros c1 Q1.
    destruct (get_local g policy 2 u (r_order r) (r_class r) local None true) as [[f' c2|e t|s] u1];
      cbn [fst snd out_g UpperSoloLemmas.Lands] in *; [| |apply Reach_here; exact Q1];
      destruct Q1 as [Q1 HK1]; ret_step Q1.
    - apply Reach_here. apply At_done in Q1. exact Q1.
    - destruct e; try (apply Reach_here; apply At_done in Q1; exact Q1).
      rewrite Elc in Q1.
      eapply Reach_bind; [exact (sar_sim u u1 _ _ _ _ _ 2%nat c1 HK1 Ho ltac:(unfold SETTLE; lia) Q1)|]. intros c2 Q2.
      exact (get2_final_none u r _ (Nat.max 2 2 + 1)%nat c2 Ho ltac:(unfold SETTLE; lia) Q2).
  Qed.

  Lemma get_sim u frame r cf : SInv u -> At 0 u (enter_get g u frame r []) cf ->
    Reach cf (Final (llfree_get g policy u frame r)).
  Proof.
    intros HI HA. destruct (check g u (match frame with Some f => f | None => 0 end) r) as [[]|e|s] eqn:Ec.
    3: { exfalso. eapply UpperProgress.check_no_panic; exact Ec. }
    2: { unfold enter_get in HA. unfold llfree_get. rewrite Ec in *. apply Reach_here. apply At_done in HA. exact HA. }
    destruct (check_ok g _ _ _ _ Ec) as (Ho & Hr & Ha & Hc).
    destruct frame as [f|].
    - unfold enter_get in HA. unfold llfree_get. rewrite Ec in *.
      exact (get_at_sim u f r cf HI Ho (conj Ha Hr) HA).
    - exact (get_none_sim u r cf HI Ho HA Ec).
  Qed.

  Theorem usolo_get u P H t last frame r : SInv u -> nth_error P t = Some (UIdle last) ->
    exists fuel, solo_result g policy u P H t (UGet frame r)
                   (usolo_fuel g policy fuel {| m2_up := u; m2_pool := P; m2_held := H |} t (UGet frame r)).
  Proof.
    intros HI Hth. eapply (usolo_of_sim g policy); [exact Hth | reflexivity |].
    intros cf HA. cbn [enter_call] in HA. exact (get_sim u frame r cf HI HA).
  Qed.

  (* every call kind under the one invariant *)
  Lemma SInv_Shape u : SInv u -> Shape g (low u).
  Proof. intros (H & _). apply LowerInv_Shape. exact H. Qed.
  Lemma SInv_TreesFit u : SInv u -> TreesFit g u.
  Proof.
    intros ((_ & H2 & _) & HN & _). unfold TreesFit. rewrite HN, H2. unfold nn. lia.
  Qed.

  (* MAIN: thread t idle, any call c (a put needs its block in the ghost): the solo run ends with thread t idle
     holding the result r of `ubig`, memory u' of `ubig`, the other threads untouched, the ghost as `ufinish` leaves
     it; or, if the model panics at site x, with thread t in `UPanic x c` *)
  Theorem usolo_call u P H H' t last c : SInv u -> nth_error P t = Some (UIdle last) -> take_held c H H' ->
    exists fuel, solo_result g policy u P H' t c
                   (usolo_fuel g policy fuel {| m2_up := u; m2_pool := P; m2_held := H |} t c).
  Proof.
    intros HI Hth Hh. destruct c as [frame r|frame r| |m ch]; cbn [take_held] in Hh; try subst H'.
    - apply (usolo_get u P H t last frame r HI Hth).
    - apply (usolo_put g policy WF u P H H' t last frame r (SInv_Shape u HI) Hth Hh).
    - apply (usolo_drain g policy u P H t last Hth).
    - apply (usolo_change g policy WF u P H t last m ch (SInv_TreesFit u HI) Hth).
  Qed.

  Corollary usolo_call_state s t last c H' : SInv (m2_up s) -> nth_error (m2_pool s) t = Some (UIdle last) ->
    take_held c (m2_held s) H' ->
    exists fuel, solo_result g policy (m2_up s) (m2_pool s) H' t c (usolo_fuel g policy fuel s t c).
  Proof. destruct s as [u P H]. cbn [m2_up m2_pool m2_held]. apply usolo_call. Qed.

  (* the invariant of the sequential proofs implies SInv *)
  Lemma UpperInv_SInv x : UpperInv g policy x -> SInv (us x).
  Proof.
    intros (H1 & H2 & _ & H4 & _ & _ & H7). split; [exact H1|]. split.
    - unfold ntrees. rewrite H2. unfold nn. lia.
    - intros c idx s Hs Hp. destruct (H7 c s) as (Hr & _); [|exact Hr].
      apply (slot_at_present (us x) c idx s H4); [exact Hs | exact Hp].
  Qed.

  (* the one-thread form of UpperMachine.v (`usolo`, thread 0) *)
  Lemma usolo_usolo_fuel c n : forall s,
    usolo g policy n s c =
      match nth_error (m2_pool s) 0 with Some (URun _ _ _) => usolo_fuel g policy n s 0 c | _ => s end.
  Proof.
    induction n as [|n IH]; intros s.
    - cbn [usolo usolo_fuel]. destruct (nth_error (m2_pool s) 0) as [[| |]|]; reflexivity.
    - cbn [usolo usolo_fuel]. destruct (nth_error (m2_pool s) 0) as [[| |]|]; try reflexivity. apply IH.
  Qed.

  Theorem usolo_one_thread u c H' : SInv u -> take_held c (solo_held c) H' ->
    exists fuel, let s := usolo g policy fuel (fst (ustep g policy (uboot u (solo_held c) 1) 0 c)) c in
      match ubig g policy u c with
      | (Panic x, _) => nth_error (m2_pool s) 0 = Some (UPanic x c)
      | (r, u') => nth_error (m2_pool s) 0 = Some (UIdle (Some r)) /\ m2_up s = u'
      end.
  Proof.
    intros HI Hh.
    destruct (usolo_call u [UIdle None] (solo_held c) H' 0 None c HI eq_refl Hh) as (fuel & HR).
    destruct fuel as [|n].
    { exfalso. cbn [usolo_fuel] in HR. unfold solo_result in HR.
      destruct (ubig g policy u c) as [[y|e|x] u'].
      - pose proof (f_equal (fun s => nth_error (m2_pool s) 0) HR) as E. cbn [m2_pool nth_error] in E.
        unfold ufinish in E. destruct c; try destruct y; cbn in E; discriminate E.
      - pose proof (f_equal (fun s => nth_error (m2_pool s) 0) HR) as E. cbn [m2_pool nth_error] in E.
        unfold ufinish in E. destruct c; cbn in E; discriminate E.
      - cbn [m2_pool upd] in HR. discriminate HR. }
    exists n. cbv zeta. rewrite usolo_usolo_fuel.
    cbn [usolo_fuel] in HR. unfold uboot in *. cbn [repeat] in *.
    set (s1 := fst (ustep g policy {| m2_up := u; m2_pool := [UIdle None]; m2_held := solo_held c |} 0 c)) in *.
    assert (E : match nth_error (m2_pool s1) 0 with Some (URun _ _ _) => usolo_fuel g policy n s1 0 c | _ => s1 end =
                match nth_error (m2_pool s1) 0 with Some (URun _ _ _) => usolo_fuel g policy n s1 0 c | _ => s1 end) by reflexivity.
    unfold solo_result in HR.
    destruct (ubig g policy u c) as [[y|e|x] u'].
    - rewrite HR. unfold ufinish. destruct c; try destruct y; cbn; split; reflexivity.
    - rewrite HR. unfold ufinish. destruct c; cbn; split; reflexivity.
    - rewrite HR. reflexivity.
  Qed.
End GetCalls.
