(* C21: every call of the lower allocator finishes in a bounded number of steps once it runs alone.
   Machine: LowerMachine.v (M1).  `solo g n s t` = n steps of thread t only.
   Proof: a measure `mu` on (memory, call, pc) with values in N such that EVERY step of a running thread,
   in every state (no invariant), settles the thread or strictly decreases `mu` (`step_dec`): loop
   indices count down with truncated subtraction, a CAS-retry pc carries one extra unit while its cached
   value differs from memory (a failed CAS replaces it by the value just observed).
   `mu <= boundN g` for program points whose rollback/fill indices are in range (`pc_ok`); `pc_ok` holds
   for every thread in every state reachable from `boot` under every schedule (`all_ok_run`).  It cannot
   be dropped (`pc_ok_needed`): in an arbitrary state a rollback index may be as large as the memory.
   Also: CAS-retry loops are left after <= 2 solo steps; the only panic that depends on another thread's
   progress is the bounded spin of partial_put_huge (PP3, finding D13) with a concrete witness. *)
From Coq Require Import PeanoNat ZifyBool.
From LLF Require Import Base BitLemmas Row RowProofs Bitfield Lower Spec AbsLemmas LowerMachine ConcBase ConcInvStep.

(* n steps of thread t only.  The call passed to `mstep` matters only at an idle thread, so `CGet 0 0` is a dummy while
   the thread runs; once settled the thread would start that call at the next step, which is why the theorems speak of
   some n within the bound at which the thread is settled, not of all larger n.  (SoloRunLemmas.solo_fuel is the variant
   that stops there.) *)
Definition solo (g : geom) (n : nat) (s : mstate) (t : nat) : mstate :=
  Nat.iter n (fun s => fst (mstep g s t (CGet 0 0))) s.

Definition settled (s : mstate) (t : nat) : bool :=
  match nth_error (ms_pool s) t with Some (TRun _ _) => false | _ => true end.

Definition bound (g : geom) : nat :=
  (thuge_nat g * (5 * rows_nat g + 7) + 4 * rows_nat g + 15)%nat.

Lemma iter_S_r {A} (f : A -> A) n x : Nat.iter (S n) f x = Nat.iter n f (f x).
Proof. induction n; [reflexivity|]. change (f (Nat.iter (S n) f x) = f (Nat.iter n f (f x))). rewrite IHn. reflexivity. Qed.

(* remaining iterations after index b of a loop `for b in 0..a` (0 when b is out of range) *)
Definition rem (a b : N) : N := a - (b + 1).

Lemma rem_succ a b : b + 1 < a -> rem a b = rem a (b + 1) + 1.
Proof. unfold rem. lia. Qed.

Lemma rem_step a b w : b + 1 < a -> rem a b * w = rem a (b + 1) * w + w.
Proof.
  intros H. unfold rem. replace (a - (b + 1)) with (a - (b + 1 + 1) + 1) by lia.
  rewrite N.mul_add_distr_r. lia.
Qed.

Lemma rem_top a b w : 1 <= a -> rem a b * w + w <= a * w.
Proof.
  intros H. assert (E : (rem a b + 1) * w <= a * w) by (apply N.mul_le_mono_r; unfold rem; lia).
  rewrite N.mul_add_distr_r in E. lia.
Qed.

Lemma weighted_le a k o T M : a + 1 <= T -> k <= M -> o <= M -> a * k + o <= T * M.
Proof.
  intros Ha Hk Ho.
  assert (a * k <= a * M) by (apply N.mul_le_mono_l; exact Hk).
  assert ((a + 1) * M <= T * M) by (apply N.mul_le_mono_r; exact Ha).
  rewrite N.mul_add_distr_r in H0. lia.
Qed.

Lemma pool_crash s s1 t c x : ms_pool s1 = ms_pool s ->
  ms_pool (crash s1 t c x) = upd (ms_pool s) t (TPanic x c).
Proof. intros Hp. unfold crash, set_thr. cbn [ms_pool]. rewrite Hp. reflexivity. Qed.
Lemma pool_finish s s1 t c r : ms_pool s1 = ms_pool s ->
  ms_pool (finish s1 t c r) = upd (ms_pool s) t (TIdle (Some r)).
Proof. intros Hp. unfold finish. destruct c, r; cbn [set_held set_thr ms_pool]; rewrite Hp; reflexivity. Qed.
Lemma pool_goto s s1 t c p' : ms_pool s1 = ms_pool s ->
  ms_pool (goto s1 t c p') = upd (ms_pool s) t (TRun c p').
Proof. intros Hp. unfold goto, set_thr. cbn [ms_pool]. rewrite Hp. reflexivity. Qed.

(* the other threads' entries are untouched *)
Definition frame (s : mstate) (t : nat) (s' : mstate) : Prop :=
  forall t', t' <> t -> nth_error (ms_pool s') t' = nth_error (ms_pool s) t'.
Lemma frame_upd s t s' x : ms_pool s' = upd (ms_pool s) t x -> frame s t s'.
Proof. intros E t' Hne. rewrite E. apply nth_error_upd_other. congruence. Qed.
Lemma frame_refl s t : frame s t s.
Proof. intros t' _. reflexivity. Qed.

(* `ms_pool s1 = ms_pool s` where s1 is s or s after one memory write *)
Ltac pool := first [reflexivity | apply pool_wr_row].

(* rewrite with the outcomes of the reads and tests that `split_ifs` has put into the context *)
Ltac use_eqs :=
  repeat match goal with
  | H : rd_ent _ _ = Some _ |- _ => rewrite H
  | H : rd_row _ _ _ = Some _ |- _ => rewrite H
  | H : (_ =? _) = _ |- _ => rewrite H
  | H : Nat.leb _ _ = _ |- _ => rewrite H
  end.

(* case analysis of a goal `P (fst (mstep ..))` along the branches of the step function *)
Ltac split_ifs :=
  repeat match goal with
  | |- _ (fst (_, _)) => cbn [fst]
  | |- _ (fst (match ?x with _ => _ end)) => destruct x eqn:?
  | |- _ (fst (if ?x then _ else _)) => destruct x eqn:?
  | |- _ (match ?x with _ => _ end) => destruct x eqn:?
  | |- _ (if ?x then _ else _) => destruct x eqn:?
  | |- _ (goto _ _ _ (if ?x then _ else _)) => destruct x eqn:?
  end.
Ltac branches :=
  split_ifs; unfold next_child, next_row, next_chunk, next_group, toggle_ok, toggle_fail, toggle_entry;
  split_ifs.

Section Progress.
  Variable g : geom.
  Notation TH := (THUGE g).
  Notation RW := (ROWS g).

  (* 1 if the value cached in a CAS-retry pc differs from memory, else 0 *)
  Definition stale_ent (s : mstate) (h v : N) : N :=
    match rd_ent s h with Some cur => if cur =? v then 0 else 1 | None => 0 end.
  Definition stale_row (s : mstate) (h r e : N) : N :=
    match rd_row s h r with Some cur => if cur =? e then 0 else 1 | None => 0 end.

  Definition stale (s : mstate) (c : call) (p : pc) : N :=
    match p with
    | G1C j v | G3C j v => stale_ent s (child_h g c j) v
    | G2C j i e => stale_row s (child_h g c j) ((i + c_start c mod RW) mod RW) e
    | A1C v | A3C v | PS2C v => stale_ent s (c_huge g c) v
    | TC x e => stale_row s (c_huge g c) (t_row g x c) e
    | _ => 0
    end.

  (* the state-independent part of the measure *)
  (* toggle in context x: tB = what may follow the toggle, tE = bound of its entry point *)
  Definition tEput (c : call) : N := 6 + 2 * t_nrows g XPut c.
  Definition tB (x : tctx) (c : call) : N :=
    match x with XSplit _ => tEput c + 1 + RETRIES | _ => 3 end.
  Definition tE (x : tctx) (c : call) : N := tB x c + 3 + 2 * t_nrows g x c.

  (* get, order < hord: offsets inside one child *)
  Definition CW (c : call) : N := 3 * c_nr c + 2.                               (* one chunk *)
  Definition oG2C (i : N) : N := 4 + 3 * rem RW i.
  Definition oG2L (i : N) : N := 4 + 3 * rem RW i + 2.
  Definition oG2U (c : call) (ch q : N) : N := 4 + rem (c_chunks g c) ch * CW c + 1 + q.
  Definition oG2W (c : call) (ch q : N) : N := 4 + rem (c_chunks g c) ch * CW c + 1 + q + 2 * (c_nr c - q).
  Definition oG2R (c : call) (ch q : N) : N :=
    4 + rem (c_chunks g c) ch * CW c + 2 + 2 * c_nr c + (c_nr c - q).
  Definition M2 (c : call) : N := if Nat.leb (c_order c) 6 then oG2L 0 else oG2R c 0 0.
  Definition KW (c : call) : N := M2 c + 3.                                     (* one child *)

  Definition GW (c : call) : N := 2 * c_hnum g c + 1.                           (* one cas_all group *)

  (* `base c p` exceeds by at least one the base of every pc a step from p can go to (when the step is not a CAS that
     failed on a stale value): loop indices count down through `rem`; a forward multi-CAS index q is charged 2 for
     each cell not yet written (it may be written and then undone), an undo index q is charged q + 1.  E.g., with
     W = rem (group_cnt g c) gi * GW c and n = c_hnum g c:  HC gi q -> HC gi (q+1) goes from W + 1 + q + 2 (n - q) to
     W + 1 + (q+1) + 2 (n - q - 1), one less;  HC gi q -> HU gi (q-1) goes to W + 1 + (q-1);  HU gi 0 -> HC (gi+1) 0
     goes from W + 1 to W - GW c + 1 + 2 n = W, which is why a group weighs GW c = 2 n + 1.
     A CAS that fails stays at its pc with the observed value cached: base is the same, `stale` drops from 1 to 0. *)
  Definition base (c : call) (p : pc) : N :=
    match p with
    | G1L j => rem TH j * KW c + KW c
    | G1C j _ => rem TH j * KW c + M2 c + 1
    | G2L j i => rem TH j * KW c + oG2L i
    | G2C j i _ => rem TH j * KW c + oG2C i
    | G2R j ch q => rem TH j * KW c + oG2R c ch q
    | G2W j ch q => rem TH j * KW c + oG2W c ch q
    | G2U j ch q => rem TH j * KW c + oG2U c ch q
    | G3L j => rem TH j * KW c + 3
    | G3C j _ => rem TH j * KW c + 1
    | HC gi q => rem (group_cnt g c) gi * GW c + 1 + q + 2 * (c_hnum g c - q)
    | HU gi q => rem (group_cnt g c) gi * GW c + 1 + q
    | A1L => tE XGetAt c + 3
    | A1C _ => tE XGetAt c + 1
    | A3L => 3
    | A3C _ => 1
    | TL x => tB x c + 3
    | TC x _ => tB x c + 1
    | TN x => tB x c + 1
    | TW x q => tB x c + 1 + q + 2 * (t_nrows g x c - q)
    | TU x q => tB x c + 1 + q
    | P1 => tE (XSplit 0) c + 1
    | PP2 _ => tEput c + 1
    | PP3 i => tEput c + 1 + (RETRIES - i)
    | PS2L => 3
    | PS2C _ => 1
    end.

  Definition mu (s : mstate) (c : call) (p : pc) : N := base c p + stale s c p.

  (* program points whose loop indices are in range *)
  Definition small (c : call) : bool := Nat.ltb (c_order c) (hord g).
  Definition pc_ok (c : call) (p : pc) : bool :=
    match p with
    | HC _ q | HU _ q =>
        Nat.leb (hord g) (c_order c) && Nat.leb (c_order c) (tord g) && (q <? c_hnum g c)
    | G2W _ _ q | G2U _ _ q => small c && (q <? c_nr c)
    | TW x q | TU x q => small c && (q <? t_nrows g x c)
    | _ => small c
    end.

  Definition thread_ok (s : mstate) (t : nat) : Prop :=
    match nth_error (ms_pool s) t with Some (TRun c p) => pc_ok c p = true | _ => True end.

  (* constructor and loop indices of a CAS program point of a `try_update` loop *)
  Definition retry_site (p : pc) : option (nat * N * N) :=
    match p with
    | G1C j _ => Some (1%nat, j, 0)
    | G2C j i _ => Some (2%nat, j, i)
    | G3C j _ => Some (3%nat, j, 0)
    | A1C _ => Some (4%nat, 0, 0)
    | A3C _ => Some (5%nat, 0, 0)
    | TC _ _ => Some (6%nat, 0, 0)
    | PS2C _ => Some (7%nat, 0, 0)
    | _ => None
    end.

  (* it settles, or decreases mu and keeps pc_ok *)
  Definition dec (s : mstate) (t : nat) (c : call) (p : pc) (s' : mstate) : Prop :=
    frame s t s' /\
    (settled s' t = true \/
     exists p', nth_error (ms_pool s') t = Some (TRun c p') /\ mu s' c p' < mu s c p /\
                (pc_ok c p = true -> pc_ok c p' = true)).
  (* if the thread is still at the same CAS after a step, its cached value was stale and is now current *)
  Definition retry_fresh (s : mstate) (t : nat) (c : call) (p : pc) (k : nat * N * N) (s' : mstate) : Prop :=
    forall c' p', nth_error (ms_pool s') t = Some (TRun c' p') -> retry_site p' = Some k ->
      c' = c /\ stale s' c p' = 0 /\ stale s c p = 1.
  (* the only panic that waits for another thread *)
  Definition only_pp3_waits (s : mstate) (t : nat) (c : call) (p : pc) (s' : mstate) : Prop :=
    forall c', nth_error (ms_pool s') t = Some (TPanic SExceedingRetries c') -> exists i, p = PP3 i.

  Definition stepped (s : mstate) (t : nat) (c : call) (p : pc) (s' : mstate) : Prop :=
    dec s t c p s' /\ (forall k, retry_site p = Some k -> retry_fresh s t c p k s') /\ only_pp3_waits s t c p s'.

  (* all three follow from what the step leaves in the thread's slot *)
  Lemma stepped_of s t c p s' x : nth_error (ms_pool s) t = Some (TRun c p) -> ms_pool s' = upd (ms_pool s) t x ->
    match x with
    | TIdle _ => True
    | TPanic z _ => z = SExceedingRetries -> exists i, p = PP3 i
    | TRun c' p' =>
        (* mu and stale read the memory only: state them before the thread is moved *)
        c' = c /\ exists s1, s' = goto s1 t c p' /\
        mu s1 c p' < mu s c p /\ (pc_ok c p = true -> pc_ok c p' = true) /\
        (forall k, retry_site p = Some k -> retry_site p' = Some k -> stale s1 c p' = 0 /\ stale s c p = 1)
    end -> stepped s t c p s'.
  Proof.
    intros Hth E Hx.
    assert (Et : nth_error (ms_pool s') t = Some x).
    { rewrite E. apply nth_error_upd_same. eapply nth_error_some_lt; exact Hth. }
    split; [split; [eapply frame_upd; exact E|]|split].
    - unfold settled. rewrite Et. destruct x as [r|c' p'|z c']; auto.
      destruct Hx as (-> & s1 & -> & Hm & Hk & _). right. exists p'. auto.
    - intros k Hk c' p' H K. rewrite Et in H. injection H as ->. destruct Hx as (-> & s1 & -> & _ & _ & Hs).
      split; [reflexivity|]. exact (Hs k Hk K).
    - intros c' H. rewrite Et in H. injection H as ->. apply Hx. reflexivity.
  Qed.

  (* facts about the loop weights for every loop test in the context *)
  Ltac loop_facts c :=
    repeat match goal with
    | H : (?b + 1 <? ?a) = true |- _ =>
        let H' := fresh "Hlt" in
        assert (H' : b + 1 < a) by (apply N.ltb_lt; exact H);
        pose proof (rem_succ a b H');
        pose proof (rem_step a b (KW c) H');
        pose proof (rem_step a b (CW c) H');
        pose proof (rem_step a b (GW c) H');
        clear H
    end.

  (* mu decreases along a goto edge: the same unfolding and linear arithmetic on each of the edges of `mstep` *)
  Ltac arith c :=
    unfold mu; cbn [base stale]; unfold stale_ent, stale_row; use_eqs; rewrite ?N.eqb_refl;
    try match goal with
        | H : Nat.leb (c_order c) 6 = true |- _ =>
            assert (M2 c = oG2L 0) by (unfold M2; rewrite H; reflexivity)
        | H : Nat.leb (c_order c) 6 = false |- _ =>
            assert (M2 c = oG2R c 0 0) by (unfold M2; rewrite H; reflexivity)
        end;
    loop_facts c;
    unfold oG2L, oG2C, oG2R, oG2W, oG2U, tE, tB, tEput, RETRIES, c_nr in *;
    unfold t_nrows, t_order in *;
    lia.

  (* pc_ok is kept along a goto edge *)
  Ltac pc_ok_kept c :=
    cbn [pc_ok]; unfold small;
    unfold c_nr in *; unfold t_nrows, t_order in *;
    lia.

  Lemma step_stepped s t c p c0 : nth_error (ms_pool s) t = Some (TRun c p) ->
    stepped s t c p (fst (mstep g s t c0)).
  Proof.
    intros Hth. unfold mstep. rewrite Hth.
    (* what `arith` and `pc_ok_kept` need about c; the last but one is `t_nrows` of a split *)
    assert (KW c = M2 c + 3) by reflexivity.
    assert (CW c = 3 * c_nr c + 2) by reflexivity.
    assert (GW c = 2 * c_hnum g c + 1) by reflexivity.
    assert (0 < c_nr c) by apply pow2_pos.
    assert (0 < pow2 (hord g - 6)) by apply pow2_pos.
    assert (0 < c_hnum g c) by apply pow2_pos.
    destruct p; cbv beta iota zeta.
    all: try (destruct x).
    all: branches.
    all: eapply stepped_of;
      [eassumption | first [apply pool_crash | apply pool_finish | apply pool_goto]; pool | cbv beta iota].
    all: try exact I.
    all: try (intros Hx; first [discriminate Hx | eexists; reflexivity]).
    all: split; [reflexivity|eexists; split; [reflexivity|split; [arith c|split; [pc_ok_kept c|]]]].
    all: cbn [retry_site stale]; intros k Hk Hk'; try discriminate Hk; try discriminate Hk';
      unfold stale_ent, stale_row; use_eqs; rewrite ?N.eqb_refl; split; reflexivity.
  Qed.

  Lemma step_dec s t c p c0 : nth_error (ms_pool s) t = Some (TRun c p) ->
    dec s t c p (fst (mstep g s t c0)).
  Proof. intros Hth. apply step_stepped, Hth. Qed.

  (* the measure is positive, so it counts the remaining steps *)
  Lemma stale_le1 s c p : stale s c p <= 1.
  Proof.
    destruct p; cbn [stale]; unfold stale_ent, stale_row; try lia;
      match goal with |- context [match ?x with _ => _ end] => destruct x end; try lia;
      match goal with |- context [if ?x then _ else _] => destruct x end; lia.
  Qed.

  Lemma mu_pos s c p : 1 <= mu s c p.
  Proof.
    unfold mu. assert (1 <= base c p); [|lia].
    destruct p; cbn [base]; unfold KW, oG2L, oG2C, oG2R, oG2W, oG2U, tE, tB; lia.
  Qed.

  Lemma solo_S n s t : solo g (S n) s t = solo g n (fst (mstep g s t (CGet 0 0))) t.
  Proof. exact (iter_S_r (fun s => fst (mstep g s t (CGet 0 0))) n s). Qed.

  Lemma solo_mu t : forall m s c p, nth_error (ms_pool s) t = Some (TRun c p) ->
    mu s c p <= N.of_nat m -> exists n, (n <= m)%nat /\ settled (solo g n s t) t = true.
  Proof.
    induction m; intros s c p Hth Hm.
    - pose proof (mu_pos s c p). lia.
    - destruct (step_dec s t c p (CGet 0 0) Hth) as [_ [Hs | (p' & Hth' & Hlt & _)]].
      + exists 1%nat. split; [lia|]. exact Hs.
      + destruct (IHm _ c p' Hth') as (n & Hn & Hset); [lia|].
        exists (S n). split; [lia|]. rewrite solo_S. exact Hset.
  Qed.

  (* the closed-form bound: TH children of weight KW = M2 + 3 <= 5 RW + 7 for a small get (M2_le); 4 RW + 15 is the
     value at P1, the longest put: a split (2 RW), the RETRIES spin, the put's own toggle (2 RW) and 15 single steps *)
  Definition boundN : N := TH * (5 * RW + 7) + 4 * RW + 15.

  Hypothesis WF : wf_geom g.

  Lemma bound_boundN : N.of_nat (bound g) = boundN.
  Proof.
    unfold bound, boundN. rewrite (THUGE_nat g), (ROWS_nat g WF). lia.
  Qed.

  Lemma RW_ge1 : 1 <= RW.
  Proof. rewrite (ROWS_pow2 g WF). pose proof (pow2_pos (hord g - 6)). lia. Qed.
  Lemma TH_ge1 : 1 <= TH.
  Proof. rewrite THUGE_pow2. pose proof (pow2_pos (tlog g)). lia. Qed.

  Lemma small_nr c : small c = true -> c_nr c <= RW.
  Proof.
    unfold small. intros H. apply Nat.ltb_lt in H. rewrite (ROWS_pow2 g WF). unfold c_nr.
    apply pow2_le. lia.
  Qed.

  Lemma chunks_facts c : small c = true ->
    1 <= c_chunks g c /\ c_chunks g c * c_nr c <= RW /\ c_chunks g c <= RW.
  Proof.
    intros H. pose proof (small_nr c H). assert (0 < c_nr c) by apply pow2_pos.
    unfold c_chunks. repeat split.
    - assert (0 < RW / c_nr c) by (apply N.div_str_pos; lia). lia.
    - rewrite N.mul_comm. apply N.mul_div_le. lia.
    - apply N.div_le_upper_bound; [lia|]. nia.
  Qed.

  Lemma chunk_off_le c ch x : small c = true -> x <= CW c ->
    4 + rem (c_chunks g c) ch * CW c + x <= 5 * RW + 4.
  Proof.
    intros H Hx. destruct (chunks_facts c H) as (H1 & H2 & H3).
    pose proof (rem_top (c_chunks g c) ch (CW c) H1).
    assert (c_chunks g c * CW c = 3 * (c_chunks g c * c_nr c) + 2 * c_chunks g c) by (unfold CW; lia).
    lia.
  Qed.

  Lemma M2_le c : small c = true -> M2 c <= 5 * RW + 4.
  Proof.
    intros H. unfold M2. destruct (Nat.leb (c_order c) 6).
    - unfold oG2L, rem. pose proof RW_ge1. lia.
    - unfold oG2R. pose proof (chunk_off_le c 0 (CW c) H ltac:(lia)). unfold CW in *. lia.
  Qed.

  Lemma get_small_le c j o : small c = true -> o <= 5 * RW + 7 -> rem TH j * KW c + o <= boundN.
  Proof.
    intros H Ho. pose proof (M2_le c H). pose proof TH_ge1.
    assert (rem TH j * KW c + o <= TH * (5 * RW + 7)).
    { apply weighted_le; [unfold rem; lia | unfold KW; lia | exact Ho]. }
    unfold boundN. lia.
  Qed.

  Lemma tnrows_le x c : small c = true -> t_nrows g x c <= RW.
  Proof.
    unfold small. intros H. apply Nat.ltb_lt in H. rewrite (ROWS_pow2 g WF). unfold t_nrows.
    apply pow2_le. destruct x; cbn [t_order]; lia.
  Qed.

  Lemma huge_facts c : Nat.leb (hord g) (c_order c) = true -> Nat.leb (c_order c) (tord g) = true ->
    1 <= group_cnt g c /\ group_cnt g c * GW c <= 3 * TH.
  Proof.
    intros H1 H2. apply Nat.leb_le in H1, H2. unfold tord in H2.
    assert (Hh : c_hnum g c <= TH) by (rewrite THUGE_pow2; unfold c_hnum; apply pow2_le; lia).
    assert (0 < c_hnum g c) by apply pow2_pos.
    unfold GW. destruct c; cbn [group_cnt]; try lia.
    assert (0 < TH / c_hnum g (CGet start order)) by (apply N.div_str_pos; lia).
    pose proof (N.mul_div_le TH (c_hnum g (CGet start order)) ltac:(lia)).
    assert (TH / c_hnum g (CGet start order) <= TH) by (apply N.div_le_upper_bound; [lia|nia]).
    split; [lia|]. nia.
  Qed.

  Lemma boundN_ge : 9 * RW + 22 <= boundN /\ 3 * TH <= boundN.
  Proof.
    pose proof TH_ge1. unfold boundN.
    assert (1 * (5 * RW + 7) <= TH * (5 * RW + 7)) by (apply N.mul_le_mono_r; lia).
    split; lia.
  Qed.

  Lemma mu_bound s c p : pc_ok c p = true -> mu s c p <= boundN.
  Proof.
    intros Hok. unfold mu. pose proof (stale_le1 s c p) as Hst.
    pose proof RW_ge1 as HR. pose proof TH_ge1 as HT. destruct boundN_ge as [HB1 HB2].
    destruct p; cbn [pc_ok] in Hok; cbn [base].
    all: try (apply andb_true_iff in Hok; destruct Hok as [Hok Hq]; apply N.ltb_lt in Hq).
    1-9: pose proof (M2_le c Hok); rewrite <- ?N.add_assoc; apply get_small_le; [exact Hok|].
    1-9: unfold KW, oG2L, oG2C, oG2R, oG2W, oG2U in *; cbn [stale] in *.
    1-9: try match goal with |- context [rem (c_chunks g ?cc) ?ch * CW ?cc] =>
               pose proof (chunk_off_le cc ch (CW cc) Hok (N.le_refl _)) end.
    1-9: unfold CW, rem in *; lia.
    1-2: apply andb_true_iff in Hok; destruct Hok as [Ho1 Ho2];
         destruct (huge_facts c Ho1 Ho2) as [Hg1 Hg2];
         match goal with |- context [rem (group_cnt g ?cc) ?gi * GW ?cc] =>
           pose proof (rem_top (group_cnt g cc) gi (GW cc) Hg1) end;
         cbn [stale]; unfold GW in *; lia.
    all: pose proof (tnrows_le XPut c Hok); pose proof (tnrows_le XGetAt c Hok);
         pose proof (tnrows_le (XSplit 0) c Hok).
    all: try (pose proof (tnrows_le x c Hok); destruct x).
    all: unfold tE, tB, tEput, RETRIES in *; cbn [stale] in *; lia.
  Qed.

  (* C21: a call that runs alone finishes within `bound g` steps *)
  Theorem solo_terminates s t : thread_ok s t ->
    exists n, (n <= bound g)%nat /\ settled (solo g n s t) t = true.
  Proof.
    intros Hok. unfold thread_ok in Hok.
    destruct (nth_error (ms_pool s) t) as [[r | c p | x c]|] eqn:Hth.
    2: { apply (solo_mu t (bound g) s c p Hth). rewrite bound_boundN. apply mu_bound. exact Hok. }
    all: exists 0%nat; split; [lia|]; change (solo g 0 s t) with s; unfold settled; rewrite Hth; reflexivity.
  Qed.

  (* pc_ok holds for every thread of every reachable state *)
  Definition all_ok (s : mstate) : Prop := forall t, thread_ok s t.

  Lemma entry_ok s c0 : call_ok g s c0 = true -> pc_ok c0 (entry_pc g c0) = true.
  Proof.
    unfold call_ok. intros H. apply andb_true_iff in H. destruct H as [H _].
    assert (0 < c_hnum g c0) by apply pow2_pos.
    unfold entry_pc.
    destruct c0; cbn [c_order] in *; destruct (Nat.leb (hord g) order) eqn:E; cbn [pc_ok];
      unfold small; cbn [c_order]; lia.
  Qed.

  Lemma thread_ok_upd s s' u x t : ms_pool s' = upd (ms_pool s) u x ->
    match x with TRun c p => pc_ok c p = true | _ => True end -> thread_ok s t -> thread_ok s' t.
  Proof.
    intros E Hx Ht. unfold thread_ok in *. rewrite E. destruct (Nat.eq_dec t u) as [->|Hne].
    - destruct (nth_error (ms_pool s) u) eqn:En.
      + rewrite nth_error_upd_same by (eapply nth_error_some_lt; exact En). exact Hx.
      + rewrite upd_oob by (apply nth_error_None; exact En). rewrite En. exact I.
    - rewrite nth_error_upd_other by congruence. exact Ht.
  Qed.

  Lemma all_ok_step s u c0 : all_ok s -> all_ok (fst (mstep g s u c0)).
  Proof.
    intros Hall t. destruct (nth_error (ms_pool s) u) as [[r|c p|x c]|] eqn:Hu.
    - unfold mstep. rewrite Hu. destruct (call_ok g s c0) eqn:Hc; [|apply Hall].
      destruct c0 as [st o|f o|f o]; try destruct (client_take (ms_held s) f o); cbn [fst]; try apply Hall.
      all: eapply thread_ok_upd;
        [apply pool_goto with (s := s); reflexivity | apply entry_ok with s; exact Hc | apply Hall].
    - destruct (step_dec s u c p c0 Hu) as [Hf Hd]. unfold thread_ok.
      destruct (Nat.eq_dec t u) as [->|Hne].
      + destruct Hd as [Hs | (p' & Hp' & _ & Hk)].
        * unfold settled in Hs. destruct (nth_error (ms_pool (fst (mstep g s u c0))) u) as [[| |]|];
            try exact I. discriminate.
        * rewrite Hp'. apply Hk. pose proof (Hall u) as Hu'. unfold thread_ok in Hu'.
          rewrite Hu in Hu'. exact Hu'.
      + rewrite (Hf t Hne). apply Hall.
    - unfold mstep. rewrite Hu. apply Hall.
    - unfold mstep. rewrite Hu. apply Hall.
  Qed.

  Lemma all_ok_run sch : forall s, all_ok s -> all_ok (mrun g sch s).
  Proof.
    induction sch as [|[u c0] sch IH]; intros s H; [exact H|].
    unfold mrun in *. cbn [fold_left fst snd]. apply IH, all_ok_step, H.
  Qed.

  Lemma all_ok_boot l h n : all_ok (boot l h n).
  Proof.
    intros t. unfold thread_ok, boot. cbn [ms_pool].
    destruct (nth_error (repeat (TIdle None) n) t) eqn:E; [|exact I].
    apply nth_error_In, repeat_spec in E. subst. exact I.
  Qed.

  Lemma thread_ok_reachable sch l h n t : thread_ok (mrun g sch (boot l h n)) t.
  Proof. apply all_ok_run, all_ok_boot. Qed.

  Theorem reachable_solo_terminates l h n sch t :
    exists k, (k <= bound g)%nat /\ settled (solo g k (mrun g sch (boot l h n)) t) t = true.
  Proof. apply solo_terminates, thread_ok_reachable. Qed.
End Progress.

(* CAS-retry loops are left after at most two solo steps *)
Section Retry.
  Variable g : geom.

  Definition at_site (s : mstate) (t : nat) (k : nat * N * N) : Prop :=
    exists c p, nth_error (ms_pool s) t = Some (TRun c p) /\ retry_site p = Some k.

  Lemma retry_step s t c p k c0 : nth_error (ms_pool s) t = Some (TRun c p) -> retry_site p = Some k ->
    retry_fresh g s t c p k (fst (mstep g s t c0)).
  Proof. intros Hth Hk. exact (proj1 (proj2 (step_stepped g s t c p c0 Hth)) k Hk). Qed.

  Lemma retry_site_eq_dec (a b : option (nat * N * N)) : {a = b} + {a <> b}.
  Proof. repeat decide equality. Qed.

  Theorem retry_loops_bounded s t c p k :
    nth_error (ms_pool s) t = Some (TRun c p) -> retry_site p = Some k ->
    ~ at_site (solo g 1 s t) t k \/ ~ at_site (solo g 2 s t) t k.
  Proof.
    intros Hth Hk.
    change (solo g 2 s t) with (fst (mstep g (solo g 1 s t) t (CGet 0 0))).
    pose proof (retry_step s t c p k (CGet 0 0) Hth Hk) as R1.
    change (fst (mstep g s t (CGet 0 0))) with (solo g 1 s t) in R1.
    set (s1 := solo g 1 s t) in *.
    destruct (nth_error (ms_pool s1) t) as [[r|c1 p1|x c1]|] eqn:H1.
    2: destruct (retry_site_eq_dec (retry_site p1) (Some k)) as [K1|K1].
    2: { right. destruct (R1 c1 p1 H1 K1) as (-> & Hs0 & _).
         intros (c2 & p2 & H2 & K2).
         destruct (retry_step s1 t c p1 k (CGet 0 0) H1 K1 c2 p2 H2 K2) as (_ & _ & Hs1). lia. }
    all: left; intros (c' & p' & H & K); rewrite H1 in H; try discriminate H.
    injection H as <- <-. contradiction.
  Qed.

  Theorem exceeding_retries_only_PP3 s t c p c0 c' :
    nth_error (ms_pool s) t = Some (TRun c p) ->
    nth_error (ms_pool (fst (mstep g s t c0))) t = Some (TPanic SExceedingRetries c') ->
    exists i, p = PP3 i.
  Proof. intros Hth. exact (proj2 (proj2 (step_stepped g s t c p c0 Hth)) c'). Qed.
End Retry.

(* D13: the bounded spin of partial_put_huge (lower.rs:469-470) *)
Definition g7 : geom := {| hord := 7; tlog := 1 |}.
(* thread 0: put(0,0) into an allocated huge frame: loads the marker, fills both rows, stops before its CAS;
   thread 1: put(1,0) into the same huge frame: loads the marker, fails to fill row 0, starts to spin *)
Definition kw_sch : list (nat * call) :=
  [(0%nat, CPut 0 0); (0%nat, CPut 0 0); (0%nat, CPut 0 0); (0%nat, CPut 0 0);
   (1%nat, CPut 1 0); (1%nat, CPut 1 0); (1%nat, CPut 1 0)].

Theorem known_wait :
  exists (g : geom) (sch : list (nat * call)) (c : call),
    wf_geom g /\
    let s := mrun g sch (boot (reserve_all g 256) (alloc_all_held g 256) 2) in
    held_ok s = true /\
    nth_error (ms_pool s) 1 = Some (TRun c (PP3 0)) /\
    rd_ent s (c_huge g c) = Some MARK /\
    nth_error (ms_pool s) 0 = Some (TRun (CPut 0 0) (PP2 MARK)) /\
    (* alone, thread 1 panics after RETRIES loads *)
    nth_error (ms_pool (solo g 4 s 1)) 1 = Some (TPanic SExceedingRetries c) /\
    (* after one step of thread 0 (its CAS), the same call of thread 1 completes *)
    nth_error (ms_pool (solo g 5 (fst (mstep g s 0 c)) 1)) 1 = Some (TIdle (Some (Ok 0))).
Proof.
  exists g7, kw_sch, (CPut 1 0). split; [unfold wf_geom; cbn; lia|].
  vm_compute. repeat split; reflexivity.
Qed.

Definition g92 : geom := {| hord := 9; tlog := 2 |}.

(* number of solo steps until thread t is settled *)
Fixpoint solo_steps (g : geom) (fuel : nat) (s : mstate) (t : nat) : option nat :=
  if settled s t then Some 0%nat else
  match fuel with
  | O => None
  | S f => option_map S (solo_steps g f (fst (mstep g s t (CGet 0 0))) t)
  end.

(* get(order 0) on a fresh allocator: start, load + CAS of the counter, load + CAS of the row *)
Example solo_get_ok :
  let s := boot (free_all g92 1024) [] 2 in
  map (fun n => settled (solo g92 n s 0) 0) [1; 2; 3; 4; 5]%nat = [false; false; false; false; true] /\
  nth_error (ms_pool (solo g92 5 s 0)) 0 = Some (TIdle (Some (Ok 0))).
Proof. vm_compute. split; reflexivity. Qed.

(* thread 0 has loaded row 0 and is about to CAS it; thread 1 allocates frame 0 in between:
   thread 0's CAS fails once, is retried with the value it observed, and succeeds *)
Example solo_mid_race :
  let s := mrun g92 [(0%nat, CGet 0 0); (0%nat, CGet 0 0); (0%nat, CGet 0 0); (0%nat, CGet 0 0);
                     (1%nat, CGet 0 0); (1%nat, CGet 0 0); (1%nat, CGet 0 0); (1%nat, CGet 0 0);
                     (1%nat, CGet 0 0)] (boot (free_all g92 1024) [] 2) in
  nth_error (ms_pool s) 0 = Some (TRun (CGet 0 0) (G2C 0 0 0)) /\
  nth_error (ms_pool s) 1 = Some (TIdle (Some (Ok 0))) /\
  nth_error (ms_pool (solo g92 1 s 0)) 0 = Some (TRun (CGet 0 0) (G2C 0 0 1)) /\
  nth_error (ms_pool (solo g92 2 s 0)) 0 = Some (TIdle (Some (Ok 1))).
Proof. vm_compute. repeat split; reflexivity. Qed.

(* worst cases found for HUGE_ORDER 9, TREE_HUGE 4 (bound 235): counters promise free frames that
   the bitfields do not have (possible in a race), so every child is searched and undone *)
Definition adversary (o : nat) (row : list N) : mstate :=
  {| ms_frames := 2048; ms_ents := repeat 512 4; ms_bfs := repeat row 4;
     ms_pool := [TRun (CGet 0 o) (G1L 0)]; ms_held := [] |}.
Example worst_cases :
  solo_steps g92 300 (adversary 0 (repeat MAX64 8)) 0 = Some 48%nat /\
  solo_steps g92 300 (adversary 7 [0; 1; 0; 1; 0; 1; 0; 1]) 0 = Some 48%nat /\
  solo_steps g92 300 (adversary 8 [0; 0; 0; 1; 0; 0; 0; 1]) 0 = Some 48%nat /\
  bound g92 = 235%nat /\ bound g7 = 57%nat /\ bound {| hord := 9; tlog := 3 |} = 423%nat.
Proof. vm_compute. repeat split; reflexivity. Qed.

(* `thread_ok` cannot be dropped: with a rollback index beyond the group size (no reachable state has
   one) the rollback of compare_exchange_all walks over as many entries as the memory has *)
Definition g60 : geom := {| hord := 6; tlog := 0 |}.
Example pc_ok_needed :
  let s := {| ms_frames := 3200; ms_ents := repeat 64 50; ms_bfs := [];
              ms_pool := [TRun (CPut 0 6) (HU 0 45)]; ms_held := [] |} in
  bound g60 = 31%nat /\ solo_steps g60 100 s 0 = Some 46%nat.
Proof. vm_compute. split; reflexivity. Qed.
