(* Shared lemmas about the geometry, bitsets, the abstraction function `abs` (pointwise reading),
   `cas_all`, the invariant `LowerInv` (boolean checker soundness, update plumbing), the per-tree
   counter sums, and the two updates every get and put performs, read pointwise: one cell (entry and
   bitfield of a huge frame) or the entries of a range of whole cells.
   Used by the get-side (LowerGetProofs.v) and the put/init-side proofs. *)
From Coq Require Import PeanoNat.
From LLF Require Import Base BitLemmas Row RowProofs Bitfield Lower Spec.
Local Open Scope N_scope.

(* geometry *)
Lemma pow2_pos k : 0 < pow2 k.
Proof. unfold pow2. apply N.neq_0_lt_0, N.pow_nonzero. discriminate. Qed.

Lemma pow2_nz k : pow2 k <> 0.
Proof. pose proof (pow2_pos k). lia. Qed.

Lemma pow2_0 : pow2 0 = 1.
Proof. reflexivity. Qed.

Lemma pow2_S k : pow2 (S k) = 2 * pow2 k.
Proof. unfold pow2. rewrite Nat2N.inj_succ, N.pow_succ_r'. reflexivity. Qed.

Lemma pow2_add a b : pow2 (a + b) = pow2 a * pow2 b.
Proof. unfold pow2. rewrite Nat2N.inj_add, N.pow_add_r. reflexivity. Qed.

Lemma pow2_le a b : (a <= b)%nat -> pow2 a <= pow2 b.
Proof. intros H. unfold pow2. apply N.pow_le_mono_r; lia. Qed.

Lemma pow2_lt a b : (a < b)%nat -> pow2 a < pow2 b.
Proof. intros H. unfold pow2. apply N.pow_lt_mono_r; lia. Qed.

Lemma pow2_split a b : (a <= b)%nat -> pow2 b = pow2 (b - a) * pow2 a.
Proof. intros H. rewrite <- pow2_add. f_equal. lia. Qed.

Lemma pow2_mod a b : (a <= b)%nat -> pow2 b mod pow2 a = 0.
Proof. intros H. rewrite (pow2_split a b H). apply N.mod_mul, pow2_nz. Qed.

Lemma pow2_of_nat k : pow2 k = N.of_nat (Nat.pow 2 k).
Proof. unfold pow2. rewrite Nat2N.inj_pow. reflexivity. Qed.

Lemma HF_pow2 g : HF g = pow2 (hord g).
Proof. reflexivity. Qed.

Lemma THUGE_pow2 g : THUGE g = pow2 (tlog g).
Proof. reflexivity. Qed.

Lemma TF_eq g : TF g = THUGE g * HF g.
Proof. reflexivity. Qed.

Lemma TF_pow2 g : TF g = pow2 (tord g).
Proof. unfold TF, tord. rewrite THUGE_pow2, HF_pow2, N.mul_comm, pow2_add. reflexivity. Qed.

Lemma HF_pos g : 0 < HF g.
Proof. rewrite HF_pow2. apply pow2_pos. Qed.

Lemma THUGE_pos g : 0 < THUGE g.
Proof. rewrite THUGE_pow2. apply pow2_pos. Qed.

Lemma TF_pos g : 0 < TF g.
Proof. rewrite TF_pow2. apply pow2_pos. Qed.

Lemma HF_nz g : HF g <> 0.
Proof. pose proof (HF_pos g). lia. Qed.

Lemma THUGE_nz g : THUGE g <> 0.
Proof. pose proof (THUGE_pos g). lia. Qed.

Lemma TF_nz g : TF g <> 0.
Proof. pose proof (TF_pos g). lia. Qed.

Lemma HF_64 g : wf_geom g -> HF g = 64 * ROWS g.
Proof.
  intros (H6 & _). unfold ROWS. rewrite HF_pow2, (pow2_split 6 (hord g) H6).
  change (pow2 6) with 64. rewrite N.div_mul by discriminate. lia.
Qed.

Lemma ROWS_pow2 g : wf_geom g -> ROWS g = pow2 (hord g - 6).
Proof.
  intros (H6 & _). unfold ROWS. rewrite HF_pow2, (pow2_split 6 (hord g) H6).
  change (pow2 6) with 64. apply N.div_mul. discriminate.
Qed.

Lemma ROWS_nat g : wf_geom g -> ROWS g = N.of_nat (rows_nat g).
Proof. intros H. rewrite (ROWS_pow2 g H). apply pow2_of_nat. Qed.

Lemma ROWS_pos g : wf_geom g -> 0 < ROWS g.
Proof. intros H. rewrite (ROWS_pow2 g H). apply pow2_pos. Qed.

Lemma HF_rows_nat g : wf_geom g -> HF g = 64 * N.of_nat (rows_nat g).
Proof. intros H. rewrite (HF_64 g H), (ROWS_nat g H). reflexivity. Qed.

Lemma THUGE_nat g : THUGE g = N.of_nat (thuge_nat g).
Proof. rewrite THUGE_pow2. apply pow2_of_nat. Qed.

Lemma HF_le_max g : wf_geom g -> HF g <= 32768.
Proof. intros (_ & H15 & _). rewrite HF_pow2. change 32768 with (pow2 15). apply pow2_le. exact H15. Qed.

Lemma HF_lt_MARK g : wf_geom g -> HF g < MARK.
Proof. intros H. pose proof (HF_le_max g H). unfold MARK. lia. Qed.

Lemma HF_ge_64 g : wf_geom g -> 64 <= HF g.
Proof. intros (H6 & _). rewrite HF_pow2. change 64 with (pow2 6). apply pow2_le. exact H6. Qed.

Lemma pow2_le_HF g k : (k <= hord g)%nat -> pow2 k <= HF g.
Proof. intros H. rewrite HF_pow2. apply pow2_le. exact H. Qed.

Lemma pow2_lt_HF g k : (k < hord g)%nat -> pow2 k < HF g.
Proof. intros H. rewrite HF_pow2. apply pow2_lt. exact H. Qed.

Lemma pow2_le_TF g k : (k <= tord g)%nat -> pow2 k <= TF g.
Proof. intros H. rewrite TF_pow2. apply pow2_le. exact H. Qed.

Lemma HF_mod_pow2 g k : (k <= hord g)%nat -> HF g mod pow2 k = 0.
Proof. intros H. rewrite HF_pow2. apply pow2_mod. exact H. Qed.

(* quotient and remainder of a number given as a * q + t *)
Lemma div_mul_add a q t : t < a -> (a * q + t) / a = q.
Proof. intros Ht. symmetry. apply (N.div_unique _ a q t); [exact Ht | reflexivity]. Qed.

Lemma mod_mul_add a q t : t < a -> (a * q + t) mod a = t.
Proof. intros Ht. symmetry. apply (N.mod_unique _ a q t); [exact Ht | reflexivity]. Qed.

(* a block [a q + s, a q + s + w) inside cell q of width a; a range of n whole cells from h *)
Lemma in_cell a q s w i : a <> 0 -> s + w <= a ->
  (a * q + s <=? i) && (i <? a * q + s + w) = (i / a =? q) && ((s <=? i mod a) && (i mod a <? s + w)).
Proof.
  intros Ha Hs. pose proof (N.div_mod i a Ha) as D. pose proof (N.mod_lt i a Ha) as L.
  revert D L. generalize (i / a) (i mod a). intros q' t D L. subst i.
  destruct (N.eqb_spec q' q) as [->|Hne].
  - destruct (N.leb_spec (a * q + s) (a * q + t)), (N.ltb_spec (a * q + t) (a * q + s + w)),
      (N.leb_spec s t), (N.ltb_spec t (s + w)); cbn [andb]; try reflexivity; exfalso; lia.
  - destruct (N.leb_spec (a * q + s) (a * q' + t)), (N.ltb_spec (a * q' + t) (a * q + s + w));
      cbn [andb]; try reflexivity; exfalso; nia.
Qed.

Lemma in_cells a h n i : a <> 0 ->
  (a * h <=? i) && (i <? a * h + a * n) = (h <=? i / a) && (i / a <? h + n).
Proof.
  intros Ha. pose proof (N.div_mod i a Ha) as D. pose proof (N.mod_lt i a Ha) as L.
  revert D L. generalize (i / a) (i mod a). intros q t D L. subst i.
  destruct (N.leb_spec (a * h) (a * q + t)), (N.ltb_spec (a * q + t) (a * h + a * n)),
    (N.leb_spec h q), (N.ltb_spec q (h + n)); cbn [andb]; try reflexivity; exfalso; nia.
Qed.

Lemma aligned_mul a b : b <> 0 -> a mod b = 0 -> a = (a / b) * b.
Proof. intros Hb H. pose proof (N.div_mod a b Hb). lia. Qed.

Lemma aligned_block_fits a n m : n <> 0 -> m mod n = 0 -> a mod n = 0 -> a < m -> a + n <= m.
Proof.
  intros Hn Hm Ha Hlt.
  rewrite (aligned_mul a n Hn Ha), (aligned_mul m n Hn Hm) in *.
  assert (a / n < m / n) by nia. nia.
Qed.

(* the remainder of an aligned x modulo a larger power of two is aligned and leaves room for a block *)
Lemma aligned_mod_pow2 k m x : (k <= m)%nat -> x mod pow2 k = 0 -> (x mod pow2 m) mod pow2 k = 0.
Proof.
  intros Hk Hx. rewrite (pow2_split k m Hk), N.mul_comm.
  rewrite mod_mod_mul; [exact Hx|apply pow2_nz|apply pow2_nz].
Qed.

Lemma aligned_fit_pow2 k m x : (k <= m)%nat -> x mod pow2 k = 0 -> x mod pow2 m + pow2 k <= pow2 m.
Proof.
  intros Hk Hx. apply aligned_block_fits.
  - apply pow2_nz.
  - apply pow2_mod, Hk.
  - apply aligned_mod_pow2; assumption.
  - apply N.mod_lt, pow2_nz.
Qed.

Lemma aligned_mod_HF g f k : (k <= hord g)%nat -> f mod pow2 k = 0 -> (f mod HF g) mod pow2 k = 0.
Proof. apply aligned_mod_pow2. Qed.

(* a block of order k <= hord that starts aligned inside huge frame f / HF stays inside it *)
Lemma aligned_in_huge g f k : (k <= hord g)%nat -> f mod pow2 k = 0 -> f mod HF g + pow2 k <= HF g.
Proof. apply aligned_fit_pow2. Qed.

Lemma aligned_weaken a k k' : (k' <= k)%nat -> a mod pow2 k = 0 -> a mod pow2 k' = 0.
Proof.
  intros Hk Ha. rewrite (aligned_mul a (pow2 k) (pow2_nz k) Ha), (pow2_split k' k Hk), N.mul_assoc.
  apply N.mod_mul, pow2_nz.
Qed.

(* sizes *)
Lemma div_ceil_ge a b : b <> 0 -> a <= div_ceil a b * b.
Proof.
  intros Hb. unfold div_ceil.
  pose proof (N.div_mod (a + b - 1) b Hb). pose proof (N.mod_lt (a + b - 1) b Hb). nia.
Qed.

Lemma div_ceil_le a b m : b <> 0 -> a <= m * b -> div_ceil a b <= m.
Proof.
  intros Hb H. unfold div_ceil. apply N.lt_succ_r. apply N.div_lt_upper_bound; [exact Hb|]. nia.
Qed.

Lemma div_lt_div_ceil a b f : b <> 0 -> f < a -> f / b < div_ceil a b.
Proof.
  intros Hb H. apply N.div_lt_upper_bound; [exact Hb|].
  pose proof (div_ceil_ge a b Hb). nia.
Qed.

Lemma div_ceil_lt_inv a b h : b <> 0 -> h < div_ceil a b -> h * b < a.
Proof.
  intros Hb H. unfold div_ceil in H.
  pose proof (N.div_mod (a + b - 1) b Hb). pose proof (N.mod_lt (a + b - 1) b Hb).
  assert (h + 1 <= (a + b - 1) / b) by lia.
  set (q := (a + b - 1) / b) in *. set (r := (a + b - 1) mod b) in *.
  assert (b * (h + 1) <= b * q) by (apply N.mul_le_mono_l; lia). lia.
Qed.

(* bitsets *)
Lemma blk_testbit f n i : N.testbit (blk f n) i = (f <=? i) && (i <? f + n).
Proof.
  unfold blk, ones.
  destruct (N.leb_spec f i) as [H|H].
  - rewrite N.shiftl_spec_high' by assumption.
    destruct (N.ltb_spec i (f + n)).
    + rewrite N.ones_spec_low by lia. reflexivity.
    + rewrite N.ones_spec_high by lia. reflexivity.
  - rewrite N.shiftl_spec_low by assumption. reflexivity.
Qed.

Lemma blk_block_mask o p : block_mask o p = blk p (pow2 o).
Proof. reflexivity. Qed.

Lemma mask64_blk bits off : mask64 bits off = blk off bits.
Proof. reflexivity. Qed.

Lemma ldiff_blk_testbit a f n i :
  N.testbit (N.ldiff a (blk f n)) i = N.testbit a i && negb ((f <=? i) && (i <? f + n)).
Proof. rewrite N.ldiff_spec, blk_testbit. reflexivity. Qed.

Lemma lor_blk_testbit a f n i :
  N.testbit (N.lor a (blk f n)) i = N.testbit a i || ((f <=? i) && (i <? f + n)).
Proof. rewrite N.lor_spec, blk_testbit. reflexivity. Qed.

Lemma blk_lt f n m : f + n <= m -> blk f n < 2 ^ m.
Proof.
  intros H. apply lt_pow2_bits. intros i Hi. rewrite blk_testbit.
  destruct (N.ltb_spec i (f + n)); [lia|]. apply andb_false_r.
Qed.

Lemma popcount_blk f n : popcount (blk f n) = n.
Proof. unfold blk, ones. rewrite popcount_shiftl. apply popcount_ones. Qed.

Lemma land_blk_zero a f n :
  N.land a (blk f n) = 0 <-> (forall i, f <= i < f + n -> N.testbit a i = false).
Proof.
  split.
  - intros H i Hi.
    assert (T : N.testbit (N.land a (blk f n)) i = false) by (rewrite H; apply N.bits_0).
    rewrite N.land_spec, blk_testbit in T.
    destruct (N.leb_spec f i); [|lia]. destruct (N.ltb_spec i (f + n)); [|lia].
    rewrite andb_true_r in T. exact T.
  - intros H. apply N.bits_inj. intros i. rewrite N.bits_0, N.land_spec, blk_testbit.
    destruct (N.leb_spec f i); [|apply andb_false_r].
    destruct (N.ltb_spec i (f + n)); [|apply andb_false_r].
    rewrite H by lia. reflexivity.
Qed.

Lemma land_blk_full a f n :
  N.land a (blk f n) = blk f n <-> (forall i, f <= i < f + n -> N.testbit a i = true).
Proof.
  split.
  - intros H i Hi.
    assert (T : N.testbit (N.land a (blk f n)) i = N.testbit (blk f n) i) by (rewrite H; reflexivity).
    rewrite N.land_spec, blk_testbit in T.
    destruct (N.leb_spec f i); [|lia]. destruct (N.ltb_spec i (f + n)); [|lia].
    rewrite andb_true_r in T. exact T.
  - intros H. apply N.bits_inj. intros i. rewrite N.land_spec, blk_testbit.
    destruct (N.leb_spec f i); [|apply andb_false_r].
    destruct (N.ltb_spec i (f + n)); [|apply andb_false_r].
    rewrite H by lia. reflexivity.
Qed.

Lemma popcount_0_inv v : popcount v = 0 -> v = 0.
Proof.
  destruct v as [|p]; [reflexivity|]. cbn [popcount]. intros H. exfalso.
  induction p as [p IH|p IH|]; cbn [popcount_pos] in H; lia.
Qed.

Lemma popcount_lt_pow2 v n : v < 2 ^ n -> popcount v <= n.
Proof.
  intros Hv.
  assert (E : N.lor v (N.ldiff (N.ones n) v) = N.ones n).
  { apply N.bits_inj. intros i. rewrite N.lor_spec, N.ldiff_spec.
    destruct (N.lt_ge_cases i n) as [Hi|Hi].
    - rewrite N.ones_spec_low by assumption. destruct (N.testbit v i); reflexivity.
    - rewrite N.ones_spec_high by assumption. rewrite (testbit_high v n i) by assumption. reflexivity. }
  assert (D : N.land v (N.ldiff (N.ones n) v) = 0).
  { apply N.bits_inj. intros i. rewrite N.land_spec, N.ldiff_spec, N.bits_0.
    destruct (N.testbit v i); [|reflexivity]. rewrite andb_false_r. reflexivity. }
  pose proof (popcount_lor_disjoint _ _ D) as P. rewrite E, popcount_ones in P. lia.
Qed.

(* the specification, pointwise *)
Lemma ospec_ext s1 s2 :
  o_frames s1 = o_frames s2 ->
  (forall i, N.testbit (o_alloc s1) i = N.testbit (o_alloc s2) i) ->
  (forall h, N.testbit (o_whole s1) h = N.testbit (o_whole s2) h) -> s1 = s2.
Proof.
  destruct s1, s2. cbn. intros -> Ha Hw.
  apply N.bits_inj in Ha. apply N.bits_inj in Hw. subst. reflexivity.
Qed.

Section SpecPointwise.
  Variable g : geom.

  Lemma spec_get_frames s f k : o_frames (spec_get g s f k) = o_frames s.
  Proof. reflexivity. Qed.
  Lemma spec_put_frames s f k : o_frames (spec_put g s f k) = o_frames s.
  Proof. reflexivity. Qed.

  Lemma spec_get_alloc_testbit s f k i :
    N.testbit (o_alloc (spec_get g s f k)) i = N.testbit (o_alloc s) i || ((f <=? i) && (i <? f + pow2 k)).
  Proof. unfold spec_get; cbn. apply lor_blk_testbit. Qed.

  Lemma spec_put_alloc_testbit s f k i :
    N.testbit (o_alloc (spec_put g s f k)) i = N.testbit (o_alloc s) i && negb ((f <=? i) && (i <? f + pow2 k)).
  Proof. unfold spec_put; cbn. apply ldiff_blk_testbit. Qed.

  Lemma spec_get_whole_testbit s f k h :
    N.testbit (o_whole (spec_get g s f k)) h =
    N.testbit (o_whole s) h || (Nat.leb (hord g) k && ((f / HF g <=? h) && (h <? f / HF g + pow2 (k - hord g)))).
  Proof.
    unfold spec_get; cbn. destruct (Nat.leb (hord g) k).
    - unfold hblk. rewrite lor_blk_testbit. reflexivity.
    - rewrite orb_false_r. reflexivity.
  Qed.

  Lemma spec_put_whole_testbit s f k h :
    N.testbit (o_whole (spec_put g s f k)) h =
    N.testbit (o_whole s) h &&
    negb (if Nat.leb (hord g) k then (f / HF g <=? h) && (h <? f / HF g + pow2 (k - hord g)) else h =? f / HF g).
  Proof.
    unfold spec_put; cbn. destruct (Nat.leb (hord g) k).
    - unfold hblk. apply ldiff_blk_testbit.
    - destruct (N.eqb_spec h (f / HF g)) as [->|Hn].
      + rewrite N.clearbit_eq. rewrite andb_false_r. reflexivity.
      + rewrite N.clearbit_neq by congruence. rewrite andb_true_r. reflexivity.
  Qed.

  Lemma all_free_spec s f k :
    all_free s f k = true <-> (forall i, f <= i < f + pow2 k -> N.testbit (o_alloc s) i = false).
  Proof. unfold all_free. rewrite N.eqb_eq. apply land_blk_zero. Qed.

  Lemma all_alloc_spec s f k :
    all_alloc s f k = true <-> (forall i, f <= i < f + pow2 k -> N.testbit (o_alloc s) i = true).
  Proof. unfold all_alloc. rewrite N.eqb_eq. apply land_blk_full. Qed.

  Lemma all_whole_spec s f k :
    all_whole g s f k = true <->
    (forall h, f / HF g <= h < f / HF g + pow2 (k - hord g) -> N.testbit (o_whole s) h = true).
  Proof. unfold all_whole, hblk. rewrite N.eqb_eq. apply land_blk_full. Qed.

  Lemma spec_get_enabled_spec s f k :
    spec_get_enabled s f k = true <->
    f mod pow2 k = 0 /\ f + pow2 k <= o_frames s /\
    (forall i, f <= i < f + pow2 k -> N.testbit (o_alloc s) i = false).
  Proof.
    unfold spec_get_enabled, aligned, in_range.
    rewrite !andb_true_iff, N.eqb_eq, N.leb_le, all_free_spec. tauto.
  Qed.
End SpecPointwise.

(* rows of a bitfield as one number *)
Lemma nz64 : 64 <> 0. Proof. discriminate. Qed.

Lemma rows_bits_lt rows :
  Forall (fun r => r < W64) rows -> rows_bits rows < 2 ^ (64 * N.of_nat (length rows)).
Proof.
  induction 1 as [|r rest Hr _ IH]; cbn [rows_bits length].
  - apply N.neq_0_lt_0, N.pow_nonzero. discriminate.
  - apply lt_pow2_bits. intros i Hi. rewrite N.lor_spec.
    rewrite (testbit_high r 64 i) by (try exact Hr; lia).
    rewrite N.shiftl_spec_high' by lia.
    apply (testbit_high _ _ _ IH). lia.
Qed.

Lemma rows_bits_testbit_gen rows : Forall (fun r => r < W64) rows -> forall i,
  N.testbit (rows_bits rows) i =
  match nth_error rows (nn (i / 64)) with Some r => N.testbit r (i mod 64) | None => false end.
Proof.
  induction 1 as [|r rest Hr _ IH]; intros i; cbn [rows_bits].
  - rewrite N.bits_0. destruct (nn (i / 64)); reflexivity.
  - rewrite N.lor_spec.
    pose proof (N.div_mod i 64 nz64) as E. pose proof (N.mod_lt i 64 nz64) as L.
    destruct (N.lt_ge_cases i 64) as [Hi|Hi].
    + rewrite N.shiftl_spec_low by assumption. rewrite orb_false_r.
      rewrite (N.div_small i 64 Hi), (N.mod_small i 64 Hi). reflexivity.
    + rewrite (testbit_high r 64 i) by (try exact Hr; lia).
      rewrite N.shiftl_spec_high' by lia. rewrite IH. cbn [orb].
      assert (Ed : (i - 64) / 64 = i / 64 - 1).
      { symmetry. apply (N.div_unique _ _ _ (i mod 64)); lia. }
      assert (Em : (i - 64) mod 64 = i mod 64).
      { symmetry. apply (N.mod_unique _ _ (i / 64 - 1)); lia. }
      rewrite Ed, Em. unfold nn.
      replace (N.to_nat (i / 64)) with (S (N.to_nat (i / 64 - 1))) by lia. reflexivity.
Qed.

Lemma popcount_rows_bits rows : Forall (fun r => r < W64) rows ->
  popcount (rows_bits rows) = fold_right (fun v a => popcount v + a) 0 rows.
Proof.
  induction 1 as [|r rest Hr Hrest IH]; cbn [rows_bits fold_right]; [reflexivity|].
  rewrite popcount_lor_disjoint.
  - rewrite popcount_shiftl, IH. reflexivity.
  - apply N.bits_inj. intros i. rewrite N.land_spec, N.bits_0.
    destruct (N.lt_ge_cases i 64) as [Hi|Hi].
    + rewrite N.shiftl_spec_low by assumption. apply andb_false_r.
    + rewrite (testbit_high r 64 i) by (try exact Hr; lia). reflexivity.
Qed.

Lemma rows_zero_bits rows : Forall (fun r => r = 0) rows -> rows_bits rows = 0.
Proof.
  induction 1 as [|r rest Hr _ IH]; cbn [rows_bits]; [reflexivity|].
  rewrite Hr, IH, N.shiftl_0_l. reflexivity.
Qed.

Lemma rows_bits_zero_inv rows : rows_bits rows = 0 -> Forall (fun r => r = 0) rows.
Proof.
  induction rows as [|r rest IH]; cbn [rows_bits]; intros H; constructor.
  - apply N.lor_eq_0_iff in H. apply H.
  - apply IH. apply N.lor_eq_0_iff in H. destruct H as [_ H].
    apply N.shiftl_eq_0_iff in H. exact H.
Qed.

Lemma count_zeros_sum rows : Forall (fun r => r < W64) rows ->
  bf_count_zeros rows + popcount (rows_bits rows) = 64 * N.of_nat (length rows).
Proof.
  intros H. rewrite (popcount_rows_bits rows H).
  induction H as [|r rest Hr _ IH]; cbn [bf_count_zeros fold_right length]; [reflexivity|].
  unfold bf_count_zeros in IH. change (count_zeros64 r) with (64 - popcount r). rewrite Nat2N.inj_succ.
  pose proof (popcount_lt_pow2 r 64 Hr). lia.
Qed.

Section RowsOk.
  Variable g : geom.
  Hypothesis WF : wf_geom g.

  Lemma rows_ok_len64 rows : rows_ok g rows -> 64 * N.of_nat (length rows) = HF g.
  Proof. intros (Hl & _). rewrite Hl, <- (ROWS_nat g WF). symmetry. apply HF_64, WF. Qed.

  Lemma rows_ok_length rows : rows_ok g rows -> N.of_nat (length rows) = ROWS g.
  Proof. intros (Hl & _). rewrite Hl. symmetry. apply ROWS_nat, WF. Qed.

  Lemma rows_bits_testbit rows : rows_ok g rows -> forall i,
    N.testbit (rows_bits rows) i =
    match nth_error rows (nn (i / 64)) with Some r => N.testbit r (i mod 64) | None => false end.
  Proof. intros (_ & H). apply rows_bits_testbit_gen, H. Qed.

  Lemma rows_bits_lt_HF rows : rows_ok g rows -> rows_bits rows < 2 ^ HF g.
  Proof. intros H. rewrite <- (rows_ok_len64 rows H). apply rows_bits_lt, H. Qed.

  Lemma rows_bits_high rows i : rows_ok g rows -> HF g <= i -> N.testbit (rows_bits rows) i = false.
  Proof. intros H Hi. apply (testbit_high _ _ _ (rows_bits_lt_HF rows H) Hi). Qed.

  Lemma popcount_rows_bits_le rows : rows_ok g rows -> popcount (rows_bits rows) <= HF g.
  Proof. intros H. apply popcount_lt_pow2, rows_bits_lt_HF, H. Qed.

  Lemma bf_count_zeros_sum rows : rows_ok g rows ->
    bf_count_zeros rows + popcount (rows_bits rows) = HF g.
  Proof. intros H. rewrite <- (rows_ok_len64 rows H). apply count_zeros_sum, H. Qed.

  Lemma bf_count_zeros_spec rows : rows_ok g rows ->
    bf_count_zeros rows = HF g - popcount (rows_bits rows).
  Proof. intros H. pose proof (bf_count_zeros_sum rows H). lia. Qed.

  Lemma bf_count_zeros_le rows : rows_ok g rows -> bf_count_zeros rows <= HF g.
  Proof. intros H. pose proof (bf_count_zeros_sum rows H). lia. Qed.

  Lemma count_zeros_full_zero rows : rows_ok g rows -> bf_count_zeros rows = HF g ->
    Forall (fun r => r = 0) rows.
  Proof.
    intros H E. pose proof (bf_count_zeros_sum rows H).
    apply rows_bits_zero_inv, popcount_0_inv. lia.
  Qed.

  Lemma count_zeros_of_zero rows : rows_ok g rows -> Forall (fun r => r = 0) rows ->
    bf_count_zeros rows = HF g.
  Proof.
    intros H Z. pose proof (bf_count_zeros_sum rows H) as S.
    rewrite (rows_zero_bits rows Z) in S. cbn [popcount] in S. lia.
  Qed.

  Lemma rows_ok_upd rows r v : rows_ok g rows -> v < W64 -> rows_ok g (upd rows r v).
  Proof.
    intros (Hl & Hf) Hv. split; [rewrite upd_length; exact Hl|].
    clear Hl. revert r. induction Hf as [|x rest Hx Hrest IH]; intros r; destruct r; cbn [upd]; constructor; auto.
  Qed.

  Lemma count_zeros_set_block rows rows' off n :
    rows_ok g rows -> rows_ok g rows' ->
    N.land (rows_bits rows) (blk off n) = 0 ->
    rows_bits rows' = N.lor (rows_bits rows) (blk off n) ->
    bf_count_zeros rows' + n = bf_count_zeros rows.
  Proof.
    intros H H' D E. pose proof (bf_count_zeros_sum rows H). pose proof (bf_count_zeros_sum rows' H').
    rewrite E, (popcount_lor_disjoint _ _ D), popcount_blk in *. lia.
  Qed.

  Lemma count_zeros_clear_block rows rows' off n :
    rows_ok g rows -> rows_ok g rows' ->
    N.land (rows_bits rows) (blk off n) = blk off n ->
    rows_bits rows' = N.ldiff (rows_bits rows) (blk off n) ->
    bf_count_zeros rows' = bf_count_zeros rows + n.
  Proof.
    intros H H' D E.
    assert (D' : N.land (rows_bits rows') (blk off n) = 0).
    { rewrite E. apply N.bits_inj. intros i. rewrite N.land_spec, N.ldiff_spec, N.bits_0.
      destruct (N.testbit (rows_bits rows) i), (N.testbit (blk off n) i); reflexivity. }
    assert (E' : rows_bits rows = N.lor (rows_bits rows') (blk off n)).
    { rewrite E. apply N.bits_inj. intros i. rewrite N.lor_spec, N.ldiff_spec.
      assert (T : N.testbit (N.land (rows_bits rows) (blk off n)) i = N.testbit (blk off n) i)
        by (rewrite D; reflexivity).
      rewrite N.land_spec in T.
      destruct (N.testbit (rows_bits rows) i), (N.testbit (blk off n) i); try reflexivity; discriminate. }
    pose proof (count_zeros_set_block rows' rows off n H' H D' E'). lia.
  Qed.

  Lemma count_zeros_ge_block rows off n :
    rows_ok g rows -> off + n <= HF g -> N.land (rows_bits rows) (blk off n) = 0 ->
    n <= bf_count_zeros rows.
  Proof.
    intros H Hb D. pose proof (bf_count_zeros_sum rows H) as S.
    assert (L : N.lor (rows_bits rows) (blk off n) < 2 ^ HF g).
    { apply lor_lt_pow2; [apply rows_bits_lt_HF, H|apply blk_lt, Hb]. }
    apply popcount_lt_pow2 in L. rewrite (popcount_lor_disjoint _ _ D), popcount_blk in L. lia.
  Qed.
End RowsOk.

(* the abstraction, pointwise *)
(* frame f is allocated according to the metadata *)
Definition alloc_at (g : geom) (l : lower) (f : N) : bool :=
  (f <? frames l) &&
  match ent l (f / HF g), bf l (f / HF g) with
  | Some e, Some rows => e_huge e || N.testbit (rows_bits rows) (f mod HF g)
  | _, _ => false
  end.

(* huge frame h is allocated whole *)
Definition whole_at (l : lower) (h : N) : bool :=
  match ent l h, bf l h with Some e, Some _ => e_huge e | _, _ => false end.

Lemma nth_error_nil {A} n : @nth_error A [] n = None.
Proof. destruct n; reflexivity. Qed.

Lemma whole_from_testbit : forall es bs h,
  N.testbit (whole_from es bs) h =
  match nth_error es (nn h), nth_error bs (nn h) with Some e, Some _ => e_huge e | _, _ => false end.
Proof.
  induction es as [|e es IH]; intros bs h.
  - cbn [whole_from]. rewrite N.bits_0, nth_error_nil. reflexivity.
  - destruct bs as [|rows bs]; cbn [whole_from].
    + rewrite N.bits_0, nth_error_nil. destruct (nth_error (e :: es) (nn h)); reflexivity.
    + rewrite N.lor_spec. destruct (N.eq_dec h 0) as [->|Hn].
      * rewrite N.shiftl_spec_low by lia. rewrite orb_false_r. cbn [nn N.to_nat nth_error].
        destruct (e_huge e); reflexivity.
      * rewrite N.shiftl_spec_high' by lia. rewrite IH.
        assert (T : N.testbit (if e_huge e then 1 else 0) h = false).
        { apply (testbit_high _ 1); [destruct (e_huge e); reflexivity|lia]. }
        rewrite T. cbn [orb]. unfold nn.
        replace (N.to_nat h) with (S (N.to_nat (h - 1))) by lia. reflexivity.
Qed.

Section Abs.
  Variable g : geom.
  Hypothesis WF : wf_geom g.

  Lemma ones_lt n : N.ones n < 2 ^ n.
  Proof.
    rewrite N.ones_equiv. assert (2 ^ n <> 0) by (apply N.pow_nonzero; discriminate). lia.
  Qed.

  Lemma huge_bits_lt e rows : rows_ok g rows -> huge_bits g e rows < 2 ^ HF g.
  Proof.
    intros H. unfold huge_bits. destruct (e_huge e); [apply ones_lt|apply rows_bits_lt_HF; assumption].
  Qed.

  Lemma huge_bits_testbit e rows i : i < HF g ->
    N.testbit (huge_bits g e rows) i = e_huge e || N.testbit (rows_bits rows) i.
  Proof.
    intros Hi. unfold huge_bits, ones. destruct (e_huge e); [|reflexivity].
    apply N.ones_spec_low. exact Hi.
  Qed.

  Lemma abs_from_testbit : forall es bs,
    (forall h e rows, nth_error es h = Some e -> nth_error bs h = Some rows -> rows_ok g rows) ->
    forall f, N.testbit (abs_from g es bs) f =
      match nth_error es (nn (f / HF g)), nth_error bs (nn (f / HF g)) with
      | Some e, Some rows => N.testbit (huge_bits g e rows) (f mod HF g)
      | _, _ => false
      end.
  Proof.
    induction es as [|e es IH]; intros bs Hok f.
    - cbn [abs_from]. rewrite N.bits_0, nth_error_nil. reflexivity.
    - destruct bs as [|rows bs]; cbn [abs_from].
      + rewrite N.bits_0, nth_error_nil. destruct (nth_error (e :: es) (nn (f / HF g))); reflexivity.
      + rewrite N.lor_spec.
        pose proof (HF_nz g) as Hnz.
        pose proof (N.div_mod f (HF g) Hnz) as E. pose proof (N.mod_lt f (HF g) Hnz) as L.
        destruct (N.lt_ge_cases f (HF g)) as [Hf|Hf].
        * rewrite N.shiftl_spec_low by assumption. rewrite orb_false_r.
          rewrite (N.div_small f _ Hf), (N.mod_small f _ Hf). reflexivity.
        * assert (Hr : rows_ok g rows) by (apply (Hok O e rows); reflexivity).
          rewrite (testbit_high _ _ f (huge_bits_lt e rows Hr) Hf).
          rewrite N.shiftl_spec_high' by assumption. cbn [orb].
          rewrite IH by (intros h e' r' H1 H2; apply (Hok (S h) e' r'); assumption).
          assert (Ed : (f - HF g) / HF g = f / HF g - 1).
          { symmetry. apply (N.div_unique _ _ _ (f mod HF g)); [assumption|].
            rewrite N.mul_sub_distr_l. assert (1 <= f / HF g) by nia. nia. }
          assert (Em : (f - HF g) mod HF g = f mod HF g).
          { symmetry. apply (N.mod_unique _ _ (f / HF g - 1)); [assumption|].
            rewrite N.mul_sub_distr_l. assert (1 <= f / HF g) by nia. nia. }
          rewrite Ed, Em. unfold nn.
          assert (1 <= f / HF g) by nia.
          replace (N.to_nat (f / HF g)) with (S (N.to_nat (f / HF g - 1))) by lia. reflexivity.
  Qed.

  (* the part of LowerInv the pointwise reading needs *)
  Definition bfs_ok (l : lower) : Prop :=
    forall h e rows, nth_error (ents l) h = Some e -> nth_error (bfs l) h = Some rows -> rows_ok g rows.

  Lemma LowerInv_bfs_ok l : LowerInv g l -> bfs_ok l.
  Proof. intros (_ & _ & H & _) h e rows He Hb. apply (H h e rows He Hb). Qed.

  Lemma abs_frames l : o_frames (abs g l) = frames l.
  Proof. reflexivity. Qed.

  Lemma abs_alloc_testbit_gen l : bfs_ok l -> forall f, N.testbit (o_alloc (abs g l)) f = alloc_at g l f.
  Proof.
    intros Hok f. unfold abs, alloc_at, ent, bf; cbn. rewrite N.land_spec, abs_from_testbit by exact Hok.
    unfold ones.
    destruct (N.ltb_spec f (frames l)) as [Hf|Hf].
    - rewrite N.ones_spec_low by assumption. rewrite andb_true_r. cbn [andb].
      destruct (nth_error (ents l) (nn (f / HF g))) as [e|]; [|reflexivity].
      destruct (nth_error (bfs l) (nn (f / HF g))) as [rows|]; [|reflexivity].
      apply huge_bits_testbit. apply N.mod_lt, HF_nz.
    - rewrite N.ones_spec_high by assumption. apply andb_false_r.
  Qed.

  Lemma abs_alloc_testbit l : LowerInv g l -> forall f, N.testbit (o_alloc (abs g l)) f = alloc_at g l f.
  Proof. intros H. apply abs_alloc_testbit_gen, LowerInv_bfs_ok, H. Qed.

  Lemma abs_whole_testbit_gen l h : N.testbit (o_whole (abs g l)) h = whole_at l h.
  Proof. unfold abs, whole_at, ent, bf; cbn. apply whole_from_testbit. Qed.

  Lemma abs_whole_testbit l : LowerInv g l -> forall h,
    N.testbit (o_whole (abs g l)) h =
    match ent l h, bf l h with Some e, Some _ => e_huge e | _, _ => false end.
  Proof. intros _ h. apply abs_whole_testbit_gen. Qed.
End Abs.

(* cas_all *)
Lemma empty_range_test (h j : nat) : ((h <=? j)%nat && (j <? h + 0)%nat) = false.
Proof. destruct (Nat.leb_spec h j), (Nat.ltb_spec j (h + 0)); try reflexivity; lia. Qed.

Lemma cas_all_some : forall n es h cur new es', cas_all es h n cur new = Some es' ->
  length es' = length es /\
  (forall j, (h <= j < h + n)%nat -> nth_error es j = Some cur) /\
  (forall j, nth_error es' j = if (h <=? j)%nat && (j <? h + n)%nat then Some new else nth_error es j).
Proof.
  induction n as [|n IH]; intros es h cur new es' H; cbn [cas_all] in H.
  - injection H as <-. repeat split; [intros; lia|]. intros j. rewrite empty_range_test. reflexivity.
  - destruct (nth_error es h) as [e|] eqn:E; [|discriminate].
    destruct (N.eqb_spec e cur) as [->|]; [|discriminate].
    apply IH in H. destruct H as (Hl & Hc & Hn). rewrite upd_length in Hl.
    assert (Hh : (h < length es)%nat) by (apply nth_error_Some; congruence).
    repeat split; [exact Hl| |].
    + intros j Hj. destruct (Nat.eq_dec j h) as [->|Hne]; [exact E|].
      rewrite <- (nth_error_upd_other es h j new) by lia. apply Hc. lia.
    + intros j. rewrite Hn.
      destruct (Nat.leb_spec (S h) j), (Nat.ltb_spec j (S h + n)), (Nat.leb_spec h j), (Nat.ltb_spec j (h + S n));
        cbn [andb]; try lia; try reflexivity;
        first [ apply nth_error_upd_other; lia
              | assert (j = h) by lia; subst j; apply nth_error_upd_same; exact Hh ].
Qed.

Lemma cas_all_none : forall n es h cur new, cas_all es h n cur new = None ->
  exists j, (h <= j < h + n)%nat /\ nth_error es j <> Some cur.
Proof.
  induction n as [|n IH]; intros es h cur new H; cbn [cas_all] in H; [discriminate|].
  destruct (nth_error es h) as [e|] eqn:E.
  - destruct (N.eqb_spec e cur) as [->|Hne].
    + apply IH in H. destruct H as (j & Hj & Hn). exists j. split; [lia|].
      rewrite nth_error_upd_other in Hn by lia. exact Hn.
    + exists h. split; [lia|]. rewrite E. congruence.
  - exists h. split; [lia|]. rewrite E. discriminate.
Qed.

Lemma cas_all_complete : forall n es h cur new,
  (forall j, (h <= j < h + n)%nat -> nth_error es j = Some cur) ->
  exists es', cas_all es h n cur new = Some es'.
Proof.
  induction n as [|n IH]; intros es h cur new H; cbn [cas_all]; [eexists; reflexivity|].
  rewrite (H h) by lia. rewrite N.eqb_refl. apply IH.
  intros j Hj. rewrite nth_error_upd_other by lia. apply H. lia.
Qed.

Lemma cas_all_someN es h n cur new es' :
  cas_all es (nn h) (nn n) cur new = Some es' ->
  length es' = length es /\
  (forall j, h <= j < h + n -> nth_error es (nn j) = Some cur) /\
  (forall j, nth_error es' (nn j) = if (h <=? j) && (j <? h + n) then Some new else nth_error es (nn j)).
Proof.
  intros H. apply cas_all_some in H. destruct H as (Hl & Hc & Hn). split; [exact Hl|]. split.
  - intros j Hj. apply Hc. unfold nn. lia.
  - intros j. rewrite Hn. unfold nn.
    destruct (Nat.leb_spec (N.to_nat h) (N.to_nat j)), (Nat.ltb_spec (N.to_nat j) (N.to_nat h + N.to_nat n)),
      (N.leb_spec h j), (N.ltb_spec j (h + n)); cbn [andb]; try reflexivity; lia.
Qed.

(* state updates *)
Lemma nn_inj a b : nn a = nn b -> a = b.
Proof. unfold nn. lia. Qed.

Lemma ent_set_ent_same l h e : ent l h <> None -> ent (set_ent l h e) h = Some e.
Proof. unfold ent, set_ent; cbn. intros H. apply nth_error_upd_same, nth_error_Some, H. Qed.

Lemma ent_set_ent_other l h e h' : h' <> h -> ent (set_ent l h e) h' = ent l h'.
Proof.
  unfold ent, set_ent; cbn. intros H. apply nth_error_upd_other. intros E. apply nn_inj in E. congruence.
Qed.

Lemma bf_set_ent l h e h' : bf (set_ent l h e) h' = bf l h'.
Proof. reflexivity. Qed.

Lemma ent_set_bf l h rows h' : ent (set_bf l h rows) h' = ent l h'.
Proof. reflexivity. Qed.

Lemma bf_set_bf_same l h rows : bf l h <> None -> bf (set_bf l h rows) h = Some rows.
Proof. unfold bf, set_bf; cbn. intros H. apply nth_error_upd_same, nth_error_Some, H. Qed.

Lemma bf_set_bf_other l h rows h' : h' <> h -> bf (set_bf l h rows) h' = bf l h'.
Proof.
  unfold bf, set_bf; cbn. intros H. apply nth_error_upd_other. intros E. apply nn_inj in E. congruence.
Qed.

Lemma frames_set_ent l h e : frames (set_ent l h e) = frames l.
Proof. reflexivity. Qed.
Lemma frames_set_bf l h rows : frames (set_bf l h rows) = frames l.
Proof. reflexivity. Qed.

Section Inv.
  Variable g : geom.
  Hypothesis WF : wf_geom g.

  Lemma nbf_le_ntab fr : nbf g fr <= ntab g fr * THUGE g.
  Proof.
    unfold nbf, ntab. apply div_ceil_le; [apply HF_nz|].
    pose proof (div_ceil_ge fr (TF g) (TF_nz g)) as H. set (m := div_ceil fr (TF g)) in *.
    rewrite TF_eq in H. lia.
  Qed.

  Lemma frame_lt_nbf fr f : f < fr -> f / HF g < nbf g fr.
  Proof. apply div_lt_div_ceil, HF_nz. Qed.

  Lemma frame_lt_ntab fr f : f < fr -> f / TF g < ntab g fr.
  Proof. apply div_lt_div_ceil, TF_nz. Qed.

  Lemma nbf_lt_inv fr h : h < nbf g fr -> h * HF g < fr.
  Proof. apply div_ceil_lt_inv, HF_nz. Qed.

  Lemma div_TF f : f / TF g = f / HF g / THUGE g.
  Proof. rewrite TF_eq, N.mul_comm. symmetry. apply N.div_div; [apply HF_nz|apply THUGE_nz]. Qed.

  (* N-indexed reading of LowerInv *)
  Lemma LowerInv_huge_ok l h e rows :
    LowerInv g l -> ent l h = Some e -> bf l h = Some rows -> huge_ok g (frames l) h e rows.
  Proof.
    intros (_ & _ & H & _) He Hb. specialize (H (nn h) e rows He Hb).
    unfold nn in H. rewrite N2Nat.id in H. exact H.
  Qed.

  Lemma LowerInv_no_bf l h e : LowerInv g l -> ent l h = Some e -> bf l h = None -> e = 0.
  Proof. intros (_ & _ & _ & H) He Hb. exact (H (nn h) e He Hb). Qed.

  Lemma LowerInv_bf_some l h : LowerInv g l -> h < nbf g (frames l) -> exists rows, bf l h = Some rows.
  Proof.
    intros (Hl & _) Hh. unfold bf. destruct (nth_error (bfs l) (nn h)) as [r|] eqn:E; [eauto|].
    apply nth_error_None in E. unfold nn in *. lia.
  Qed.

  Lemma LowerInv_bf_lt l h rows : LowerInv g l -> bf l h = Some rows -> h < nbf g (frames l).
  Proof.
    intros (Hl & _) Hb. unfold bf in Hb.
    assert (nth_error (bfs l) (nn h) <> None) as Hn by congruence.
    apply nth_error_Some in Hn. unfold nn in *. lia.
  Qed.

  Lemma LowerInv_ent_some l h : LowerInv g l -> h < ntab g (frames l) * THUGE g -> exists e, ent l h = Some e.
  Proof.
    intros (_ & Hl & _) Hh. unfold ent. destruct (nth_error (ents l) (nn h)) as [r|] eqn:E; [eauto|].
    apply nth_error_None in E. unfold nn in *. lia.
  Qed.

  Lemma LowerInv_ent_lt l h e : LowerInv g l -> ent l h = Some e -> h < ntab g (frames l) * THUGE g.
  Proof.
    intros (_ & Hl & _) Hb. unfold ent in Hb.
    assert (nth_error (ents l) (nn h) <> None) as Hn by congruence.
    apply nth_error_Some in Hn. unfold nn in *. lia.
  Qed.

  Lemma LowerInv_frame l f : LowerInv g l -> f < frames l ->
    exists e rows, ent l (f / HF g) = Some e /\ bf l (f / HF g) = Some rows.
  Proof.
    intros H Hf. pose proof (frame_lt_nbf _ _ Hf) as Hb. pose proof (nbf_le_ntab (frames l)) as Hle.
    destruct (LowerInv_bf_some l _ H Hb) as (rows & Er).
    destruct (LowerInv_ent_some l (f / HF g) H) as (e & Ee); [lia|]. eauto.
  Qed.

  Lemma has_tree_spec l t : LowerInv g l -> has_tree g l t = true <-> t < ntab g (frames l).
  Proof.
    intros (_ & Hl & _). unfold has_tree. rewrite Hl. unfold nn. rewrite N2Nat.id, N.leb_le.
    pose proof (THUGE_pos g). split; intros; nia.
  Qed.

  (* replacing entry and bitfield of one huge frame *)
  Lemma LowerInv_set l h e' rows' :
    LowerInv g l -> ent l h <> None -> bf l h <> None ->
    huge_ok g (frames l) h e' rows' ->
    LowerInv g (set_bf (set_ent l h e') h rows').
  Proof.
    intros (L1 & L2 & L3 & L4) He Hb Hok. unfold LowerInv, set_bf, set_ent; cbn.
    rewrite !upd_length. split; [exact L1|]. split; [exact L2|]. split.
    - intros j e rows Hj Hr. destruct (Nat.eq_dec j (nn h)) as [->|Hne].
      + rewrite nth_error_upd_same in Hj by (apply nth_error_Some; exact He).
        rewrite nth_error_upd_same in Hr by (apply nth_error_Some; exact Hb).
        injection Hj as <-. injection Hr as <-. unfold nn. rewrite N2Nat.id. exact Hok.
      + rewrite nth_error_upd_other in Hj by congruence.
        rewrite nth_error_upd_other in Hr by congruence. apply (L3 j e rows Hj Hr).
    - intros j e Hj Hr. destruct (Nat.eq_dec j (nn h)) as [->|Hne].
      + rewrite nth_error_upd_same in Hr by (apply nth_error_Some; exact Hb). discriminate.
      + rewrite nth_error_upd_other in Hj by congruence.
        rewrite nth_error_upd_other in Hr by congruence. apply (L4 j e Hj Hr).
  Qed.

  (* the invariant from its N-indexed reading *)
  Lemma LowerInv_intro l :
    length (bfs l) = nn (nbf g (frames l)) -> length (ents l) = nn (ntab g (frames l) * THUGE g) ->
    (forall h e rows, ent l h = Some e -> bf l h = Some rows -> huge_ok g (frames l) h e rows) ->
    (forall h e, ent l h = Some e -> bf l h = None -> e = 0) -> LowerInv g l.
  Proof.
    intros L1 L2 H3 H4. split; [exact L1|]. split; [exact L2|]. split.
    - intros j e rows Hj Hr. specialize (H3 (N.of_nat j) e rows). unfold ent, bf, nn in H3.
      rewrite Nat2N.id in H3. auto.
    - intros j e Hj Hr. specialize (H4 (N.of_nat j) e). unfold ent, bf, nn in H4.
      rewrite Nat2N.id in H4. auto.
  Qed.

  (* replacing only entries *)
  Lemma LowerInv_set_ents l es' :
    LowerInv g l -> length es' = length (ents l) ->
    (forall h e rows, nth_error es' (nn h) = Some e -> bf l h = Some rows -> huge_ok g (frames l) h e rows) ->
    (forall h e, nth_error es' (nn h) = Some e -> bf l h = None -> e = 0) ->
    LowerInv g {| frames := frames l; bfs := bfs l; ents := es' |}.
  Proof.
    intros (L1 & L2 & _) Hl H3 H4. apply LowerInv_intro; [exact L1 | cbn [ents frames]; congruence | exact H3 | exact H4].
  Qed.

  Lemma huge_okb_sound fr h e rows : huge_okb g fr h e rows = true -> huge_ok g fr h e rows.
  Proof.
    unfold huge_okb. rewrite !andb_true_iff. intros (((Hlen & Hw) & Hcase) & Hhi).
    apply Nat.eqb_eq in Hlen. rewrite forallb_forall in Hw.
    assert (Hrows : rows_ok g rows).
    { split; [exact Hlen|]. apply Forall_forall. intros x Hx. apply N.ltb_lt, Hw, Hx. }
    split; [exact Hrows|]. split; [|split].
    - intros ->. change (MARK =? MARK) with true in Hcase. cbv iota in Hcase.
      apply andb_true_iff in Hcase. destruct Hcase as (Hz & Hle). split.
      + rewrite forallb_forall in Hz. apply Forall_forall. intros x Hx. apply N.eqb_eq, Hz, Hx.
      + apply N.leb_le, Hle.
    - intros Hne. destruct (N.eqb_spec e MARK) as [|_]; [contradiction|].
      apply andb_true_iff in Hcase. destruct Hcase as (Hz & Hle).
      apply N.eqb_eq in Hz. apply N.leb_le in Hle. split; assumption.
    - intros i Hi Hfr. cbv zeta in Hhi. apply N.eqb_eq in Hhi.
      apply (proj1 (land_blk_full _ _ _) Hhi).
      destruct (N.leb_spec fr (h * HF g)); lia.
  Qed.

  Lemma lower_invb_from_sound fr : forall es bs h, lower_invb_from g fr h es bs = true ->
    (forall j e rows, nth_error es j = Some e -> nth_error bs j = Some rows ->
                      huge_ok g fr (h + N.of_nat j) e rows) /\
    (forall j e, nth_error es j = Some e -> nth_error bs j = None -> e = 0).
  Proof.
    induction es as [|e es IH]; intros bs h H.
    - split; intros j; rewrite nth_error_nil; discriminate.
    - destruct bs as [|rows bs]; cbn [lower_invb_from] in H.
      + split; intros j e'; [rewrite nth_error_nil; discriminate|].
        intros Hj _. rewrite forallb_forall in H. apply N.eqb_eq, H. apply (nth_error_In _ _ Hj).
      + apply andb_true_iff in H. destruct H as (H0 & H). apply IH in H. destruct H as (IH1 & IH2).
        split.
        * intros [|j] e' rows'; cbn [nth_error]; intros Hj Hr.
          -- injection Hj as <-. injection Hr as <-. rewrite N.add_0_r. apply huge_okb_sound, H0.
          -- replace (h + N.of_nat (S j)) with (h + 1 + N.of_nat j) by lia. apply IH1; assumption.
        * intros [|j] e'; cbn [nth_error]; intros Hj Hr; [discriminate|]. apply (IH2 j); assumption.
  Qed.

  Lemma lower_invb_sound l : lower_invb g l = true -> LowerInv g l.
  Proof.
    unfold lower_invb. rewrite !andb_true_iff. intros ((H1 & H2) & H3).
    apply Nat.eqb_eq in H1. apply Nat.eqb_eq in H2.
    apply lower_invb_from_sound in H3. destruct H3 as (H3 & H4).
    split; [exact H1|]. split; [exact H2|]. split; [|exact H4].
    intros h e rows He Hr. apply (H3 h e rows He Hr).
  Qed.
End Inv.

(* tree_free as a sum over the entries of the tree *)
Definition efree_at (es : list N) (j : nat) : N :=
  match nth_error es j with Some e => e_free e | None => 0 end.

Fixpoint nsum (n : nat) (f : nat -> N) : N :=
  match n with O => 0 | S n' => f O + nsum n' (fun j => f (S j)) end.

Lemma nsum_ext : forall n f f', (forall j, (j < n)%nat -> f j = f' j) -> nsum n f = nsum n f'.
Proof.
  induction n as [|n IH]; intros f f' H; cbn [nsum]; [reflexivity|].
  rewrite (H O) by lia. f_equal. apply IH. intros j Hj. apply H. lia.
Qed.

Lemma nsum_zero : forall n f, (forall j, (j < n)%nat -> f j = 0) -> nsum n f = 0.
Proof.
  induction n as [|n IH]; intros f H; cbn [nsum]; [reflexivity|].
  rewrite (H O) by lia. rewrite IH; [reflexivity|]. intros j Hj. apply H. lia.
Qed.

Lemma nsum_add : forall n f f' dd, (forall j, (j < n)%nat -> f' j + dd j = f j) ->
  nsum n f' + nsum n dd = nsum n f.
Proof.
  induction n as [|n IH]; intros f f' dd H; cbn [nsum]; [reflexivity|].
  pose proof (H O ltac:(lia)) as H0.
  pose proof (IH (fun j => f (S j)) (fun j => f' (S j)) (fun j => dd (S j))) as IH'.
  cbv beta in IH'. rewrite <- IH' by (intros j Hj; apply H; lia). lia.
Qed.

Lemma nsum_le : forall n f b, (forall j, (j < n)%nat -> f j <= b) -> nsum n f <= N.of_nat n * b.
Proof.
  induction n as [|n IH]; intros f b H; cbn [nsum]; [lia|].
  pose proof (H O ltac:(lia)). pose proof (IH (fun j => f (S j)) b) as IH'. cbv beta in IH'.
  specialize (IH' ltac:(intros j Hj; apply H; lia)). lia.
Qed.

Definition ind_range (a m : nat) (d : N) (j : nat) : N :=
  if (a <=? j)%nat && (j <? a + m)%nat then d else 0.

Lemma nsum_indicator : forall n a m d, (a + m <= n)%nat -> nsum n (ind_range a m d) = N.of_nat m * d.
Proof.
  induction n as [|n IH]; intros a m d H.
  - assert (m = O) by lia. subst m. cbn [nsum]. lia.
  - cbn [nsum]. destruct a as [|a].
    + destruct m as [|m].
      * rewrite nsum_zero; [unfold ind_range; cbn; lia|]. intros j Hj. unfold ind_range.
        destruct (Nat.leb_spec 0 (S j)), (Nat.ltb_spec (S j) (0 + 0)); cbn [andb]; try reflexivity; lia.
      * rewrite (nsum_ext n _ (ind_range 0 m d)).
        -- rewrite IH by lia. unfold ind_range. cbn [Nat.leb Nat.add andb]. 
           destruct (Nat.ltb_spec 0 (S m)); lia.
        -- intros j Hj. unfold ind_range.
           destruct (Nat.leb_spec 0 (S j)), (Nat.ltb_spec (S j) (0 + S m)),
             (Nat.leb_spec 0 j), (Nat.ltb_spec j (0 + m)); cbn [andb]; try reflexivity; lia.
    + rewrite (nsum_ext n _ (ind_range a m d)).
      * rewrite IH by lia. unfold ind_range. cbn [Nat.leb andb]. lia.
      * intros j Hj. unfold ind_range.
        destruct (Nat.leb_spec (S a) (S j)), (Nat.ltb_spec (S j) (S a + m)),
          (Nat.leb_spec a j), (Nat.ltb_spec j (a + m)); cbn [andb]; try reflexivity; lia.
Qed.

Lemma skipn_nth_cons {A} : forall (es : list A) r a, nth_error es r = Some a -> skipn r es = a :: skipn (S r) es.
Proof.
  induction es as [|x es IH]; intros r a H; [rewrite nth_error_nil in H; discriminate|].
  destruct r as [|r]; cbn [nth_error] in H.
  - injection H as <-. reflexivity.
  - cbn [skipn]. rewrite (IH r a H). reflexivity.
Qed.

Lemma skipn_nth_none {A} : forall (es : list A) r, nth_error es r = None -> skipn r es = [].
Proof. intros es r H. apply skipn_all2. apply nth_error_None, H. Qed.

Lemma fold_nsum (phi : N -> N) es : forall n r,
  fold_right (fun e a => phi e + a) 0 (firstn n (skipn r es)) =
  nsum n (fun j => match nth_error es (r + j) with Some e => phi e | None => 0 end).
Proof.
  induction n as [|n IH]; intros r; cbn [nsum]; [reflexivity|].
  destruct (nth_error es r) as [a|] eqn:E.
  - rewrite (skipn_nth_cons es r a E). cbn [firstn fold_right]. rewrite IH.
    rewrite Nat.add_0_r, E. f_equal.
    apply nsum_ext. intros j _. replace (S r + j)%nat with (r + S j)%nat by lia. reflexivity.
  - rewrite (skipn_nth_none es r E), firstn_nil. cbn [fold_right].
    rewrite Nat.add_0_r, E.
    rewrite nsum_zero; [reflexivity|]. intros j _.
    assert (N : nth_error es (r + S j) = None).
    { apply nth_error_None. apply nth_error_None in E. lia. }
    rewrite N. reflexivity.
Qed.

Lemma sum_free_nsum es : forall n r,
  fold_right (fun e a => e_free e + a) 0 (firstn n (skipn r es)) = nsum n (fun j => efree_at es (r + j)).
Proof. exact (fold_nsum e_free es). Qed.

Lemma tree_free_nsum g l t :
  tree_free g l t = nsum (thuge_nat g) (fun j => efree_at (ents l) (nn (t * THUGE g) + j)).
Proof. unfold tree_free. apply sum_free_nsum. Qed.

Lemma nn_tree_base g t : nn (t * THUGE g) = (nn t * thuge_nat g)%nat.
Proof. unfold nn. rewrite N2Nat.inj_mul, (THUGE_nat g), Nat2N.id. reflexivity. Qed.

(* entries [h, h + n) lie inside the tree of h when they do not cross a multiple of THUGE *)
Lemma tree_range g h n : h mod THUGE g + n <= THUGE g ->
  (nn (h / THUGE g * THUGE g) <= nn h)%nat /\ (nn h + nn n <= nn (h / THUGE g * THUGE g) + thuge_nat g)%nat.
Proof.
  intros Hfit. pose proof (N.div_mod h (THUGE g) (THUGE_nz g)) as D. pose proof (THUGE_nat g) as TN.
  rewrite N.mul_comm. unfold nn. revert D Hfit TN.
  generalize (thuge_nat g) (THUGE g) (h mod THUGE g) (THUGE g * (h / THUGE g)). intros; lia.
Qed.

(* entries [a, a+m), all inside tree t0, change their free count from d' to d; both sides of the
   hypothesis are summed over the tree (`nsum_add`), the two indicator sums are m * d' and m * d *)
Lemma tree_free_change_gen g l l' t0 a m d d' :
  (nn (t0 * THUGE g) <= a)%nat -> (a + m <= nn (t0 * THUGE g) + thuge_nat g)%nat ->
  (forall i, efree_at (ents l') i + ind_range a m d' i = efree_at (ents l) i + ind_range a m d i) ->
  forall t, tree_free g l' t + (if t =? t0 then N.of_nat m * d' else 0) =
            tree_free g l t + (if t =? t0 then N.of_nat m * d else 0).
Proof.
  intros H1 H2 Hch t. rewrite !tree_free_nsum. destruct (N.eqb_spec t t0) as [->|Hne].
  - rewrite <- (nsum_indicator (thuge_nat g) (a - nn (t0 * THUGE g)) m d),
      <- (nsum_indicator (thuge_nat g) (a - nn (t0 * THUGE g)) m d') by lia.
    assert (Sh : forall x j, ind_range (a - nn (t0 * THUGE g)) m x j = ind_range a m x (nn (t0 * THUGE g) + j)).
    { intros x j. unfold ind_range.
      destruct (Nat.leb_spec a (nn (t0 * THUGE g) + j)), (Nat.ltb_spec (nn (t0 * THUGE g) + j) (a + m)),
        (Nat.leb_spec (a - nn (t0 * THUGE g)) j), (Nat.ltb_spec j (a - nn (t0 * THUGE g) + m));
        cbn [andb]; try reflexivity; lia. }
    rewrite (nsum_add _ (fun j => efree_at (ents l') (nn (t0 * THUGE g) + j) + ind_range a m d' (nn (t0 * THUGE g) + j)))
      by (intros j _; rewrite Sh; reflexivity).
    rewrite (nsum_add _ (fun j => efree_at (ents l) (nn (t0 * THUGE g) + j) + ind_range a m d (nn (t0 * THUGE g) + j)))
      by (intros j _; rewrite Sh; reflexivity).
    apply nsum_ext. intros j _. apply Hch.
  - rewrite !N.add_0_r. apply nsum_ext. intros j Hj.
    assert (Z : forall x, ind_range a m x (nn (t * THUGE g) + j) = 0).
    { intros x. unfold ind_range. rewrite !nn_tree_base in *.
      assert (nn t <> nn t0) by (unfold nn; lia).
      destruct (Nat.leb_spec a (nn t * thuge_nat g + j)),
        (Nat.ltb_spec (nn t * thuge_nat g + j) (a + m)); cbn [andb]; try reflexivity. nia. }
    pose proof (Hch (nn (t * THUGE g) + j)%nat) as E. rewrite !Z, !N.add_0_r in E. exact E.
Qed.

(* the form in which `cas_all_some` and an update of one entry describe the new entries *)
Lemma tree_free_ents g l es h n c c' : h mod THUGE g + n <= THUGE g ->
  (forall j, (nn h <= j < nn h + nn n)%nat -> nth_error (ents l) j = Some c) ->
  (forall j, nth_error es j = if (nn h <=? j)%nat && (j <? nn h + nn n)%nat then Some c' else nth_error (ents l) j) ->
  forall t, tree_free g {| frames := frames l; bfs := bfs l; ents := es |} t + (if t =? h / THUGE g then n * e_free c else 0) =
            tree_free g l t + (if t =? h / THUGE g then n * e_free c' else 0).
Proof.
  intros Hfit Hold Hnew t. destruct (tree_range g h n Hfit) as (R1 & R2).
  pose proof (tree_free_change_gen g l {| frames := frames l; bfs := bfs l; ents := es |}
                (h / THUGE g) (nn h) (nn n) (e_free c') (e_free c) R1 R2) as TC.
  replace (N.of_nat (nn n)) with n in TC by (symmetry; apply N2Nat.id). apply TC. clear TC.
  intros i. cbn [ents]. unfold efree_at, ind_range. rewrite Hnew.
  destruct ((nn h <=? i)%nat && (i <? nn h + nn n)%nat) eqn:R; [|reflexivity].
  apply andb_true_iff in R. destruct R as (Ra & Rb). apply Nat.leb_le in Ra. apply Nat.ltb_lt in Rb.
  rewrite (Hold i (conj Ra Rb)). apply N.add_comm.
Qed.

(* updates of cells (entry and bitfield of a huge frame), read pointwise *)
Section Cells.
  Variable g : geom.
  Hypothesis WF : wf_geom g.

  Lemma abs_eq l s : LowerInv g l -> frames l = o_frames s ->
    (forall i, alloc_at g l i = N.testbit (o_alloc s) i) ->
    (forall h, whole_at l h = N.testbit (o_whole s) h) -> abs g l = s.
  Proof.
    intros Inv Hf Ha Hw. apply ospec_ext; [exact Hf | |].
    - intros i. rewrite (abs_alloc_testbit g WF l Inv). apply Ha.
    - intros h. rewrite abs_whole_testbit_gen. apply Hw.
  Qed.

  Lemma e_huge_le e : e <= HF g -> e_huge e = false.
  Proof. intros H. unfold e_huge. apply N.eqb_neq. pose proof (HF_lt_MARK g WF). lia. Qed.

  Lemma e_huge_false e : e <> MARK -> e_huge e = false.
  Proof. intros H. unfold e_huge. apply N.eqb_neq, H. Qed.

  Lemma e_huge_MARK : e_huge MARK = true.
  Proof. reflexivity. Qed.

  Lemma in_huge_divmod h i : h * HF g <= i < h * HF g + HF g -> i / HF g = h /\ i mod HF g = i - h * HF g.
  Proof.
    intros Hi. pose proof (HF_nz g) as Hnz. split.
    - symmetry. apply (N.div_unique i (HF g) h (i - h * HF g)); lia.
    - symmetry. apply (N.mod_unique i (HF g) h (i - h * HF g)); lia.
  Qed.

  Lemma huge_of_frame i : (i / HF g) * HF g <= i < (i / HF g) * HF g + HF g.
  Proof.
    pose proof (HF_nz g) as Hnz.
    pose proof (N.div_mod i (HF g) Hnz) as D. pose proof (N.mod_lt i (HF g) Hnz) as L.
    revert D L. generalize (i / HF g) (i mod HF g). intros; lia.
  Qed.

  Lemma alloc_at_eq l i e rows : ent l (i / HF g) = Some e -> bf l (i / HF g) = Some rows ->
    alloc_at g l i = (i <? frames l) && (e_huge e || N.testbit (rows_bits rows) (i mod HF g)).
  Proof. intros He Hb. unfold alloc_at. rewrite He, Hb. reflexivity. Qed.

  Lemma div_range_in h n i : h * HF g <= i < (h + n) * HF g -> h <= i / HF g < h + n.
  Proof.
    intros Hi. pose proof (HF_pos g) as Hp. split.
    - apply N.div_le_lower_bound; lia.
    - apply N.div_lt_upper_bound; lia.
  Qed.

  Lemma free_huge_entry l h : LowerInv g l -> (h + 1) * HF g <= frames l ->
    (forall i, h * HF g <= i < h * HF g + HF g -> alloc_at g l i = false) -> ent l h = Some (HF g).
  Proof.
    intros Inv Hfr Hfree. pose proof (HF_pos g) as Hp.
    destruct (LowerInv_frame g l (h * HF g) Inv) as (e & rows & He & Hb); [lia|].
    rewrite N.div_mul in He, Hb by apply HF_nz.
    destruct (LowerInv_huge_ok g l h e rows Inv He Hb) as (Hok & _ & Hcnt & _).
    assert (Hbit : forall i, h * HF g <= i < h * HF g + HF g ->
                             e_huge e || N.testbit (rows_bits rows) (i - h * HF g) = false).
    { intros i Hi. specialize (Hfree i Hi). destruct (in_huge_divmod h i Hi) as (Ed & Em).
      rewrite (alloc_at_eq l i e rows) in Hfree by (rewrite Ed; assumption).
      rewrite Em in Hfree. destruct (N.ltb_spec i (frames l)); [exact Hfree|lia]. }
    assert (Hne : e <> MARK).
    { intros ->. specialize (Hbit (h * HF g)). rewrite e_huge_MARK in Hbit. cbn [orb] in Hbit.
      assert (true = false) by (apply Hbit; lia). discriminate. }
    assert (Z : rows_bits rows = 0).
    { apply N.bits_inj. intros i. rewrite N.bits_0. destruct (N.lt_ge_cases i (HF g)) as [Hi|Hi].
      - specialize (Hbit (h * HF g + i)). rewrite (e_huge_false e Hne) in Hbit. cbn [orb] in Hbit.
        replace (h * HF g + i - h * HF g) with i in Hbit by lia. apply Hbit. lia.
      - apply (rows_bits_high g WF rows i Hok Hi). }
    destruct (Hcnt Hne) as (Ecnt & _). pose proof (bf_count_zeros_sum g WF rows Hok) as S.
    rewrite Z in S. cbn [popcount] in S. rewrite He. f_equal. lia.
  Qed.

  Lemma tree_of_huge h t : h / THUGE g = t <-> t * THUGE g <= h < t * THUGE g + THUGE g.
  Proof.
    pose proof (THUGE_nz g) as Hnz. split.
    - intros <-. pose proof (N.div_mod h (THUGE g) Hnz) as D. pose proof (N.mod_lt h (THUGE g) Hnz) as L.
      revert D L. generalize (h / THUGE g) (h mod THUGE g). intros; lia.
    - intros Hh. symmetry. apply (N.div_unique h (THUGE g) t (h - t * THUGE g)); lia.
  Qed.

  Lemma aligned_huge f k : (hord g <= k)%nat -> f mod pow2 k = 0 ->
    f = (f / HF g) * HF g /\ (f / HF g) mod pow2 (k - hord g) = 0.
  Proof.
    intros Hk Hal. assert (Epow : pow2 k = pow2 (k - hord g) * HF g) by (rewrite HF_pow2; apply pow2_split, Hk).
    pose proof (aligned_mul f (pow2 k) (pow2_nz k) Hal) as Ef. rewrite Epow in Ef at 2.
    rewrite N.mul_assoc in Ef.
    assert (Eh : f / HF g = f / pow2 k * pow2 (k - hord g)).
    { rewrite Ef at 1. apply N.div_mul, HF_nz. }
    split; [rewrite Eh; exact Ef|]. rewrite Eh. apply N.mod_mul, pow2_nz.
  Qed.

  Lemma huge_index_fits h k : (hord g <= k)%nat -> (k <= tord g)%nat -> h mod pow2 (k - hord g) = 0 ->
    h mod THUGE g + pow2 (k - hord g) <= THUGE g.
  Proof.
    intros Hk Hkt Hal. unfold tord in Hkt. apply (aligned_fit_pow2 (k - hord g) (tlog g) h); [lia | exact Hal].
  Qed.

  (* a small aligned block, seen from its huge frame *)
  Lemma aligned_in_cell f k i : (k <= hord g)%nat -> f mod pow2 k = 0 ->
    (f <=? i) && (i <? f + pow2 k) =
    (i / HF g =? f / HF g) && ((f mod HF g <=? i mod HF g) && (i mod HF g <? f mod HF g + pow2 k)).
  Proof.
    intros Hk Ha. rewrite <- (in_cell (HF g) (f / HF g) (f mod HF g) (pow2 k) i (HF_nz g) (aligned_in_huge g f k Hk Ha)).
    rewrite <- (N.div_mod f (HF g) (HF_nz g)). reflexivity.
  Qed.

  (* the allocation bits of a small aligned block are bits of the cell of its huge frame *)
  Lemma block_alloc_at l f k e rows (b : bool) :
    (k <= hord g)%nat -> f mod pow2 k = 0 -> f + pow2 k <= frames l ->
    ent l (f / HF g) = Some e -> bf l (f / HF g) = Some rows ->
    (forall i, f <= i < f + pow2 k -> alloc_at g l i = b) <->
    (forall t, f mod HF g <= t < f mod HF g + pow2 k -> e_huge e || N.testbit (rows_bits rows) t = b).
  Proof.
    intros Hk Ha Hr He Hb. pose proof (aligned_in_huge g f k Hk Ha) as Hfit.
    pose proof (N.div_mod f (HF g) (HF_nz g)) as Df.
    assert (Hcell : forall i, f <= i < f + pow2 k ->
              alloc_at g l i = e_huge e || N.testbit (rows_bits rows) (i mod HF g) /\
              f mod HF g <= i mod HF g < f mod HF g + pow2 k).
    { intros i Hi. pose proof (aligned_in_cell f k i Hk Ha) as Hpos.
      replace ((f <=? i) && (i <? f + pow2 k)) with true in Hpos
        by (symmetry; apply andb_true_iff; split; [apply N.leb_le | apply N.ltb_lt]; apply Hi).
      symmetry in Hpos. apply andb_true_iff in Hpos. destruct Hpos as (E & Hpos). apply N.eqb_eq in E.
      apply andb_true_iff in Hpos. destruct Hpos as (P1 & P2). apply N.leb_le in P1. apply N.ltb_lt in P2.
      split; [|split; assumption]. unfold alloc_at. rewrite E, He, Hb.
      replace (i <? frames l) with true; [reflexivity|].
      symmetry. apply N.ltb_lt. apply N.lt_le_trans with (f + pow2 k); [apply Hi | exact Hr]. }
    split.
    - intros H t Ht. assert (Lt : t < HF g) by (clear - Hfit Ht; lia).
      assert (HH : f <= HF g * (f / HF g) + t < f + pow2 k) by (clear - Df Ht; lia).
      destruct (Hcell _ HH) as (Ea & _). rewrite <- (H _ HH), Ea, (mod_mul_add _ _ _ Lt). reflexivity.
    - intros H i Hi. destruct (Hcell i Hi) as (Ea & Hp). rewrite Ea. apply H, Hp.
  Qed.

  Lemma alloc_at_set l h e' rows' i : ent l h <> None -> bf l h <> None ->
    alloc_at g (set_bf (set_ent l h e') h rows') i =
    if i / HF g =? h then (i <? frames l) && (e_huge e' || N.testbit (rows_bits rows') (i mod HF g))
    else alloc_at g l i.
  Proof.
    intros He Hb. unfold alloc_at. destruct (N.eqb_spec (i / HF g) h) as [->|E].
    - rewrite ent_set_bf, ent_set_ent_same, bf_set_bf_same by (try rewrite bf_set_ent; assumption). reflexivity.
    - rewrite ent_set_bf, ent_set_ent_other, bf_set_bf_other, bf_set_ent by exact E. reflexivity.
  Qed.

  Lemma whole_at_set l h e' rows' x : ent l h <> None -> bf l h <> None ->
    whole_at (set_bf (set_ent l h e') h rows') x = if x =? h then e_huge e' else whole_at l x.
  Proof.
    intros He Hb. unfold whole_at. destruct (N.eqb_spec x h) as [->|E].
    - rewrite ent_set_bf, ent_set_ent_same, bf_set_bf_same by (try rewrite bf_set_ent; assumption). reflexivity.
    - rewrite ent_set_bf, ent_set_ent_other, bf_set_bf_other, bf_set_ent by exact E. reflexivity.
  Qed.

  (* The bitfield of cell h is replaced by one whose block [p, p + w) is uniformly b and whose other
     bits are the cell's allocation bits (all set when the entry was a marker), and the entry by the
     new zero count: the allocation bits of the frames of the block become b, nothing else changes,
     and cell h is not (or no longer) a whole huge frame. *)
  Lemma cell_update l h e rows rows' p w (b : bool) :
    LowerInv g l -> ent l h = Some e -> bf l h = Some rows -> rows_ok g rows' ->
    p + w <= HF g -> HF g * h + p + w <= frames l ->
    (forall i, N.testbit (rows_bits rows') i =
               if (p <=? i) && (i <? p + w) then b else (e_huge e || N.testbit (rows_bits rows) i) && (i <? HF g)) ->
    let l' := set_bf (set_ent l h (bf_count_zeros rows')) h rows' in
    LowerInv g l' /\
    (forall i, alloc_at g l' i = if (HF g * h + p <=? i) && (i <? HF g * h + p + w) then b else alloc_at g l i) /\
    (forall x, whole_at l' x = whole_at l x && negb (x =? h)).
  Proof.
    intros Inv He Hb Hok' Hfit Hrange Hbits l'. pose proof (HF_nz g) as HP.
    destruct (LowerInv_huge_ok g l h e rows Inv He Hb) as (_ & _ & _ & Htail).
    pose proof (bf_count_zeros_le g WF rows' Hok') as Hle. pose proof (e_huge_le _ Hle) as Hnh.
    assert (Inv' : LowerInv g l').
    { apply LowerInv_set; [exact Inv | congruence | congruence |]. split; [exact Hok'|]. split; [|split].
      - intros E. rewrite E in Hnh. discriminate.
      - intros _. split; [reflexivity | exact Hle].
      - intros i Hi Hfr. rewrite Hbits, (Htail i Hi Hfr), orb_true_r.
        destruct (N.ltb_spec i (HF g)); [|lia]. rewrite (N.mul_comm h) in Hfr.
        destruct (N.leb_spec p i), (N.ltb_spec i (p + w)); cbn [andb]; try reflexivity. exfalso.
        revert Hrange Hfr. generalize (HF g * h) (frames l). intros; lia. }
    split; [exact Inv'|]. split.
    - intros i. unfold l'. rewrite alloc_at_set, (in_cell (HF g) h p w i HP Hfit) by congruence.
      destruct (N.eqb_spec (i / HF g) h) as [E|E]; cbn [andb]; [|reflexivity].
      rewrite Hnh, Hbits. cbn [orb]. unfold alloc_at. rewrite E, He, Hb.
      pose proof (N.div_mod i (HF g) HP) as D. pose proof (N.mod_lt i (HF g) HP) as L. rewrite E in D.
      destruct (N.leb_spec p (i mod HF g)), (N.ltb_spec (i mod HF g) (p + w)); cbn [andb].
      2-4: destruct (N.ltb_spec (i mod HF g) (HF g)); [rewrite andb_true_r; reflexivity | lia].
      destruct (N.ltb_spec i (frames l)) as [|Hge]; [reflexivity|]. exfalso.
      revert D Hrange Hge. generalize (HF g * h) (frames l). intros; lia.
    - intros x. unfold l'. rewrite whole_at_set by congruence.
      destruct (x =? h); [rewrite Hnh, andb_false_r | rewrite andb_true_r]; reflexivity.
  Qed.

  Lemma set_tree_free l h e e' rows' : ent l h = Some e ->
    forall t, tree_free g (set_bf (set_ent l h e') h rows') t + (if t =? h / THUGE g then e_free e else 0) =
              tree_free g l t + (if t =? h / THUGE g then e_free e' else 0).
  Proof.
    intros He t. rewrite <- (N.mul_1_l (e_free e)), <- (N.mul_1_l (e_free e')).
    assert (Hlen : (nn h < length (ents l))%nat) by (apply nth_error_Some; unfold ent in He; congruence).
    apply (tree_free_ents g l (upd (ents l) (nn h) e') h 1 e e').
    - pose proof (N.mod_lt h (THUGE g) (THUGE_nz g)). lia.
    - intros j Hj. replace j with (nn h) by (change (nn 1) with 1%nat in Hj; lia). exact He.
    - intros j. change (nn 1) with 1%nat.
      destruct (Nat.leb_spec (nn h) j), (Nat.ltb_spec j (nn h + 1)); cbn [andb];
        try (apply nth_error_upd_other; lia).
      replace j with (nn h) by lia. apply nth_error_upd_same, Hlen.
  Qed.

  (* under the invariant an entry that is a marker or the full count sits on an all-zero bitfield of a
     completely managed huge frame *)
  Lemma whole_cell l q c : LowerInv g l -> ent l q = Some c -> c = MARK \/ c = HF g ->
    exists rows, bf l q = Some rows /\ rows_ok g rows /\ Forall (fun r => r = 0) rows /\
                 (q + 1) * HF g <= frames l.
  Proof.
    intros Inv He Hc. pose proof (HF_pos g) as HP. pose proof (HF_lt_MARK g WF) as HM.
    destruct (bf l q) as [rows|] eqn:Hb.
    - destruct (LowerInv_huge_ok g l q c rows Inv He Hb) as (Hok & Hmark & Hcnt & Htail).
      exists rows. split; [reflexivity|]. split; [exact Hok|]. destruct Hc as [->| ->].
      + apply Hmark. reflexivity.
      + destruct Hcnt as (Ec & _); [lia|].
        assert (Z : Forall (fun r => r = 0) rows) by (apply (count_zeros_full_zero g WF rows Hok); congruence).
        split; [exact Z|].
        destruct (N.le_gt_cases ((q + 1) * HF g) (frames l)) as [|Hgt]; [assumption|]. exfalso.
        assert (T : N.testbit (rows_bits rows) (HF g - 1) = true) by (apply Htail; lia).
        rewrite (rows_zero_bits rows Z), N.bits_0 in T. discriminate.
    - pose proof (LowerInv_no_bf g l q c Inv He Hb). destruct Hc; lia.
  Qed.

  (* the entries of n whole cells from h go from c to c' (both a marker or the full count) *)
  Lemma cells_update l es h n c c' :
    LowerInv g l -> c = MARK \/ c = HF g -> c' = MARK \/ c' = HF g ->
    cas_all (ents l) (nn h) (nn n) c c' = Some es ->
    let l' := {| frames := frames l; bfs := bfs l; ents := es |} in
    LowerInv g l' /\
    (forall i, alloc_at g l' i = if (h <=? i / HF g) && (i / HF g <? h + n) then e_huge c' else alloc_at g l i) /\
    (forall x, whole_at l' x = if (h <=? x) && (x <? h + n) then e_huge c' else whole_at l x) /\
    (forall x, h <= x < h + n -> ent l x = Some c /\ (x + 1) * HF g <= frames l).
  Proof.
    intros Inv Hc Hc' C l'. pose proof (HF_nz g) as HP. pose proof (HF_lt_MARK g WF) as HM.
    apply cas_all_someN in C. destruct C as (Hlen & Hold & Hnew).
    assert (Hcell : forall x, h <= x < h + n ->
              exists rows, bf l x = Some rows /\ rows_ok g rows /\ Forall (fun r => r = 0) rows /\
                           (x + 1) * HF g <= frames l).
    { intros x Hx. apply (whole_cell l x c Inv (Hold x Hx) Hc). }
    assert (Hin : forall x, (h <=? x) && (x <? h + n) = true -> h <= x < h + n).
    { intros x R. apply andb_true_iff in R. destruct R as (R1 & R2).
      apply N.leb_le in R1. apply N.ltb_lt in R2. split; assumption. }
    assert (Inv' : LowerInv g l').
    { apply LowerInv_set_ents; [exact Inv | exact Hlen | |].
      - intros x e rows Hx Hb. rewrite Hnew in Hx. destruct ((h <=? x) && (x <? h + n)) eqn:R.
        + injection Hx as <-. destruct (Hcell x (Hin x R)) as (rows0 & Hb0 & Hok & Z & Hr).
          rewrite Hb in Hb0. injection Hb0 as <-. split; [exact Hok|]. split; [|split].
          * intros _. split; assumption.
          * intros Hne. destruct Hc' as [->| ->]; [contradiction|].
            split; [symmetry; apply (count_zeros_of_zero g WF rows Hok Z) | lia].
          * intros i Hi Hfr. exfalso. clear - Hi Hfr Hr. lia.
        + apply (LowerInv_huge_ok g l x e rows Inv Hx Hb).
      - intros x e Hx Hb. rewrite Hnew in Hx. destruct ((h <=? x) && (x <? h + n)) eqn:R.
        + destruct (Hcell x (Hin x R)) as (rows0 & Hb0 & _). congruence.
        + apply (LowerInv_no_bf g l x e Inv Hx Hb). }
    split; [exact Inv'|]. split; [|split].
    - intros i. unfold alloc_at. change (ent l' (i / HF g)) with (nth_error es (nn (i / HF g))).
      rewrite Hnew. destruct ((h <=? i / HF g) && (i / HF g <? h + n)) eqn:R; [|reflexivity].
      destruct (Hcell _ (Hin _ R)) as (rows & Hb & _ & Z & Hr). change (bf l' (i / HF g)) with (bf l (i / HF g)).
      rewrite Hb, (rows_zero_bits rows Z), N.bits_0, orb_false_r. change (frames l') with (frames l).
      pose proof (N.div_mod i (HF g) HP) as D. pose proof (N.mod_lt i (HF g) HP) as L.
      destruct (N.ltb_spec i (frames l)) as [|Hge]; [reflexivity|]. exfalso.
      rewrite N.mul_comm in Hr. clear - D L Hr Hge. lia.
    - intros x. unfold whole_at. change (ent l' x) with (nth_error es (nn x)). rewrite Hnew.
      destruct ((h <=? x) && (x <? h + n)) eqn:R; [|reflexivity].
      destruct (Hcell _ (Hin _ R)) as (rows & Hb & _). change (bf l' x) with (bf l x). rewrite Hb. reflexivity.
    - intros x Hx. destruct (Hcell x Hx) as (_ & _ & _ & _ & Hr). split; [apply Hold, Hx | exact Hr].
  Qed.
End Cells.
