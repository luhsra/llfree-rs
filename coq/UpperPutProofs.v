(* llfree_put, llfree_drain, change_tree: safety, invariant preservation, functional properties. *)
From Coq Require Import List NArith Bool Lia Permutation PeanoNat.
From LLF Require Import Base Row Bitfield Lower Spec Upper UpperInvDef LowerFacts AbsLemmas UpperPrims UpperLoopRule.

Lemma filter_nil {A} (f : A -> bool) l : (forall a, In a l -> f a = false) -> filter f l = [].
Proof. induction l; cbn [filter]; intros H; auto. rewrite (H a) by (left; auto). apply IHl. intros; apply H; right; auto. Qed.

Lemma nth_error_map_combine3 {A B C} (f : nat * (A * B) -> C) : forall (l1 : list A) (l2 : list B) s k a b,
  nth_error l1 k = Some a -> nth_error l2 k = Some b ->
  nth_error (map f (combine (seq s (length l1)) (combine l1 l2))) k = Some (f ((s + k)%nat, (a, b))).
Proof.
  induction l1 as [|a0 l1 IH]; intros l2 s k a b H1 H2.
  - destruct k; discriminate.
  - destruct l2 as [|b0 l2]; [destruct k; discriminate|].
    destruct k as [|k]; cbn in *.
    + inversion H1; inversion H2; subst. rewrite Nat.add_0_r. reflexivity.
    + rewrite (IH l2 (S s) k a b H1 H2). do 3 f_equal. lia.
Qed.

Section Put.
  Variable g : geom.
  Variable policy : N -> N -> N -> pol.
  Hypothesis WF : wf_geom g.
  Hypothesis LF : lower_facts g.
  Notation TF := (TF g).
  Notation UIC := (UpperInvL g policy (LowerInv g)).

  (* the slot index of a request is in range; the same condition as `valid_local` of UpperGetProofs.v
     (`GlueHistory.valid_req_local`) *)
  Definition valid_req (u : upper) (r : request) : Prop :=
    match r_local r with Some j => idx_ok u (r_class r) j | None => True end.

  Lemma class_locals_set_slot u c j s c' : class_locals (set_slot u c j s) c' = class_locals u c'.
  Proof.
    unfold class_locals. destruct (N.eq_dec c' c) as [->|Nc].
    - destruct (class_slots u c) eqn:E.
      + erewrite class_slots_set_slot_same by eauto. cbn [option_map]. rewrite upd_length. reflexivity.
      + unfold set_slot. rewrite E, E. reflexivity.
    - rewrite class_slots_set_slot_other; auto.
  Qed.

  (* `lower_put` turns the freed block into a credit of 2^order on its tree (`cr1`, through `UIL_with_low`);
     `locals_put` (the request's slot holds that tree) or else `trees_put` then consumes the credit *)
  Theorem llfree_put_correct x frame r res x' :
    UpperInv g policy x -> valid_req (us x) r ->
    ghost_lift (fun u => llfree_put g policy u frame r) x = (res, x') ->
    match check g (us x) frame r with
    | Err e => e = EArgument /\ res = Err EArgument /\ x' = x
    | Panic _ => False
    | Ok _ =>
        if spec_put_enabled g (abs g (low (us x))) frame (r_order r)
        then res = Ok tt /\ UpperInv g policy x' /\
             abs g (low (us x')) = spec_put g (abs g (low (us x))) frame (r_order r) /\
             off x' = off x /\ dflt (us x') = dflt (us x) /\
             (forall t, t <> frame / TF -> tree_at (us x') t = tree_at (us x) t) /\
             (forall c, class_locals (us x') c = class_locals (us x) c) /\
             (forall c j s, slot_at (us x) c j = Some s ->
                (s_pres s = false \/ row_tree g (s_row s) <> frame / TF) -> slot_at (us x') c j = Some s)
        else res = Err EMemory /\ x' = x
    end.
  Proof using WF LF.
    intros HI HV HP. unfold ghost_lift in HP.
    destruct (llfree_put g policy (us x) frame r) as (res0, u') eqn:EP. inversion HP; subst res0 x'. clear HP.
    unfold llfree_put in EP. pose proof (check_inv g (us x) frame r) as HC.
    destruct (check g (us x) frame r) as [[]|e|s]; auto.
    2:{ inversion EP; subst. splits; auto. destruct x; reflexivity. }
    destruct HC as (Hk & Hfr & Hal & Hcl).
    apply UpperInv_to_L in HI. pose proof (UIL_lower g policy (LowerInv g) _ _ _ HI) as HL.
    destruct (lower_put g (low (us x)) frame (r_order r)) as (rl, l') eqn:EL.
    pose proof (lf_put g LF _ _ _ _ _ HL Hk Hal Hfr EL) as HPut.
    destruct rl as [[]|e|s]; [| |destruct HPut].
    2:{ destruct HPut as (-> & -> & ->). inversion EP; subst. split; auto. rewrite with_low_id. destruct x; reflexivity. }
    destruct HPut as (-> & Habs & HL' & Hfr' & Htf).
    set (T := frame / TF) in *. set (n := pow2 (r_order r)) in *.
    set (cr1 := fun t => delta t T n).
    assert (H1 : UIC cr1 [] (mk x (with_low (us x) l'))).
    { apply (UIL_with_low g policy (LowerInv g) (fun _ => 0) cr1 [] x l' HI HL' Hfr'). intros t _. rewrite Htf. unfold cr1. lia. }
    assert (HT : T < ntrees (with_low (us x) l')).
    { change (ntrees (with_low (us x) l')) with (ntrees (us x)). rewrite (UIL_ntrees g policy (LowerInv g) _ _ _ HI).
      apply div_lt_ntab; auto. pose proof (pow2_pos (r_order r)). lia. }
    assert (PUT : forall r0 u0, trees_put g policy (with_low (us x) l') T n = (r0, u0) ->
       r0 = Ok tt /\ UpperInv g policy (mk x u0) /\ low u0 = l' /\ dflt u0 = dflt (us x) /\
       (forall t, t <> T -> tree_at u0 t = tree_at (us x) t) /\
       (forall c, class_locals u0 c = class_locals (us x) c) /\
       (forall c j s, slot_at (us x) c j = Some s -> slot_at u0 c j = Some s)).
    { intros r0 u0 E0.
      assert (A1 : n <= cr1 T) by (unfold cr1, delta; rewrite N.eqb_refl; lia).
      assert (A2 : forall j, (fun _ : N => 0) j + delta j T n = cr1 j) by (intros j; unfold cr1; lia).
      destruct (trees_put_L g policy (LowerInv g) (lf_bound g LF) cr1 (fun _ => 0) [] _ T n r0 u0 H1 HT A1 A2 E0) as (-> & H2 & t & t' & E1 & E2 & E3 & E4 & ->).
      splits; auto.
      + apply UpperInv_of_L. exact H2.
      + intros t0 Ht0. cbn [us mk]. rewrite tree_at_set_tree_other; auto. }
    destruct (r_local r) as [local|] eqn:ELoc.
    - unfold valid_req in HV. rewrite ELoc in HV.
      destruct (locals_put g (with_low (us x) l') (r_class r) local T n) as (rp, u2) eqn:ELP.
      assert (A1 : n <= cr1 T) by (unfold cr1, delta; rewrite N.eqb_refl; lia).
      destruct (locals_put_L g policy (LowerInv g) (lf_bound g LF) cr1 [] (mk x (with_low (us x) l')) (r_class r) local T n rp u2 H1 HV A1 ELP)
        as [(-> & -> & _) | (-> & s & Hs & Ps & Ts & -> & Hinv)].
      + cbn [us mk] in *. destruct (PUT _ _ EP) as (-> & Q1 & Q2 & Q3 & Q4 & Q5 & Q6).
        splits; cbn [us mk]; auto. rewrite Q2. auto.
      + cbn [us mk] in *. inversion EP; subst res u'. clear EP.
        change (slot_at (with_low (us x) l') (r_class r) local) with (slot_at (us x) (r_class r) local) in Hs.
        splits; auto.
        * apply UpperInv_of_L. apply Hinv. intros t. unfold cr1. lia.
        * cbn [us mk]. rewrite set_slot_low. auto.
        * cbn [us mk]. rewrite set_slot_dflt. auto.
        * intros t _. cbn [us mk]. unfold tree_at. rewrite set_slot_trees. reflexivity.
        * intros c. cbn [us mk]. rewrite class_locals_set_slot. reflexivity.
        * intros c j s0 Hs0 Hcond. cbn [us mk].
          destruct (N.eq_dec c (r_class r)) as [->|Nc]; [destruct (N.eq_dec j local) as [->|Nj]|].
          -- rewrite Hs in Hs0. inversion Hs0; subst s0. destruct Hcond; congruence.
          -- rewrite slot_at_set_slot_other; auto. congruence.
          -- rewrite slot_at_set_slot_other; auto. congruence.
    - destruct (PUT _ _ EP) as (-> & Q1 & Q2 & Q3 & Q4 & Q5 & Q6). splits; cbn [us mk]; auto. rewrite Q2. auto.
  Qed.
End Put.

Section Drain.
  Variable g : geom.
  Variable policy : N -> N -> N -> pol.
  Hypothesis WF : wf_geom g.
  Hypothesis LF : lower_facts g.
  Notation TF := (TF g).
  Notation UIC := (UpperInvL g policy (LowerInv g)).
  Notation UI0 := (UpperInvL g policy (LowerInv g) (fun _ => 0) []).

  Lemma resv_of_none c : resv_of g c slot_none = [].
  Proof. reflexivity. Qed.

  Lemma slot_at_set_tree u i t c j : slot_at (set_tree u i t) c j = slot_at u c j.
  Proof. reflexivity. Qed.

  Lemma drain_slots_inv : forall n x c j l r u',
    UI0 x -> class_slots (us x) c = Some l -> (nn j + n = length l)%nat ->
    (forall j' s, j' < j -> slot_at (us x) c j' = Some s -> s_pres s = false) ->
    drain_slots g policy (us x) c j n = (r, u') ->
    r = Ok tt /\ UI0 (mk x u') /\ low u' = low (us x) /\
    (forall c', c' <> c -> class_slots u' c' = class_slots (us x) c') /\
    (exists l', class_slots u' c = Some l' /\ length l' = length l) /\
    (forall j' s, slot_at u' c j' = Some s -> s_pres s = false).
  Proof.
    induction n as [|n IH]; intros x c j l r u' HI HC Hlen Hprev HD; cbn [drain_slots] in HD.
    - inversion HD; subst r u'. rewrite mk_id. splits; eauto.
      intros j' s Hs. apply (Hprev j' s); auto.
      unfold slot_at in Hs. rewrite HC in Hs.
      assert (nn j' < length l)%nat by (apply nth_error_Some; congruence). unfold nn in *. lia.
    - rewrite HC in HD.
      destruct (nth_error l (nn j)) as [s|] eqn:Hs.
      2:{ apply nth_error_None in Hs. lia. }
      assert (Hat : slot_at (us x) c j = Some s) by (unfold slot_at; rewrite HC; auto).
      set (u1 := set_slot (us x) c j slot_none) in *.
      assert (HC1 : class_slots u1 c = Some (upd l (nn j) slot_none)) by (apply class_slots_set_slot_same; auto).
      assert (H1 : UIC (fun _ => 0) (resv_of g c s ++ []) (mk x u1)).
      { apply UIL_slot_xchg; auto. cbn [s_pres slot_none]. discriminate. }
      rewrite app_nil_r in H1.
      assert (Hprev1 : forall j' s0, j' < j + 1 -> slot_at u1 c j' = Some s0 -> s_pres s0 = false).
      { intros j' s0 Hj' Hs0. destruct (N.eq_dec j' j) as [->|Nj].
        - unfold u1 in Hs0. rewrite slot_at_set_slot_same in Hs0 by congruence. inversion Hs0. reflexivity.
        - unfold u1 in Hs0. rewrite slot_at_set_slot_other in Hs0 by congruence. apply (Hprev j' s0); auto. lia. }
      assert (Hlen1 : (nn (j + 1) + n = length (upd l (nn j) slot_none))%nat).
      { rewrite upd_length. unfold nn in *. lia. }
      assert (FIN : forall x2, us x2 = u1 \/ (exists i t, us x2 = set_tree u1 i t) -> off x2 = off x ->
                UI0 x2 -> drain_slots g policy (us x2) c (j + 1) n = (r, u') ->
                r = Ok tt /\ UI0 (mk x u') /\ low u' = low (us x) /\
                (forall c', c' <> c -> class_slots u' c' = class_slots (us x) c') /\
                (exists l', class_slots u' c = Some l' /\ length l' = length l) /\
                (forall j' s, slot_at u' c j' = Some s -> s_pres s = false)).
      { intros x2 Hx2 Hoff H2 HD2.
        assert (Hloc : forall c' j', slot_at (us x2) c' j' = slot_at u1 c' j' ).
        { destruct Hx2 as [->|(i & t & ->)]; reflexivity. }
        assert (Hcs : forall c', class_slots (us x2) c' = class_slots u1 c').
        { destruct Hx2 as [->|(i & t & ->)]; reflexivity. }
        assert (Hlow : low (us x2) = low (us x)).
        { destruct Hx2 as [->|(i & t & ->)]; unfold u1; cbn [low set_tree with_trees]; apply set_slot_low. }
        destruct (IH x2 c (j + 1) (upd l (nn j) slot_none) r u' H2) as (-> & Q1 & Q2 & Q3 & (l' & Q4 & Q5) & Q6); auto.
        - rewrite Hcs. auto.
        - intros j' s0. rewrite Hloc. apply Hprev1.
        - splits; auto.
          + unfold mk in *. rewrite Hoff in Q1. exact Q1.
          + congruence.
          + intros c' Hc'. rewrite Q3, Hcs by auto. unfold u1. apply class_slots_set_slot_other; auto.
          + exists l'. split; auto. rewrite Q5. apply upd_length. }
      destruct (s_pres s) eqn:P.
      + unfold resv_of in H1. rewrite P in H1.
        destruct (trees_unreserve g policy u1 (row_tree g (s_row s)) (s_free s) c) as (r1, u2) eqn:EU.
        destruct (trees_unreserve_L g policy (LowerInv g) (lf_bound g LF) _ _ (mk x u1) _ _ _ _ _ H1 EU) as (-> & H2 & t & t' & _ & _ & _ & _ & ->).
        cbn [lift] in HD.
        apply (FIN (mk x (set_tree u1 (row_tree g (s_row s)) t')));
          [right; eexists _, _; reflexivity | reflexivity | exact H2 | exact HD].
      + unfold resv_of in H1. rewrite P in H1.
        apply (FIN (mk x u1)); [left; reflexivity | reflexivity | exact H1 | exact HD].
  Qed.

  Lemma drain_classes_inv : forall n x c r u',
    UI0 x -> (nn c + n = 8)%nat ->
    (forall c' j s, c' < c -> slot_at (us x) c' j = Some s -> s_pres s = false) ->
    drain_classes g policy (us x) c n = (r, u') ->
    r = Ok tt /\ UI0 (mk x u') /\ low u' = low (us x) /\
    (forall c', class_locals u' c' = class_locals (us x) c') /\
    (forall c' j s, slot_at u' c' j = Some s -> s_pres s = false).
  Proof.
    induction n as [|n IH]; intros x c r u' HI Hc Hprev HD; cbn [drain_classes] in HD.
    - inversion HD; subst r u'. rewrite mk_id. splits; auto.
      intros c' j s Hs. apply (Hprev c' j s); auto.
      destruct (slot_at_inv _ _ _ _ Hs) as (l & HCl & _).
      pose proof (class_slots_lt _ _ _ (UIL_len8 g policy (LowerInv g) _ _ _ HI) HCl). unfold nn in *. lia.
    - destruct (drain_slots g policy (us x) c 0
                 match class_slots (us x) c with Some l => length l | None => 0%nat end) as (r1, u1) eqn:ED.
      assert (STEP : r1 = Ok tt /\ UI0 (mk x u1) /\ low u1 = low (us x) /\
                (forall c', class_locals u1 c' = class_locals (us x) c') /\
                (forall c' j s, c' < c + 1 -> slot_at u1 c' j = Some s -> s_pres s = false)).
      { destruct (class_slots (us x) c) as [l|] eqn:HC.
        - destruct (drain_slots_inv (length l) x c 0 l r1 u1 HI HC) as (-> & Q1 & Q2 & Q3 & (l' & Q4 & Q5) & Q6); auto.
          { intros j' s Hj'. lia. }
          splits; auto.
          + intros c'. unfold class_locals. destruct (N.eq_dec c' c) as [->|Nc].
            * rewrite Q4, HC. cbn [option_map]. congruence.
            * rewrite Q3; auto.
          + intros c' j s Hc' Hs. destruct (N.eq_dec c' c) as [->|Nc].
            * eapply Q6; eauto.
            * apply (Hprev c' j s); [lia|]. unfold slot_at in *. rewrite Q3 in Hs; auto.
        - cbn [drain_slots] in ED. inversion ED; subst r1 u1. rewrite mk_id. splits; auto.
          intros c' j s Hc' Hs. destruct (N.eq_dec c' c) as [->|Nc].
          + unfold slot_at in Hs. rewrite HC in Hs. discriminate.
          + apply (Hprev c' j s); auto. lia. }
      destruct STEP as (-> & Q1 & Q2 & Q3 & Q4). cbn [lift] in HD.
      destruct (IH (mk x u1) (c + 1) r u' Q1) as (-> & R1 & R2 & R3 & R4); auto.
      { unfold nn in *. lia. }
      cbn [us mk] in R2, R3. splits; auto.
      + congruence.
      + intros c'. rewrite R3. apply Q3.
  Qed.

  Theorem llfree_drain_correct x r x' :
    UpperInv g policy x ->
    ghost_lift (llfree_drain g policy) x = (r, x') ->
    r = Ok tt /\ UpperInv g policy x' /\ low (us x') = low (us x) /\ off x' = off x /\
    present_slots (us x') = [] /\
    (forall i t, tree_at (us x') i = Some t -> t_res t = false) /\
    (forall c, class_locals (us x') c = class_locals (us x) c).
  Proof using WF LF.
    intros HI HD. unfold ghost_lift in HD.
    destruct (llfree_drain g policy (us x)) as (r0, u') eqn:E. inversion HD; subst r0 x'. clear HD.
    apply UpperInv_to_L in HI. unfold llfree_drain in E.
    destruct (drain_classes_inv 8 x 0 r u' HI) as (-> & Q1 & Q2 & Q3 & Q4); auto.
    { intros c' j s Hc'. lia. }
    assert (HP : present_slots u' = []).
    { unfold present_slots. apply filter_nil. intros (c, s) Hin. cbn [snd].
      apply in_all_slots in Hin; [|apply (UIL_len8 g policy (LowerInv g) _ _ _ Q1)].
      destruct Hin as (j & Hj). eapply Q4; eauto. }
    splits; auto.
    - apply UpperInv_of_L. exact Q1.
    - intros i t Ht.
      apply (counter_no_slot g policy (mk x u') i t (UpperInv_of_L g policy _ Q1) Ht (no_present_slots g _ i HP)).
  Qed.
End Drain.

Section Change.
  Variable g : geom.
  Variable policy : N -> N -> N -> pol.
  Hypothesis WF : wf_geom g.
  Hypothesis LF : lower_facts g.
  Notation TF := (TF g).
  Notation UIC := (UpperInvL g policy (LowerInv g)).
  Notation UI0 := (UpperInvL g policy (LowerInv g) (fun _ => 0) []).

  Lemma change_at_spec x id cls free ch r u' :
    UI0 x -> trees_change_at g (us x) id cls free ch = (r, u') ->
    match tree_at (us x) id with
    | None => r = Err EArgument /\ u' = us x
    | Some t => match tree_apply_change t cls free ch (tree_free g (low (us x)) id) with
                | Some t' => r = Ok tt /\ u' = set_tree (us x) id t'
                | None => r = Err EMemory /\ u' = us x
                end
    end.
  Proof.
    intros HI HC. unfold trees_change_at in HC.
    destruct (tree_at (us x) id) as [t|] eqn:Ht.
    2:{ inversion HC; auto. }
    pose proof (tree_at_lt _ _ _ Ht) as Hid. rewrite (UIL_ntrees g policy (LowerInv g) _ _ _ HI) in Hid.
    destruct (lf_stats_at_tree g LF _ _ (UIL_lower g policy (LowerInv g) _ _ _ HI) Hid) as (s & E1 & E2).
    rewrite E1, E2 in HC.
    destruct (tree_apply_change t cls free ch (tree_free g (low (us x)) id)); inversion HC; auto.
  Qed.

  Lemma search_loop_once {A} (acc : upper -> N -> res A * upper) n u start i r u' :
    search_loop acc u start i n = (r, u') ->
    (forall k u1, acc u k = (Err EMemory, u1) -> u1 = u) ->
    (r = Err EMemory /\ u' = u) \/ (exists k, acc u k = (r, u') /\ r <> Err EMemory).
  Proof.
    intros H Hacc.
    apply (search_loop_out acc (fun _ => True) (fun u1 => u1 = u)
             (fun r u' => exists k, acc u k = (r, u') /\ r <> Err EMemory)) in H; auto.
    - destruct r as [a|[]|s]; cbn in H; auto.
    - intros u1 k r1 u2 -> _ E. destruct r1 as [a|[]|s]; cbn; eauto; eexists; (split; [exact E|discriminate]).
  Qed.

  (* result of `Trees::change` *)
  Lemma trees_change_spec x m ch r u' :
    UI0 x -> trees_change g (us x) m ch = (r, u') ->
    ((r = Err EMemory \/ r = Err EArgument) /\ u' = us x) \/
    (r = Ok tt /\ exists id t t', (m_id m = Some id \/ m_id m = None) /\ tree_at (us x) id = Some t /\
       tree_apply_change t (m_class m) (m_free m) ch (tree_free g (low (us x)) id) = Some t' /\
       u' = set_tree (us x) id t').
  Proof.
    intros HI HC. unfold trees_change in HC.
    assert (AT : forall id r u', trees_change_at g (us x) id (m_class m) (m_free m) ch = (r, u') ->
       ((r = Err EMemory \/ r = Err EArgument) /\ u' = us x) \/
       (r = Ok tt /\ exists t t', tree_at (us x) id = Some t /\
          tree_apply_change t (m_class m) (m_free m) ch (tree_free g (low (us x)) id) = Some t' /\
          u' = set_tree (us x) id t')).
    { intros id r0 u0 E. pose proof (change_at_spec x id _ _ _ _ _ HI E) as S.
      destruct (tree_at (us x) id) as [t|] eqn:Ht.
      - destruct (tree_apply_change t (m_class m) (m_free m) ch (tree_free g (low (us x)) id)) as [t'|] eqn:Ea.
        + destruct S as (-> & ->). right. split; auto. exists t, t'. auto.
        + destruct S as (-> & ->). auto.
      - destruct S as (-> & ->). auto. }
    destruct (m_id m) as [i|] eqn:Em.
    - destruct (AT _ _ _ HC) as [(Q & ->)|(-> & t & t' & Q1 & Q2 & Q3)]; auto.
      right. split; auto. exists i, t, t'. auto.
    - destruct (ntrees (us x) =? 0).
      { inversion HC; auto. }
      apply search_loop_once in HC.
      + destruct HC as [(-> & ->)|(k & E & Hne)]; auto.
        destruct (AT _ _ _ E) as [(Q & ->)|(-> & t & t' & Q1 & Q2 & Q3)]; auto.
        right. split; auto. exists k, t, t'. auto.
      + intros k u1 E. destruct (AT _ _ _ E) as [(_ & ->)|(Q & _)]; auto. discriminate.
  Qed.

  (* the ghost list after a change *)
  Definition goff (ch : tree_change) (offs : list N) (k : nat) (t t' : tree) : N :=
    let o := nth k offs 0 in
    if tree_eqb t t' then o else
    match c_op ch with Some OpOffline => o + t_free t | Some OpOnline => 0 | None => o end.

  Lemma tree_eqb_refl t : tree_eqb t t = true.
  Proof. unfold tree_eqb. rewrite !N.eqb_refl. destruct (t_res t); reflexivity. Qed.
  Lemma tree_eqb_true a b : tree_eqb a b = true -> t_free a = t_free b /\ t_res a = t_res b /\ t_class a = t_class b.
  Proof.
    unfold tree_eqb. intros H. apply andb_true_iff in H. destruct H as (H & H3).
    apply andb_true_iff in H. destruct H as (H1 & H2).
    apply N.eqb_eq in H1, H3. apply Bool.eqb_prop in H2. auto.
  Qed.

  Definition goffs (ch : tree_change) (x : ustate) (u' : upper) : list N :=
    map (fun it : nat * (tree * tree) => let '(i, (t, t')) := it in goff ch (off x) i t t')
        (combine (seq 0 (length (trees (us x)))) (combine (trees (us x)) (trees u'))).

  Lemma goffs_set_tree ch x id t t' :
    length (off x) = length (trees (us x)) -> tree_at (us x) id = Some t ->
    let offs' := goffs ch x (set_tree (us x) id t') in
    length offs' = length (off x) /\
    (forall k, k <> nn id -> nth k offs' 0 = nth k (off x) 0) /\
    nth (nn id) offs' 0 = goff ch (off x) (nn id) t t'.
  Proof.
    intros Hlen Ht. cbv zeta. unfold goffs. cbn [set_tree with_trees trees].
    unfold tree_at in Ht.
    assert (Hid : (nn id < length (trees (us x)))%nat) by (apply nth_error_Some; congruence).
    splits.
    - rewrite map_length, !combine_length, seq_length, upd_length. lia.
    - intros k Hk. destruct (nth_error (trees (us x)) k) as [a|] eqn:Ea.
      + erewrite nth_error_nth; [|apply nth_error_map_combine3; [exact Ea|rewrite nth_error_upd_other by auto; exact Ea]].
        cbn [Nat.add]. unfold goff. rewrite tree_eqb_refl. reflexivity.
      + apply nth_error_None in Ea. rewrite !nth_overflow; auto; try lia.
        rewrite map_length, !combine_length, seq_length, upd_length. lia.
    - erewrite nth_error_nth; [|apply nth_error_map_combine3; [exact Ht|apply nth_error_upd_same; auto]].
      cbn [Nat.add]. reflexivity.
  Qed.

  Definition change_cfg (u : upper) (ch : tree_change) : Prop :=
    forall c, c_class ch = Some c -> class_slots u c <> None.

  Lemma apply_change_inv t cls free ch fetch t' :
    tree_apply_change t cls free ch fetch = Some t' ->
    t_res t = false /\ (forall k, cls = Some k -> k = t_class t) /\ free <= t_free t /\
    t_res t' = false /\
    t_class t' = match c_class ch with Some c => c | None => t_class t end /\
    match c_op ch with
    | Some OpOffline => t_free t' = 0
    | Some OpOnline => t_free t = 0 /\ t_free t' = fetch
    | None => t_free t' = t_free t
    end.
  Proof.
    unfold tree_apply_change. intros H.
    destruct (negb (t_res t) && match cls with Some k => k =? t_class t | None => true end && (free <=? t_free t)) eqn:E;
      try discriminate.
    apply andb_true_iff in E. destruct E as (E & E3). apply andb_true_iff in E. destruct E as (E1 & E2).
    apply negb_true_iff in E1. apply N.leb_le in E3.
    assert (Q : forall k, cls = Some k -> k = t_class t).
    { intros k ->. apply N.eqb_eq. auto. }
    destruct (c_op ch) as [[]|].
    - destruct (t_free t =? 0) eqn:Z; try discriminate. apply N.eqb_eq in Z.
      inversion H; subst t'; cbn [t_free t_res t_class]. splits; auto.
    - inversion H; subst t'; cbn [t_free t_res t_class]. splits; auto.
    - inversion H; subst t'; cbn [t_free t_res t_class]. splits; auto.
  Qed.

  Lemma ghost_change_eq x m ch :
    ghost_change g x m ch =
    let '(r, u') := trees_change g (us x) m ch in
    match r with
    | Ok _ => (r, {| us := u'; off := goffs ch x u' |})
    | _ => (r, {| us := u'; off := off x |})
    end.
  Proof. reflexivity. Qed.

  Lemma ghost_change_core x m ch r x' :
    UI0 x -> change_cfg (us x) ch -> ghost_change g x m ch = (r, x') ->
    ((r = Err EMemory \/ r = Err EArgument) /\ x' = x) \/
    (r = Ok tt /\ UI0 x' /\ exists id t t', (m_id m = Some id \/ m_id m = None) /\ tree_at (us x) id = Some t /\
       tree_apply_change t (m_class m) (m_free m) ch (tree_free g (low (us x)) id) = Some t' /\
       us x' = set_tree (us x) id t' /\ length (off x') = length (off x) /\
       (forall k, k <> nn id -> nth k (off x') 0 = nth k (off x) 0) /\
       nth (nn id) (off x') 0 = goff ch (off x) (nn id) t t').
  Proof.
    intros HI Hcfg HG. rewrite ghost_change_eq in HG.
    destruct (trees_change g (us x) m ch) as (r0, u') eqn:E.
    destruct (trees_change_spec x m ch r0 u' HI E) as [(Q & ->)|(-> & id & t & t' & Q1 & Q2 & Q3 & ->)].
    - left. destruct Q as [-> | ->]; inversion HG; subst; split; auto; destruct x; reflexivity.
    - right. inversion HG; subst r x'. clear HG.
      assert (Hlen : length (off x) = length (trees (us x))) by (destruct HI as (_ & _ & H3 & _); exact H3).
      destruct (goffs_set_tree ch x id t t' Hlen Q2) as (G1 & G2 & G3).
      split; auto. split.
      2:{ exists id, t, t'. cbn [us off]. splits; auto. }
      destruct (apply_change_inv _ _ _ _ _ _ Q3) as (A1 & A2 & A3 & A4 & A5 & A6).
      pose proof (UIL_tree g policy (LowerInv g) _ _ _ _ _ HI Q2) as Hok.
      eapply UIL_set_tree_off; eauto.
      + eapply okC_unres; eauto.
        * rewrite A5. destruct (c_class ch) as [c|] eqn:Ec; [apply Hcfg; auto|].
          apply tree_okC_nn in Hok. destruct Hok as (_ & _ & C & _). exact C.
        * rewrite G3. unfold goff. apply tree_okC_nn in Hok. destruct Hok as (A & B & _).
          rewrite A1 in A.
          assert (L1 : slots_of g (us x) id = []) by (apply length_zero_iff_nil; lia).
          rewrite L1 in B. cbn [ih_of filter ih_sum fold_right sum_free] in B.
          destruct (tree_eqb t t') eqn:Eq.
          -- apply tree_eqb_true in Eq. lia.
          -- destruct (c_op ch) as [[]|]; lia.
      + intros t0 c f [].
  Qed.

  Lemma ghost_change_by_id x m ch i r x' :
    UI0 x -> m_id m = Some i -> ghost_change g x m ch = (r, x') ->
    match tree_at (us x) i with
    | None => r = Err EArgument /\ x' = x
    | Some t =>
        match tree_apply_change t (m_class m) (m_free m) ch (tree_free g (low (us x)) i) with
        | None => r = Err EMemory /\ x' = x
        | Some t' => r = Ok tt /\ us x' = set_tree (us x) i t' /\
                     nth (nn i) (off x') 0 = goff ch (off x) (nn i) t t'
        end
    end.
  Proof.
    intros HI Em HG. rewrite ghost_change_eq in HG. unfold trees_change in HG. rewrite Em in HG.
    destruct (trees_change_at g (us x) i (m_class m) (m_free m) ch) as (r0, u') eqn:E.
    pose proof (change_at_spec x i _ _ _ _ _ HI E) as S.
    destruct (tree_at (us x) i) as [t|] eqn:Ht.
    - destruct (tree_apply_change t (m_class m) (m_free m) ch (tree_free g (low (us x)) i)) as [t'|] eqn:Ea.
      + destruct S as (-> & ->). inversion HG; subst r x'. cbn [us off]. splits; auto.
        assert (Hlen : length (off x) = length (trees (us x))) by (destruct HI as (_ & _ & H3 & _); exact H3).
        destruct (goffs_set_tree ch x i t t' Hlen Ht) as (G1 & G2 & G3). exact G3.
      + destruct S as (-> & ->). inversion HG; subst. split; auto. destruct x; reflexivity.
    - destruct S as (-> & ->). inversion HG; subst. split; auto. destruct x; reflexivity.
  Qed.

  (* the matcher accepts tree j with entry t *)
  Definition tmatches (m : tree_match) (j : N) (t : tree) : Prop :=
    (forall i, m_id m = Some i -> i = j) /\ (forall k, m_class m = Some k -> k = t_class t) /\
    m_free m <= t_free t.

  Theorem ghost_change_correct x m ch r x' :
    UpperInv g policy x -> change_cfg (us x) ch -> ghost_change g x m ch = (r, x') ->
    (forall s, r <> Panic s) /\ UpperInv g policy x' /\
    low (us x') = low (us x) /\ locals (us x') = locals (us x) /\ dflt (us x') = dflt (us x) /\
    (forall e, r = Err e -> x' = x) /\
    (forall i, m_id m = Some i -> tree_at (us x) i = None -> r = Err EArgument) /\
    (forall j t, tree_at (us x) j = Some t -> t_res t = true \/ ~ tmatches m j t ->
        tree_at (us x') j = Some t /\ nth (nn j) (off x') 0 = nth (nn j) (off x) 0).
  Proof using WF LF.
    intros HI Hcfg HG. pose proof HI as HI0. apply UpperInv_to_L in HI0.
    assert (BYID : forall i, m_id m = Some i -> tree_at (us x) i = None -> r = Err EArgument).
    { intros i Em Hn. pose proof (ghost_change_by_id x m ch i r x' HI0 Em HG) as S. rewrite Hn in S. tauto. }
    destruct (ghost_change_core x m ch r x' HI0 Hcfg HG)
      as [(Q & ->)|(-> & HI' & id & t & t' & Q1 & Q2 & Q3 & Q4 & Q5 & Q6 & Q7)].
    - splits; auto. destruct Q as [-> | ->]; discriminate.
    - destruct (apply_change_inv _ _ _ _ _ _ Q3) as (A1 & A2 & A3 & _).
      splits; auto; try (rewrite Q4; reflexivity).
      + discriminate.
      + apply UpperInv_of_L. exact HI'.
      + discriminate.
      + intros j tj Hj Hcond. assert (Nj : j <> id).
        { intros ->. rewrite Q2 in Hj. inversion Hj; subst tj. destruct Hcond as [Hc|Hc]; [congruence|].
          apply Hc. unfold tmatches. splits; auto. intros i Ei. destruct Q1 as [Q1|Q1]; congruence. }
        rewrite Q4, tree_at_set_tree_other by auto. split; auto.
        apply Q6. unfold nn. intros E. apply Nj. lia.
  Qed.

  (* C15: offline hides the counter of the tree *)
  Theorem ghost_change_offline x m ch i t r x' :
    UpperInv g policy x -> change_cfg (us x) ch ->
    m_id m = Some i -> tree_at (us x) i = Some t -> t_res t = false ->
    m_free m <= t_free t -> (forall k, m_class m = Some k -> k = t_class t) ->
    c_op ch = Some OpOffline ->
    ghost_change g x m ch = (r, x') ->
    r = Ok tt /\
    tree_at (us x') i = Some {| t_free := 0; t_res := false;
                                t_class := match c_class ch with Some c => c | None => t_class t end |} /\
    nth (nn i) (off x') 0 = nth (nn i) (off x) 0 + t_free t.
  Proof using WF LF.
    intros HI Hcfg Em Ht R Hf Hc Hop HG. apply UpperInv_to_L in HI.
    pose proof (ghost_change_by_id x m ch i r x' HI Em HG) as S. rewrite Ht in S.
    unfold tree_apply_change in S. rewrite R, Hop in S. apply N.leb_le in Hf. rewrite Hf in S.
    assert (Ec : match m_class m with Some k => k =? t_class t | None => true end = true).
    { destruct (m_class m) as [k|]; auto. apply N.eqb_eq. auto. }
    rewrite Ec in S. cbn [negb andb] in S. destruct S as (-> & S2 & S3). splits; auto.
    - rewrite S2. erewrite tree_at_set_tree_same; eauto.
    - rewrite S3. unfold goff. rewrite Hop.
      destruct (tree_eqb t _) eqn:Eq; auto. apply tree_eqb_true in Eq. cbn [t_free] in Eq. lia.
  Qed.

  (* online restores the counter from the lower allocator *)
  Theorem ghost_change_online x m ch i t r x' :
    UpperInv g policy x -> change_cfg (us x) ch ->
    m_id m = Some i -> tree_at (us x) i = Some t -> t_res t = false -> t_free t = 0 ->
    m_free m = 0 -> (forall k, m_class m = Some k -> k = t_class t) ->
    c_op ch = Some OpOnline ->
    ghost_change g x m ch = (r, x') ->
    r = Ok tt /\
    tree_at (us x') i = Some {| t_free := tree_free g (low (us x)) i; t_res := false;
                                t_class := match c_class ch with Some c => c | None => t_class t end |} /\
    nth (nn i) (off x') 0 = 0.
  Proof using WF LF.
    intros HI Hcfg Em Ht R Z Hf Hc Hop HG. pose proof (counter_unres g policy x i t HI Ht R) as B.
    apply UpperInv_to_L in HI.
    pose proof (ghost_change_by_id x m ch i r x' HI Em HG) as S. rewrite Ht in S.
    unfold tree_apply_change in S. rewrite R, Hop, Hf, Z in S.
    assert (Ec : match m_class m with Some k => k =? t_class t | None => true end = true).
    { destruct (m_class m) as [k|]; auto. apply N.eqb_eq. auto. }
    rewrite Ec in S. cbn [negb andb] in S. change (0 <=? 0) with true in S. change (0 =? 0) with true in S.
    cbn iota in S. destruct S as (-> & S2 & S3). splits; auto.
    - rewrite S2. erewrite tree_at_set_tree_same; eauto.
    - rewrite S3. unfold goff. rewrite Hop.
      destruct (tree_eqb t _) eqn:Eq; auto. apply tree_eqb_true in Eq. cbn [t_free] in Eq. lia.
  Qed.
End Change.

Section Reflect.
  Variable g : geom.
  Variable policy : N -> N -> N -> pol.
  Hypothesis KI : pol_kind_indep policy.

  Lemma keeps_kind p q : pol_kind p = pol_kind q -> pol_keeps p = pol_keeps q.
  Proof. destruct p, q; cbn; try discriminate; auto. Qed.

  Lemma in_combine_seq {A} (l : list A) : forall s i t, nth_error l i = Some t ->
    In ((s + i)%nat, t) (combine (seq s (length l)) l).
  Proof.
    induction l as [|a l IH]; intros s i t H; destruct i; try discriminate; cbn in *.
    - inversion H; subst. left. f_equal. lia.
    - right. replace (s + S i)%nat with (S s + i)%nat by lia. apply IH. auto.
  Qed.

  (* the executable invariant is sound (for policies whose kind does not depend on `free`) *)
  Theorem upper_invb_sound x : upper_invb g policy x = true -> UpperInv g policy x.
  Proof.
    unfold upper_invb, UpperInv. rewrite !andb_true_iff.
    intros ((((((H1 & H2) & H3) & H4) & H5) & H6) & H7).
    apply lower_invb_sound in H1. apply Nat.eqb_eq in H2, H3, H4.
    rewrite forallb_forall in H6, H7.
    splits; auto.
    - destruct (class_slots (us x) (dflt (us x))); congruence.
    - intros i t Hi. pose proof (in_combine_seq _ 0 i t Hi) as Hin. cbn [Nat.add] in Hin.
      specialize (H6 _ Hin). cbn [fst snd] in H6. unfold tree_okb in H6. rewrite !andb_true_iff in H6.
      destruct H6 as (((A & B) & C) & D). apply Nat.eqb_eq in A. apply N.eqb_eq in B.
      unfold tree_ok. cbv zeta. splits; auto.
      + destruct (t_res t); auto.
      + destruct (class_slots (us x) (t_class t)); congruence.
      + intros c s Hcs f. rewrite forallb_forall in D. specialize (D _ Hcs). cbn [fst forallb] in D.
        apply andb_true_iff in D. destruct D as (D & _).
        rewrite <- D. apply keeps_kind. apply KI.
    - intros c s Hcs. specialize (H7 _ Hcs). cbn [snd] in H7. rewrite !andb_true_iff in H7.
      destruct H7 as ((A & B) & C). apply N.ltb_lt in A, B. apply N.leb_le in C. auto.
  Qed.
End Reflect.

(* non-vacuity: a concrete geometry, policy and reachable states *)
Definition g0 : geom := {| hord := 9; tlog := 2 |}.
Definition pol0 (r t f : N) : pol := if t <? r then PSteal else if r <? t then PDemote else PMatch 1.

Lemma g0_wf : wf_geom g0.
Proof. unfold wf_geom, g0; cbn; lia. Qed.
Lemma pol0_refl_match : pol_refl_match pol0.
Proof. intros c f. unfold pol0. rewrite N.ltb_irrefl. reflexivity. Qed.
Lemma pol0_kind_indep : pol_kind_indep pol0.
Proof. intros r t f f'. reflexivity. Qed.
Lemma pol0_demote_trans : pol_demote_trans pol0.
Proof.
  intros a b c f f'. unfold pol0.
  destruct (b <? a) eqn:E1; try discriminate. destruct (a <? b) eqn:E2; try discriminate. intros _.
  destruct (c <? b) eqn:E3; try discriminate. intros _.
  apply N.ltb_lt in E2. apply N.ltb_ge in E3.
  assert (E4 : (c <? a) = false) by (apply N.ltb_ge; lia). rewrite E4.
  destruct (a <? c); reflexivity.
Qed.
Lemma pol0_never_invalid : pol_never_invalid pol0.
Proof. intros r t f. unfold pol0. destruct (t <? r); auto. destruct (r <? t); auto. Qed.

Definition lower0 : lower := {| frames := 0; bfs := []; ents := [] |}.
Definition upper0 : upper := {| low := lower0; trees := []; locals := []; dflt := 0 |}.
Definition rq (o : nat) (c : N) (l : option N) : request := {| r_order := o; r_class := c; r_local := l |}.
Definition gget (x : ustate) (f : option N) (r : request) : res (N * N) * ustate :=
  ghost_lift (fun u => llfree_get g0 pol0 u f r) x.
Definition gput (x : ustate) (f : N) (r : request) : res unit * ustate :=
  ghost_lift (fun u => llfree_put g0 pol0 u f r) x.

(* 2 full trees + a quarter tree, classes 0 (2 slots) and 1 (1 slot), default class 0 *)
Definition ex_new : upper :=
  match llfree_new g0 4608 IFreeAll [(0, 2); (1, 1)] 0 lower0 [] (repeat slot_none 3) with
  | Ok u => u | _ => upper0 end.
Definition ex0 : ustate := ustate_new ex_new.
Definition ex1 : ustate := snd (gget ex0 None (rq 0 0 (Some 0))).     (* reserves tree 1, frame 2048 *)
Definition ex2 : ustate := snd (gget ex1 None (rq 9 1 (Some 0))).     (* huge frame *)
Definition ex3 : ustate := snd (gget ex2 None (rq 3 0 None)).         (* 8 frames, no slot *)

Lemma ex3_inv : UpperInv g0 pol0 ex3.
Proof. apply upper_invb_sound; [exact pol0_kind_indep|]. vm_compute. reflexivity. Qed.

Example llfree_put_nonvacuous_slot :
  UpperInv g0 pol0 ex3 /\ valid_req (us ex3) (rq 0 0 (Some 0)) /\
  check g0 (us ex3) 2048 (rq 0 0 (Some 0)) = Ok tt /\
  spec_put_enabled g0 (abs g0 (low (us ex3))) 2048 0 = true /\
  fst (gput ex3 2048 (rq 0 0 (Some 0))) = Ok tt.
Proof.
  split; [exact ex3_inv|]. split.
  - unfold valid_req. cbn [r_local rq]. intros l Hl. vm_compute in Hl. inversion Hl; subst l. reflexivity.
  - vm_compute. auto.
Qed.

Example llfree_put_nonvacuous_global :
  UpperInv g0 pol0 ex3 /\ valid_req (us ex3) (rq 3 0 None) /\
  check g0 (us ex3) 512 (rq 3 0 None) = Ok tt /\
  spec_put_enabled g0 (abs g0 (low (us ex3))) 512 3 = true /\
  spec_put_enabled g0 (abs g0 (low (us ex3))) 1024 3 = false /\
  check g0 (us ex3) 4607 (rq 3 0 None) = Err EArgument.
Proof. split; [exact ex3_inv|]. split; [exact I|]. vm_compute. auto. Qed.

Example llfree_drain_nonvacuous :
  UpperInv g0 pol0 ex3 /\ present_slots (us ex3) <> [] /\
  (exists i t, tree_at (us ex3) i = Some t /\ t_res t = true).
Proof.
  split; [exact ex3_inv|]. split.
  - vm_compute. discriminate.
  - exists 1. vm_compute. eexists. split; reflexivity.
Qed.

Definition ex_m0 : tree_match := {| m_id := Some 0; m_class := Some 0; m_free := 100 |}.
Definition ex_off : tree_change := {| c_class := Some 1; c_op := Some OpOffline |}.
Definition ex_on : tree_change := {| c_class := None; c_op := Some OpOnline |}.
Definition ex4 : ustate := snd (ghost_change g0 ex3 ex_m0 ex_off).

Example ghost_change_nonvacuous :
  UpperInv g0 pol0 ex3 /\ change_cfg (us ex3) ex_off /\
  (exists t, tree_at (us ex3) 0 = Some t /\ t_res t = false /\ m_free ex_m0 <= t_free t /\ t_class t = 0) /\
  fst (ghost_change g0 ex3 ex_m0 ex_off) = Ok tt /\
  (* a reserved tree and a non-existent tree *)
  fst (ghost_change g0 ex3 {| m_id := Some 1; m_class := None; m_free := 0 |} ex_off) = Err EMemory /\
  fst (ghost_change g0 ex3 {| m_id := Some 7; m_class := None; m_free := 0 |} ex_off) = Err EArgument /\
  (* search *)
  fst (ghost_change g0 ex3 {| m_id := None; m_class := Some 0; m_free := 2000 |} ex_off) = Err EMemory /\
  fst (ghost_change g0 ex3 {| m_id := None; m_class := Some 0; m_free := 500 |} ex_off) = Ok tt.
Proof.
  split; [exact ex3_inv|]. split.
  - intros c Hc. vm_compute in Hc. inversion Hc; subst c. vm_compute. discriminate.
  - split.
    + vm_compute. eexists. split; [reflexivity|]. split; [reflexivity|]. split; [discriminate|reflexivity].
    + vm_compute. auto 10.
Qed.

Lemma ex4_inv : UpperInv g0 pol0 ex4.
Proof. apply upper_invb_sound; [exact pol0_kind_indep|]. vm_compute. reflexivity. Qed.

Example ghost_change_online_nonvacuous :
  UpperInv g0 pol0 ex4 /\ change_cfg (us ex4) ex_on /\
  (exists t, tree_at (us ex4) 0 = Some t /\ t_res t = false /\ t_free t = 0 /\ t_class t = 1) /\
  nth 0 (off ex4) 0 = 1528 /\
  fst (ghost_change g0 ex4 {| m_id := Some 0; m_class := Some 1; m_free := 0 |} ex_on) = Ok tt.
Proof.
  split; [exact ex4_inv|]. split.
  - intros c Hc. discriminate.
  - split.
    + vm_compute. eexists. split; [reflexivity|]. auto.
    + vm_compute. auto.
Qed.
