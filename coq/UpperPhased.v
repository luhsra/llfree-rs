(* Online at quiescence.  The concurrent theorems of UpperConcProps.v exclude `change_tree(.., Online)` from the
   schedules (`sched_valid` -> `change_ok`), because an Online that RACES with a put / get double-counts
   (UpperOnlineRace.v, finding D16).  This file makes precise that only the *concurrent* Online is the problem:

     M2's accounting invariant survives every schedule made of PHASES, each starting and ending in a state where no call
     is in flight (`uquiescent`):
       - a concurrent phase: any interleaving of valid calls of any number of threads (`sched_valid`: get / get_at /
         put / drain / change_tree with Offline or a class change), and
       - a solo phase: the steps `(t, c)` repeated, for ANY valid call c -- in particular `UChange m ch` with
         `c_op ch = Some OpOnline`, any matcher (by id or by search) -- run by thread t while all other threads are idle.

   phased u s sch          the schedule sch, run from the (quiescent) state s, is such a sequence of phases
   conc_phased_inv         at the end of every phased schedule from boot: the state is quiescent, the sequential
                           invariant UpperInv holds with a ghost `off` (frames hidden by Offline), the blocks handed out
                           are disjoint / aligned / in range, no thread is panicked; when the schedule contains no
                           Offline ... (`nohide`) the ghost is all zero
   conc_phased_safe        ... followed by ANY concurrent valid schedule (not necessarily ending quiescent): only the
                           D13 panic, uheld_ok, and UpperInv whenever quiescent
   conc_phased_validate    validate() passes at the end when nothing is hidden
   conc_phased_stats_off   fast count + hidden = exact count at the end
   PhasedExample           non-vacuity: Offline racing gets | put racing get | solo Online of the offline tree | gets

   Ingredients: `uinv_of_quiescent` (converse of UpperConcProps.uinv_quiescent), `grun_inv` for the concurrent phases
   and for solo phases of calls in the concurrent scope, `usolo_change_pos` (UpperSolo.change_sim: the solo run of a
   change_tree is the big-step function `llfree_change_tree`) + the sequential theorem `ghost_change_correct`
   (UpperPutProofs.v) for a solo Online.  The M1 part `Inv g (m1_of g s)` of UInv is carried over a solo Online because
   change_tree neither touches the lower allocator nor the blocks handed out. *)
From Coq Require Import PeanoNat Permutation.
From LLF Require Import Base Row Bitfield Lower Spec Sorted Upper UpperInvDef LowerFacts LowerFactsProofs UpperPrims
  LowerMachine ConcBase ConcInvDef ConcInvStep ConcInv ConcProps Crash UpperMachine UpperConcInvDef UpperConcUIC UpperConcWf
  UpperConcLocal UpperConcM1 UpperConcInv UpperConcProps.
From LLF Require UpperPutProofs PolicyFacts ConcInvInit UpperConcClass Policies UpperStatsProofs GlueProofs GlueHistory
  UpperSoloLemmas UpperSolo UpperSoloGet UpperConcWeak.

Lemma in_upd {A} (l : list A) t x y : In y (upd l t x) -> y = x \/ In y l.
Proof.
  revert t. induction l as [|a l IH]; intros t H; destruct t; cbn [upd] in H; try (right; exact H).
  - destruct H as [<-|H]; [left; reflexivity|right; right; exact H].
  - destruct H as [<-|H]; [right; left; reflexivity|]. destruct (IH _ H) as [E|E]; [left; exact E|right; right; exact E].
Qed.

Definition F0 (o : list N) : Prop := Forall (fun x => x = 0) o.

Section Phased.
  Variable g : geom.
  Variable policy : N -> N -> N -> pol.
  Hypothesis WF : wf_geom g.
  Hypothesis PR : pol_refl_match policy.
  Hypothesis PT : pol_demote_trans policy.
  Notation urun := (urun g policy).
  Notation UInv := (UInv g policy).

  (* runs *)
  Lemma urun_app a b s : urun (a ++ b) s = urun b (urun a s).
  Proof. unfold UpperMachine.urun. apply fold_left_app. Qed.
  Lemma urun_cons t c r s : urun ((t, c) :: r) s = urun r (fst (ustep g policy s t c)).
  Proof. reflexivity. Qed.

  (* quiescent states *)
  Lemma quiescent_gh s : uquiescent s -> map (uthr_gh g) (m2_pool s) = repeat gh_nil (length (m2_pool s)).
  Proof. intros Q. apply (idle_pool g _ Q). Qed.

  Lemma m1_of_quiescent s : uquiescent s -> m1_of g s = boot (low (m2_up s)) (m2_held s) (length (m2_pool s)).
  Proof.
    intros Q. destruct (idle_pool g _ Q) as (E1 & E2 & _). unfold m1_of, boot. rewrite E1, E2, app_nil_r. reflexivity.
  Qed.

  (* the converse of `uinv_quiescent`: at a quiescent state the concurrent invariant is M1's invariant plus the
     sequential invariant of the upper part *)
  Lemma uinv_of_quiescent o s :
    Inv g (m1_of g s) -> UpperInv g policy {| us := m2_up s; off := o |} -> uquiescent s -> UInv o s.
  Proof.
    intros HI HU Q. split; [exact HI|split].
    - unfold UG. rewrite (quiescent_gh s Q).
      apply (UIC_of_UpperInv g policy WF) in HU.
      rewrite IHf_nil. eapply (UIL_ext g policy (tf_bound g)); [|exact HU]. intros i. rewrite CRf_nil. reflexivity.
    - apply Forall_forall. intros x Hx. destruct (Q x Hx) as (l & ->). exact I.
  Qed.

  Lemma quiescent_nochange s : uquiescent s -> Forall thr_nochange (m2_pool s).
  Proof. intros Q. apply Forall_forall. intros x Hx. destruct (Q x Hx) as (l & ->). exact I. Qed.

  (* schedules without hiding *)
  Definition nohide_call (c : ucall) : Prop := match c with UChange _ ch => c_op ch = Some OpOnline | _ => True end.
  Definition nohide (sch : list (nat * ucall)) : Prop := Forall (fun tc => nohide_call (snd tc)) sch.

  Lemma nohide_valid_nochange u sch : sched_valid g u sch -> nohide sch -> Forall (fun tc => no_change (snd tc)) sch.
  Proof.
    intros SV NH. apply Forall_forall. intros tc Hin.
    pose proof (proj1 (Forall_forall _ _) SV tc Hin) as V. pose proof (proj1 (Forall_forall _ _) NH tc Hin) as H.
    cbv beta in V, H. destruct (snd tc) as [f r|f r| |m ch]; try exact I. cbn [nohide_call] in H.
    destruct V as [V _]. cbn [call_valid] in V. destruct V as [V _]. exact (V H).
  Qed.

  (* a concurrent phase *)
  Lemma conc_phase u s o sch :
    static_eq u (m2_up s) -> UInv o s -> sched_valid g u sch ->
    exists o', UInv o' (urun sch s) /\ (uquiescent s -> nohide sch -> o' = o).
  Proof.
    intros SE UI SV.
    pose proof (sched_valid_static g _ _ _ SE SV) as SV'.
    exists (snd (grun g policy sch (s, o))). split.
    - pose proof (grun_inv g policy WF PR PT sch s o UI SV') as H. rewrite grun_fst in H. exact H.
    - intros Q NH. apply (grun_nochange g policy WF PR PT); [exact UI|exact SV'| |apply quiescent_nochange; exact Q].
      eapply nohide_valid_nochange; eassumption.
  Qed.

  (* a solo change_tree *)
  Lemma usolo_change_pos u P H t last m ch : UpperSoloGet.SInv g u -> nth_error P t = Some (UIdle last) ->
    exists n, UpperSolo.solo_result g policy u P H t (UChange m ch)
                (UpperSoloLemmas.usolo_fuel g policy (S n) {| m2_up := u; m2_pool := P; m2_held := H |} t (UChange m ch)).
  Proof.
    intros HS Hth. eapply UpperSolo.usolo_of_sim_pos; [exact Hth | reflexivity |].
    intros cf HA. cbn [enter_call] in HA.
    pose proof (UpperSolo.change_sim g policy WF u m ch cf (UpperSoloGet.SInv_TreesFit g u HS) HA) as HR.
    cbn [ubig]. unfold UpperSolo.unit_res in HR. destruct (llfree_change_tree g u m ch) as [[x|e|z] u']; exact HR.
  Qed.

  (* `usolo_fuel` is a run of the schedule (t, c), (t, c), ...; before its end thread t is inside the call *)
  Lemma usolo_fuel_run t c n : forall s, exists j, (j <= n)%nat /\ (n <> 0 -> j <> 0)%nat /\
    UpperSoloLemmas.usolo_fuel g policy n s t c = urun (repeat (t, c) j) s /\
    (forall i, (0 < i < j)%nat -> exists c' p k, nth_error (m2_pool (urun (repeat (t, c) i) s)) t = Some (URun c' p k)).
  Proof.
    induction n as [|n IH]; intros s.
    - exists 0%nat. split; [lia|]. split; [intros X; exact X|]. split; [reflexivity|]. intros i Hi. lia.
    - cbn [UpperSoloLemmas.usolo_fuel]. set (s1 := fst (ustep g policy s t c)).
      assert (One : forall x, (forall c' p k, x <> Some (URun c' p k)) ->
                exists j, (j <= S n)%nat /\ (S n <> 0 -> j <> 0)%nat /\ s1 = urun (repeat (t, c) j) s /\
                  (forall i, (0 < i < j)%nat -> exists c' p k, nth_error (m2_pool (urun (repeat (t, c) i) s)) t = Some (URun c' p k))).
      { intros _ _. exists 1%nat. split; [lia|]. split; [lia|]. split; [reflexivity|]. intros i Hi. lia. }
      destruct (nth_error (m2_pool s1) t) as [[l|c' p k|z c']|] eqn:E;
        try (apply (One None); intros; discriminate).
      destruct (IH s1) as (j & Hj & _ & Ej & Hr). exists (S j). split; [lia|]. split; [lia|]. split.
      + cbn [repeat]. rewrite urun_cons. exact Ej.
      + intros i Hi. destruct i as [|i]; [lia|]. cbn [repeat]. rewrite urun_cons. fold s1.
        destruct i as [|i]; [cbn [repeat]; eexists _, _, _; exact E|]. apply Hr. lia.
  Qed.

  (* validity of a tree change without the Online exclusion of `change_ok` *)
  Definition change_ok_any (u : upper) (ch : tree_change) : Prop :=
    forall c, c_class ch = Some c -> class_locals u c <> None.

  Lemma ghost_change_online_zero x m ch :
    c_op ch = Some OpOnline -> F0 (off x) -> F0 (off (snd (ghost_change g x m ch))).
  Proof.
    intros Op Z. unfold ghost_change. destruct (llfree_change_tree g (us x) m ch) as [[y|e|z] u']; cbn [snd off]; try exact Z.
    apply Forall_forall. intros v Hv. apply in_map_iff in Hv. destruct Hv as ([i [t t']] & <- & _).
    destruct (UpperInvDef.tree_eqb t t').
    - destruct (nth_in_or_default i (off x) 0) as [Hin|E]; [|exact E]. exact (proj1 (Forall_forall _ _) Z _ Hin).
    - rewrite Op. reflexivity.
  Qed.

  (* k steps of thread t with an Online change_tree from a quiescent state to a quiescent state (all other threads
     idle all along: nobody else is scheduled): some number of complete solo calls.  The bound B is there for the
     induction: every completed call consumes j >= 1 of the k steps, and the rest is again such a run. *)
  Lemma solo_online u t m ch : change_ok_any u ch -> c_op ch = Some OpOnline ->
    forall B k s o, (k <= B)%nat -> static_eq u (m2_up s) -> UInv o s -> uquiescent s ->
      uquiescent (urun (repeat (t, UChange m ch) k) s) ->
      exists o', UInv o' (urun (repeat (t, UChange m ch) k) s) /\ (F0 o -> F0 o').
  Proof.
    intros CO Op. set (c := UChange m ch). induction B as [|B IH]; intros k s o Hk SE UI Q Q'.
    { assert (k = 0)%nat as -> by lia. exists o. split; [exact UI|tauto]. }
    destruct k as [|k]; [exists o; split; [exact UI|tauto]|].
    destruct (nth_error (m2_pool s) t) as [x|] eqn:Hth.
    2:{ (* no such thread: the steps do nothing *)
      assert (E : fst (ustep g policy s t c) = s) by (unfold ustep; rewrite Hth; reflexivity).
      cbn [repeat] in Q' |- *. rewrite urun_cons, E in Q' |- *. apply (IH k s o); try assumption. lia. }
    destruct (Q x (nth_error_In _ _ Hth)) as (last & ->).
    pose proof (uinv_quiescent g policy WF o s UI Q) as HU.
    pose proof (UpperSoloGet.UpperInv_SInv g policy _ HU) as HS. cbn [us] in HS.
    destruct s as [u0 P H]. cbn [m2_up m2_pool m2_held] in *.
    destruct (usolo_change_pos u0 P H t last m ch HS Hth) as (n & HR). fold c in HR.
    destruct (usolo_fuel_run t c (S n) {| m2_up := u0; m2_pool := P; m2_held := H |}) as (j & _ & Hj0 & Ej & Hrun).
    specialize (Hj0 ltac:(discriminate)). rewrite Ej in HR.
    set (s0 := {| m2_up := u0; m2_pool := P; m2_held := H |}) in *.
    (* the call is over after at most S k steps *)
    assert (Hjk : (j <= S k)%nat).
    { destruct (Nat.le_gt_cases j (S k)) as [A|A]; [exact A|exfalso].
      destruct (Hrun (S k) ltac:(lia)) as (c' & p & kk & E). destruct (Q' _ (nth_error_In _ _ E)) as (l & X). discriminate X. }
    (* the sequential theorem *)
    set (x := {| us := u0; off := o |}) in *.
    assert (CFG : UpperPutProofs.change_cfg (us x) ch).
    { intros cl Ecl. pose proof (CO cl Ecl) as A. rewrite <- (proj1 (proj2 SE) cl) in A. cbn [us x].
      cbn [m2_up] in A. unfold class_locals in A. destruct (class_slots u0 cl); [discriminate|]. exfalso. apply A. reflexivity. }
    destruct (ghost_change g x m ch) as [r x'] eqn:EG.
    destruct (UpperPutProofs.ghost_change_correct g policy WF (lower_facts_proved g WF) x m ch r x' HU CFG EG)
      as (NP & HU' & Elow & _).
    pose proof (ghost_change_online_zero x m ch Op) as Z0. rewrite EG in Z0. cbn [snd off x] in Z0.
    (* the state after the call *)
    assert (Es : exists rr, urun (repeat (t, c) j) s0 =
                   {| m2_up := us x'; m2_pool := upd P t (UIdle (Some rr)); m2_held := H |}).
    { unfold UpperSolo.solo_result in HR. cbn [ubig c] in HR. unfold ghost_change in EG. cbn [us x] in EG.
      destruct (llfree_change_tree g u0 m ch) as [[y|e|z] u'].
      - inversion EG; subst r x'. exists (Ok (0, 0)). rewrite HR. reflexivity.
      - inversion EG; subst r x'. exists (Err e). rewrite HR. reflexivity.
      - inversion EG; subst r x'. exfalso. exact (NP z eq_refl). }
    destruct Es as (rr & Es).
    set (s1 := urun (repeat (t, c) j) s0) in *.
    assert (Q1 : uquiescent s1).
    { rewrite Es. intros y Hy. cbn [m2_pool] in Hy. apply in_upd in Hy. destruct Hy as [->|Hy]; [eexists; reflexivity|exact (Q y Hy)]. }
    assert (UI1 : UInv (off x') s1).
    { apply uinv_of_quiescent; [| |exact Q1].
      - rewrite (m1_of_quiescent s1 Q1). rewrite Es. cbn [m2_up m2_held m2_pool]. rewrite Elow, upd_length.
        destruct UI as (HI & _). rewrite (m1_of_quiescent s0 Q) in HI. exact HI.
      - rewrite Es. cbn [m2_up]. destruct x' as [u' o']. exact HU'. }
    assert (SE1 : static_eq u (m2_up s1)).
    { eapply static_trans; [exact SE|]. apply (urun_static g policy WF). }
    replace (S k) with (j + (S k - j))%nat by lia. rewrite repeat_app, urun_app. fold s1.
    replace (S k) with (j + (S k - j))%nat in Q' by lia. rewrite repeat_app, urun_app in Q'. fold s1 in Q'.
    destruct (IH (S k - j)%nat s1 (off x') ltac:(lia) SE1 UI1 Q1 Q') as (o' & A1 & A2).
    exists o'. split; [exact A1|]. intros Z. apply A2. apply Z0. exact Z.
  Qed.

  (* phased schedules *)
  (* a valid call: as `call_valid2`, for change_tree without the Online exclusion *)
  Definition call_valid_any (u : upper) (c : ucall) : Prop :=
    match c with
    | UChange _ ch => change_ok_any u ch
    | _ => call_valid2 g u c
    end.

  Lemma call_valid2_any u c : call_valid2 g u c -> call_valid_any u c.
  Proof. destruct c; try (intros H; exact H). intros [[_ H] _]. exact H. Qed.

  Lemma call_valid_any_cases u c : call_valid_any u c ->
    call_valid2 g u c \/ exists m ch, c = UChange m ch /\ c_op ch = Some OpOnline /\ change_ok_any u ch.
  Proof.
    destruct c as [f r|f r| |m ch]; try (intros H; left; exact H). cbn [call_valid_any]. intros H.
    destruct (c_op ch) as [[|]|] eqn:Op.
    - right. exists m, ch. repeat split; assumption.
    - left. split; [|exact I]. split; [rewrite Op; discriminate|exact H].
    - left. split; [|exact I]. split; [rewrite Op; discriminate|exact H].
  Qed.

  (* sch, run from s, is a sequence of phases, each ending with no call in flight:
     a concurrent phase (any valid schedule without Online) or a solo phase (one thread, any valid call) *)
  Inductive phased (u : upper) : m2state -> list (nat * ucall) -> Prop :=
  | ph_nil : forall s, phased u s []
  | ph_conc : forall s sch rest, sched_valid g u sch -> uquiescent (urun sch s) -> phased u (urun sch s) rest ->
      phased u s (sch ++ rest)
  | ph_solo : forall s t c k rest, call_valid_any u c -> uquiescent (urun (repeat (t, c) k) s) ->
      phased u (urun (repeat (t, c) k) s) rest -> phased u s (repeat (t, c) k ++ rest).

  (* the last phase *)
  Lemma ph_conc_end u s sch : sched_valid g u sch -> uquiescent (urun sch s) -> phased u s sch.
  Proof. intros SV Q. rewrite <- (app_nil_r sch). apply ph_conc; [exact SV|exact Q|apply ph_nil]. Qed.
  Lemma ph_solo_end u s t c k : call_valid_any u c -> uquiescent (urun (repeat (t, c) k) s) -> phased u s (repeat (t, c) k).
  Proof. intros V Q. rewrite <- (app_nil_r (repeat (t, c) k)). apply ph_solo; [exact V|exact Q|apply ph_nil]. Qed.

  Lemma sched_valid_repeat u t c k : call_valid2 g u c -> sched_valid g u (repeat (t, c) k).
  Proof. intros V. apply Forall_forall. intros x Hx. apply repeat_spec in Hx. subst x. exact V. Qed.

  Lemma phased_inv u s sch : phased u s sch -> forall o, static_eq u (m2_up s) -> UInv o s -> uquiescent s ->
    uquiescent (urun sch s) /\ exists o', UInv o' (urun sch s) /\ (nohide sch -> F0 o -> F0 o').
  Proof.
    induction 1 as [s|s sch rest SV Q1 PH IH|s t c k rest V Q1 PH IH]; intros o SE UI Q.
    - split; [exact Q|]. exists o. split; [exact UI|tauto].
    - rewrite urun_app. destruct (conc_phase u s o sch SE UI SV) as (o1 & UI1 & Z1).
      assert (SE1 : static_eq u (m2_up (urun sch s))) by (eapply static_trans; [exact SE|apply (urun_static g policy WF)]).
      destruct (IH o1 SE1 UI1 Q1) as (Q2 & o2 & UI2 & Z2). split; [exact Q2|]. exists o2. split; [exact UI2|].
      intros NH Z. apply Forall_app in NH. destruct NH as [NH1 NH2]. apply (Z2 NH2). rewrite (Z1 Q NH1). exact Z.
    - rewrite urun_app.
      assert (SE1 : static_eq u (m2_up (urun (repeat (t, c) k) s))) by (eapply static_trans; [exact SE|apply (urun_static g policy WF)]).
      assert (P1 : exists o1, UInv o1 (urun (repeat (t, c) k) s) /\ (nohide (repeat (t, c) k) -> F0 o -> F0 o1)).
      { destruct (call_valid_any_cases u c V) as [V2|(m & ch & -> & Op & CO)].
        - destruct (conc_phase u s o (repeat (t, c) k) SE UI (sched_valid_repeat u t c k V2)) as (o1 & UI1 & Z1).
          exists o1. split; [exact UI1|]. intros NH Z. rewrite (Z1 Q NH). exact Z.
        - destruct (solo_online u t m ch CO Op k k s o (le_n k) SE UI Q Q1) as (o1 & UI1 & Z1).
          exists o1. split; [exact UI1|]. intros _. exact Z1. }
      destruct P1 as (o1 & UI1 & Z1).
      destruct (IH o1 SE1 UI1 Q1) as (Q2 & o2 & UI2 & Z2). split; [exact Q2|]. exists o2. split; [exact UI2|].
      intros NH Z. apply Forall_app in NH. destruct NH as [NH1 NH2]. apply (Z2 NH2). apply (Z1 NH1). exact Z.
  Qed.

  (* every call of a phased schedule is in the scope of the weak invariant (UpperConcWeak.v: any tree change) *)
  Lemma call_valid_any_w u c : call_valid_any u c -> UpperConcWeak.call_valid2_w g u c.
  Proof.
    destruct c as [f r|f r| |m ch]; cbn [call_valid_any]; try (intros [A B]; split; [exact A|exact B]).
    intros _. split; exact I.
  Qed.
  Lemma phased_valid_w u s sch : phased u s sch -> UpperConcWeak.sched_valid_w g u sch.
  Proof.
    induction 1 as [s|s sch rest SV Q1 PH IH|s t c k rest V Q1 PH IH]; [apply Forall_nil| |]; apply Forall_app; (split; [|exact IH]).
    - eapply Forall_impl; [|exact SV]. intros tc Hv. apply call_valid_any_w. apply call_valid2_any. exact Hv.
    - apply Forall_forall. intros x Hx. apply repeat_spec in Hx. subst x. apply call_valid_any_w. exact V.
  Qed.

  Lemma uboot_quiescent u held0 n : uquiescent (uboot u held0 n).
  Proof. intros x Hx. cbn [uboot m2_pool] in Hx. apply repeat_spec in Hx. subst x. eexists. reflexivity. Qed.

  Lemma quiescent_no_panic s : uquiescent s -> upanicked s = [].
  Proof.
    intros Q. unfold upanicked. apply flat_map_nil. intros x Hx. destruct (Q x Hx) as (l & ->). reflexivity.
  Qed.

  Lemma F0_repeat k : F0 (repeat 0 k).
  Proof. apply Forall_forall. intros x Hx. apply repeat_spec in Hx. exact Hx. Qed.

  (* from boot: the concurrent invariant at the end of a phased schedule *)
  Lemma phased_uinv u held0 n sch :
    UpperInv g policy (ustate_new u) -> HeldInit g (low u) held0 -> phased u (uboot u held0 n) sch ->
    let s := urun sch (uboot u held0 n) in
    uquiescent s /\ static_eq u (m2_up s) /\ exists o, UInv o s /\ (nohide sch -> F0 o).
  Proof.
    intros HU HH PH s.
    destruct (phased_inv u _ sch PH (zeros u) (static_refl _) (uboot_inv g policy WF u held0 n HU HH) (uboot_quiescent u held0 n))
      as (Q & o & UI & Z).
    split; [exact Q|]. split; [apply (urun_static g policy WF sch (uboot u held0 n))|].
    exists o. split; [exact UI|]. intros NH. apply (Z NH). apply F0_repeat.
  Qed.
End Phased.

(* the theorems *)
(* At the end of every phased schedule (concurrent phases of valid calls; Online -- and any other valid call -- in solo
   phases between them): no call in flight, the sequential invariant with some ghost `off`, C01, no panicked thread;
   the ghost is zero when nothing was taken offline. *)
Theorem conc_phased_inv : forall g policy u held0 n sch,
  wf_geom g -> pol_refl_match policy -> pol_demote_trans policy ->
  UpperInv g policy (ustate_new u) -> HeldInit g (low u) held0 ->
  phased g policy u (uboot u held0 n) sch ->
  let s := urun g policy sch (uboot u held0 n) in
  uquiescent s /\
  exists o, UpperInv g policy {| us := m2_up s; off := o |} /\
            uheld_ok s = true /\
            (forall z, In z (upanicked s) -> z = SExceedingRetries) /\ upanicked s = [] /\
            (nohide sch -> F0 o).
Proof.
  intros g policy u held0 n sch WF PR PT HU HH PH s.
  destruct (phased_uinv g policy WF PR PT u held0 n sch HU HH PH) as (Q & _ & o & UI & Z). fold s in Q, UI.
  split; [exact Q|]. exists o.
  split; [apply (uinv_quiescent g policy WF o s UI Q)|]. split; [apply (uinv_held g policy WF o s UI)|].
  split; [apply (uinv_panics g policy o s UI)|]. split; [apply quiescent_no_panic; exact Q|exact Z].
Qed.
Print Assumptions conc_phased_inv.

(* ... followed by any concurrent valid schedule sch2 (which need not end quiescent): every state reached inside a
   concurrent phase, after any number of phases *)
Theorem conc_phased_safe : forall g policy u held0 n sch sch2,
  wf_geom g -> pol_refl_match policy -> pol_demote_trans policy ->
  UpperInv g policy (ustate_new u) -> HeldInit g (low u) held0 ->
  phased g policy u (uboot u held0 n) sch -> sched_valid g u sch2 ->
  let s := urun g policy (sch ++ sch2) (uboot u held0 n) in
  (forall z, In z (upanicked s) -> z = SExceedingRetries) /\
  uheld_ok s = true /\
  (uquiescent s -> exists o, UpperInv g policy {| us := m2_up s; off := o |}).
Proof.
  intros g policy u held0 n sch sch2 WF PR PT HU HH PH SV s.
  destruct (phased_uinv g policy WF PR PT u held0 n sch HU HH PH) as (_ & SE & o & UI & _).
  destruct (conc_phase g policy WF PR PT u _ o sch2 SE UI SV) as (o2 & UI2 & _).
  rewrite <- urun_app in UI2. fold s in UI2.
  split; [apply (uinv_panics g policy o2 s UI2)|]. split; [apply (uinv_held g policy WF o2 s UI2)|].
  intros Q. exists o2. apply (uinv_quiescent g policy WF o2 s UI2 Q).
Qed.
Print Assumptions conc_phased_safe.

(* C01 at EVERY state of a phased schedule, also in the middle of a solo Online (weak invariant of UpperConcWeak.v) *)
Theorem conc_phased_held_all : forall g policy u held0 n pre post,
  wf_geom g -> UpperInv g policy (ustate_new u) -> HeldInit g (low u) held0 ->
  phased g policy u (uboot u held0 n) (pre ++ post) ->
  uheld_ok (urun g policy pre (uboot u held0 n)) = true.
Proof.
  intros g policy u held0 n pre post WF HU HH PH.
  apply (UpperConcWeak.conc_upper_held_weak g policy u held0 n pre WF HU HH).
  pose proof (phased_valid_w g policy u _ _ PH) as SV. apply Forall_app in SV. exact (proj1 SV).
Qed.
Print Assumptions conc_phased_held_all.

(* the ghost is determined by the state: the `exists o` above is not a loophole *)
Theorem UpperInv_off_unique : forall g policy u o o',
  UpperInv g policy {| us := u; off := o |} -> UpperInv g policy {| us := u; off := o' |} -> o = o'.
Proof.
  intros g policy u o o' (_ & _ & L1 & _ & _ & T1 & _) (_ & _ & L2 & _ & _ & T2 & _). cbn [us off] in *.
  apply (nth_ext o o' 0 0); [congruence|]. intros i Hi. rewrite L1 in Hi.
  destruct (nth_error (trees u) i) as [t|] eqn:Et; [|apply nth_error_None in Et; lia].
  pose proof (T1 i t Et) as A. pose proof (T2 i t Et) as B.
  unfold tree_ok in A, B. cbv zeta in A, B. cbn [us off] in A, B.
  destruct A as (_ & A & _). destruct B as (_ & B & _). lia.
Qed.

(* validate() passes at the end when nothing is hidden; in particular when the schedule contains no Offline *)
Theorem conc_phased_validate : forall g policy u held0 n sch,
  wf_geom g -> pol_refl_match policy -> pol_demote_trans policy ->
  UpperInv g policy (ustate_new u) -> HeldInit g (low u) held0 ->
  phased g policy u (uboot u held0 n) sch -> nohide sch ->
  let s := urun g policy sch (uboot u held0 n) in
  UpperInv g policy (ustate_new (m2_up s)) /\ llfree_validate g (m2_up s) = Ok tt.
Proof.
  intros g policy u held0 n sch WF PR PT HU HH PH NH s.
  destruct (conc_phased_inv g policy u held0 n sch WF PR PT HU HH PH) as (_ & o & H & _ & _ & _ & Z). fold s in H.
  specialize (Z NH).
  assert (E : o = repeat 0 (length (trees (m2_up s)))).
  { destruct H as (_ & _ & L & _). cbn [us off] in L. rewrite <- L. clear - Z. induction Z as [|a l -> _ IH]; [reflexivity|].
    cbn [length repeat]. f_equal. exact IH. }
  assert (H' : UpperInv g policy (ustate_new (m2_up s))) by (unfold ustate_new; rewrite <- E; exact H).
  split; [exact H'|exact (UpperConcProps.UpperInv_validate g policy _ WF H')].
Qed.
Print Assumptions conc_phased_validate.

(* the fast count plus the hidden amounts is the exact count *)
Theorem conc_phased_stats_off : forall g policy u held0 n sch,
  wf_geom g -> pol_refl_match policy -> pol_demote_trans policy ->
  UpperInv g policy (ustate_new u) -> HeldInit g (low u) held0 ->
  phased g policy u (uboot u held0 n) sch ->
  let s := urun g policy sch (uboot u held0 n) in
  exists o ts, UpperInv g policy {| us := m2_up s; off := o |} /\ (nohide sch -> F0 o) /\
    llfree_tree_stats g (m2_up s) = Ok ts /\
    ts_free ts + UpperStatsProofs.sumN o = free_frames (llfree_stats g (m2_up s)) /\
    ts_free ts + UpperStatsProofs.sumN o = exact_free (abs g (low (m2_up s))).
Proof.
  intros g policy u held0 n sch WF PR PT HU HH PH s.
  destruct (conc_phased_inv g policy u held0 n sch WF PR PT HU HH PH) as (_ & o & H & _ & _ & _ & Z). fold s in H.
  destruct (UpperConcProps.UpperInv_stats g policy _ WF H) as (ts & E).
  exists o, ts. split; [exact H|]. split; [exact Z|exact E].
Qed.
Print Assumptions conc_phased_stats_off.

(* non-vacuity *)
(* The 4-tree allocator of UpperConcProps.SafeExample (TREE_FRAMES = 256, two threads, alternating step by step):
     phase 1 (concurrent)  thread 0 allocates (frame 0) while thread 1 takes the entirely free tree 1 offline
     phase 2 (concurrent)  thread 0 frees frame 0 while thread 1 allocates (768 .. 771)
     phase 3 (solo)        thread 1 brings tree 1 online again: 5 steps (start, load, two fetch_free loads, CAS)
     phase 4 (concurrent)  thread 0 allocates, thread 1 allocates frame 300 -- in the tree just onlined -- by get_at
   `nop` (a put of a frame nobody holds) only lets running calls finish.  Tree counters 255 / 0 / 256 / 256 after phase 1,
   256 / 0 / 256 / 0 (tree 3 reserved) after phase 2, 256 / 256 / 256 / 0 after the Online, 255 / 255 / 255 / 0 at the
   end, where validate() passes and the invariant holds with nothing hidden. *)
Module PhasedExample.
  Import UpperConcClass.ClassExample UpperConcProps.SafeExample.
  Definition onl (i : N) :=
    UChange {| m_id := Some i; m_class := None; m_free := 0 |} {| c_class := None; c_op := Some OpOnline |}.
  Definition put0 := UPut 0 (rq 0 1 (Some 0)).
  Definition cC := UGet (Some 300) (rq 0 0 (Some 0)).
  Definition p1 := alt2 10 cA (offl 1) ++ alt2 30 nop nop.
  Definition p2 := alt2 30 put0 cB ++ alt2 30 nop nop.
  Definition p4 := alt2 20 cA cC ++ alt2 30 nop nop.
  Definition sch := p1 ++ p2 ++ repeat (1%nat, onl 1) 5 ++ p4.
  Definition boot0 := uboot U0 [] 2.
  Definition s1 := urun g7 pol7 p1 boot0.
  Definition s2 := urun g7 pol7 p2 s1.
  Definition s3 := urun g7 pol7 (repeat (1%nat, onl 1) 5) s2.
  Definition s4 := urun g7 pol7 p4 s3.

  Definition uquiescentb (s : m2state) : bool :=
    forallb (fun x => match x with UIdle _ => true | _ => false end) (m2_pool s).
  Lemma uquiescentb_sound s : uquiescentb s = true -> uquiescent s.
  Proof.
    intros H x Hx. pose proof (proj1 (forallb_forall _ _) H x Hx) as A. destruct x; try discriminate A. eexists. reflexivity.
  Qed.

  Lemma valid_new c : In c [put0; cC] -> call_valid2 g7 U0 c.
  Proof.
    intros H. repeat (destruct H as [<-|H]); [| |destruct H]; (split; [|try exact I; vm_compute; reflexivity]);
      cbn [call_valid]; intros l len E1 E2; vm_compute in E1, E2; inversion E1; inversion E2; subst; reflexivity.
  Qed.
  Lemma sv_alt2 n a b : call_valid2 g7 U0 a -> call_valid2 g7 U0 b -> sched_valid g7 U0 (alt2 n a b).
  Proof.
    intros A B. apply Forall_forall. intros [t c] Hin. cbn [snd]. apply in_alt2 in Hin. destruct Hin as [-> | ->]; assumption.
  Qed.
  Lemma v_nop : call_valid2 g7 U0 nop. Proof. apply valid_call. cbn [In]. tauto. Qed.
  Lemma v_cA : call_valid2 g7 U0 cA. Proof. apply valid_call. cbn [In]. tauto. Qed.
  Lemma v_cB : call_valid2 g7 U0 cB. Proof. apply valid_call. cbn [In]. tauto. Qed.
  Lemma sv1 : sched_valid g7 U0 p1.
  Proof. apply Forall_app. split; apply sv_alt2; try apply v_nop; [apply v_cA|apply valid_off]. Qed.
  Lemma sv2 : sched_valid g7 U0 p2.
  Proof. apply Forall_app. split; apply sv_alt2; try apply v_nop; [apply valid_new; cbn [In]; tauto|apply v_cB]. Qed.
  Lemma sv4 : sched_valid g7 U0 p4.
  Proof. apply Forall_app. split; apply sv_alt2; try apply v_nop; [apply v_cA|apply valid_new; cbn [In]; tauto]. Qed.
  Lemma v_onl : call_valid_any g7 U0 (onl 1).
  Proof. cbn [call_valid_any onl]. intros c E. discriminate E. Qed.

  Local Strategy 1000 [urun].
  Lemma sch_phased : phased g7 pol7 U0 boot0 sch.
  Proof.
    unfold sch. apply ph_conc; [exact sv1|apply uquiescentb_sound; vm_compute; reflexivity|]. fold s1.
    apply ph_conc; [exact sv2|apply uquiescentb_sound; vm_compute; reflexivity|]. fold s2.
    apply ph_solo; [exact v_onl|apply uquiescentb_sound; vm_compute; reflexivity|]. fold s3.
    apply ph_conc_end; [exact sv4|apply uquiescentb_sound; vm_compute; reflexivity].
  Qed.

  Lemma s4_run : urun g7 pol7 sch boot0 = s4.
  Proof. unfold sch, s4, s3, s2, s1. rewrite !urun_app. reflexivity. Qed.

  (* by evaluation *)
  Example phased_nonvacuous :
    map t_free (trees (m2_up s1)) = [255; 0; 256; 256] /\ map t_free (trees (m2_up s2)) = [256; 0; 256; 0] /\
    map t_free (trees (m2_up s3)) = [256; 256; 256; 0] /\ map t_free (trees (m2_up s4)) = [255; 255; 255; 0] /\
    m2_held s4 = [(512, 0%nat); (0, 0%nat); (300, 0%nat); (771, 0%nat); (770, 0%nat); (769, 0%nat); (768, 0%nat)] /\
    upper_invb g7 pol7 (ustate_new (m2_up s4)) = true /\ llfree_validate g7 (m2_up s4) = Ok tt.
  Proof. repeat split; vm_compute; reflexivity. Qed.

  (* by the theorem *)
  Example phased_instance :
    uquiescent s4 /\
    exists o, UpperInv g7 pol7 {| us := m2_up s4; off := o |} /\ uheld_ok s4 = true /\ upanicked s4 = [] /\
      exists ts, llfree_tree_stats g7 (m2_up s4) = Ok ts /\
                 ts_free ts + UpperStatsProofs.sumN o = exact_free (abs g7 (low (m2_up s4))).
  Proof.
    destruct (PolicyFacts.pol_simple_facts 256) as (PR & _ & PT & _).
    destruct (conc_phased_inv g7 pol7 U0 [] 2 sch wf7 PR PT inv0 held0 sch_phased) as (Q & o & H & A & _ & B & _).
    destruct (conc_phased_stats_off g7 pol7 U0 [] 2 sch wf7 PR PT inv0 held0 sch_phased) as (o' & ts & H' & _ & E & _ & S).
    fold boot0 in Q, H, A, B, H', E, S. rewrite s4_run in Q, H, A, B, H', E, S.
    split; [exact Q|]. exists o. split; [exact H|]. split; [exact A|]. split; [exact B|].
    exists ts. split; [exact E|]. rewrite (UpperInv_off_unique g7 pol7 _ o o' H H'). exact S.
  Qed.

  (* without any Offline: gets race | solo Online of the untouched tree 2 (four steps: the call runs to completion --
     Err, the tree is not offline --, is started again and completes again) | gets race; `conc_phased_validate` applies *)
  Definition q1 := alt2 14 cA cB ++ alt2 30 nop nop.
  Definition sch' := q1 ++ repeat (0%nat, onl 2) 4 ++ q1.
  Lemma svq : sched_valid g7 U0 q1.
  Proof. apply Forall_app. split; apply sv_alt2; try apply v_nop; [apply v_cA|apply v_cB]. Qed.
  Lemma sch'_phased : phased g7 pol7 U0 boot0 sch'.
  Proof.
    unfold sch'. apply ph_conc; [exact svq|apply uquiescentb_sound; vm_compute; reflexivity|].
    apply ph_solo; [intros c E; discriminate E|apply uquiescentb_sound; vm_compute; reflexivity|].
    apply ph_conc_end; [exact svq|apply uquiescentb_sound; vm_compute; reflexivity].
  Qed.
  Lemma nohide_alt2 n a b : nohide_call a -> nohide_call b -> nohide (alt2 n a b).
  Proof.
    intros A B. apply Forall_forall. intros [t c] Hin. cbn [snd]. apply in_alt2 in Hin. destruct Hin as [-> | ->]; assumption.
  Qed.
  Lemma sch'_nohide : nohide sch'.
  Proof.
    assert (Q : nohide q1) by (apply Forall_app; split; apply nohide_alt2; exact I).
    apply Forall_app. split; [exact Q|]. apply Forall_app. split; [|exact Q].
    apply Forall_forall. intros x Hx. apply repeat_spec in Hx. subst x. reflexivity.
  Qed.
  Example phased_validate_instance :
    llfree_validate g7 (m2_up (urun g7 pol7 sch' boot0)) = Ok tt.
  Proof.
    destruct (PolicyFacts.pol_simple_facts 256) as (PR & _ & PT & _).
    exact (proj2 (conc_phased_validate g7 pol7 U0 [] 2 sch' wf7 PR PT inv0 held0 sch'_phased sch'_nohide)).
  Qed.
End PhasedExample.
