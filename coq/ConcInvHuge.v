(* Preservation of the invariant: compare_exchange_all over huge entries (HC, HU) for get, get_at and put
   at orders >= HUGE_ORDER. *)
From Coq Require Import PeanoNat.
From LLF Require Import Base BitLemmas Row RowProofs Bitfield Lower Spec LowerMachine
  ConcBase ConcInvDef ConcInvGeom ConcInvStep ConcInvTac ConcInvAt.

Section Huge.
  Variable g : geom.
  Hypothesis wf : wf_geom g.
  Notation HF := (HF g).
  Notation THUGE := (THUGE g).
  Notation ROWS := (ROWS g).

  (* threads whose ghost is entry-level ownership of the entries [a, a + cnt) *)
  Record ent_own (x : thr) (a cnt : N) : Prop := {
    EO_fr : forall h r i, r < ROWS -> i < 64 -> fr g h r i x = b2n (inb a cnt h);
    EO_hfr : forall h, hfr g h x = b2n (inb a cnt h);
    EO_tr : forall h r, tr g h r x = 0;
    EO_pend : forall h, pend g h x = 0;
    EO_trc : forall h, trcount g h x = 0;
    EO_nd : forall h, needsC g h x = 0
  }.
  Lemma ent_own_ghuge x a cnt : ghost_of g x = ghuge (a * HF) (cnt * HF) -> ent_own x a cnt.
  Proof.
    intros E. pose proof (HF_pos g) as HP.
    constructor; intros; unfold fr, tr, pend, trcount, needsC, hfr; rewrite E; cbn [g_h own_lo own_n tr_lo tr_n p_n nd hu ghuge andb].
    - unfold fidx. rewrite <- N.add_assoc. rewrite (inb_ents g a cnt h (r * 64 + i)); [reflexivity|]. apply (rowbit_lt g wf); assumption.
    - replace (h * HF) with (h * HF + 0) by lia. rewrite (inb_ents g a cnt h 0) by lia. reflexivity.
    - unfold inb. lia.
    - destruct (h =? 0); reflexivity.
    - destruct (h =? 0); reflexivity.
    - lia.
  Qed.
  Lemma ent_own_idle l a : ent_own (TIdle l) a 0.
  Proof. destruct (quiet_idle g l) as [Qf Qt Qc Qh Qp Qn]. constructor; intros; rewrite ?inb_empty; auto. Qed.

  Lemma gsame_ent_own s x0 x' a cnt a' cnt' h : ent_own x0 a cnt -> ent_own x' a' cnt' ->
    inb a' cnt' h = inb a cnt h -> gsame g s x0 x' h.
  Proof.
    intros [F0 H0 T0 P0 C0 N0] [F1 H1 T1 P1 C1 N1] E.
    constructor; intros; rewrite ?F0, ?F1, ?H0, ?H1, ?T0, ?T1, ?P0, ?P1, ?C0, ?C1, ?N0, ?N1 by assumption; rewrite ?E; lia.
  Qed.

  (* an entry owned at entry level is released: MARK -> HF *)
  Lemma inv_ent_release s t x0 x' h cur a cnt a' cnt' :
    Inv g s -> nth_error (ms_pool s) t = Some x0 -> rd_ent s h = Some cur ->
    ent_own x0 a cnt -> ent_own x' a' cnt' -> inb a cnt h = true ->
    (forall h', inb a' cnt' h' = inb a cnt h' && negb (h' =? h)) ->
    isBad x' = 0 -> local_b g (ms_frames s) x' = true ->
    cur = MARK /\ Inv g (mk_ent s h HF t x' (ms_held s)).
  Proof.
    intros I Ht Hrd O0 O1 Hin Hout Hb Hl.
    pose proof (entv_rd s h cur Hrd) as Ec. pose proof (ROWS_pos g wf) as PR. pose proof (HF_lt_MARK g wf) as HM.
    assert (Hhf : hfr g h x0 = 1) by (rewrite (EO_hfr _ _ _ O0), Hin; reflexivity).
    assert (Hout' : inb a' cnt' h = false) by (rewrite Hout, N.eqb_refl; apply andb_false_r).
    assert (Hcur : cur = MARK).
    { destruct (N.eq_dec cur MARK) as [?|Hne]; [assumption|]. exfalso.
      pose proof (I_F g s I h ltac:(rewrite Ec; exact Hne)). pose proof (sumf_ge (hfr g h) _ _ _ Ht). lia. }
    split; [exact Hcur|]. rewrite Hcur in *. clear Hcur.
    assert (Hh : h < nbf g (ms_frames s)) by (apply (ent_nz_lt g s h I); rewrite Ec; unfold MARK; lia).
    destruct (K2 g wf s h I Hh Ec) as [Kp Kz].
    apply (inv_ent g s t x0 x' h MARK HF (ms_held s) I Ht Hrd); try assumption; [| |apply I].
    - intros h' Hne. apply gsame_H, (gsame_ent_own s _ _ _ _ _ _ h' O0 O1). rewrite Hout.
      destruct (N.eqb_spec h' h); [contradiction|apply andb_true_r].
    - constructor; intros; rewrite ?(mk_ent_entv _ _ _ _ _ _ _ _ Hrd), ?N.eqb_refl, ?mk_ent_bit, ?mk_ent_zeros in *;
        try (exfalso; lia); try lia.
      + cbn [ms_held mk_ent set_held]. rewrite Ec, (EO_fr _ _ _ O0), (EO_fr _ _ _ O1), (EO_tr _ _ _ O0), (EO_tr _ _ _ O1), Hin, Hout' by assumption.
        unfold isMark. destruct (N.eqb_spec HF MARK); [lia|]. rewrite N.eqb_refl. cbn [b2n]. lia.
      + rewrite (EO_pend _ _ _ O0), (EO_pend _ _ _ O1), (EO_trc _ _ _ O0), (EO_trc _ _ _ O1). lia.
      + cbn [ms_held mk_ent set_held]. rewrite (EO_hfr _ _ _ O1), Hout', Hhf.
        pose proof (I_B g s I h Hh Ec 0 0 PR ltac:(lia)) as B.
        pose proof (sumf_ge (fr g h 0 0) _ _ _ Ht) as Gf. rewrite (EO_fr _ _ _ O0), Hin in Gf by lia.
        pose proof (hugec_le_heldc g wf (ms_frames s) (ms_held s) h 0 0 (I_H g s I) PR ltac:(lia)).
        pose proof (hfr_others g wf s t x0 h 0 0 I Ht PR ltac:(lia)) as Ho. rewrite (EO_fr _ _ _ O0), Hin, Hhf in Ho by lia.
        pose proof (sumf_ge (hfr g h) _ _ _ Ht). cbn [b2n] in *. lia.
  Qed.

  (* under a completely free entry nothing is held, owned, pending or out of range *)
  Lemma ent_full_empty s h : Inv g s -> rd_ent s h = Some HF ->
    h < nbf g (ms_frames s) /\ entv s h <> MARK /\ (h + 1) * HF <= ms_frames s /\
    (forall r i, r < ROWS -> i < 64 -> heldc (fidx g h r i) (ms_held s) = 0 /\ sumf (fr g h r i) (ms_pool s) = 0) /\
    (forall x, In x (ms_pool s) -> trcount g h x = 0 /\ (forall r, tr g h r x = 0) /\ needsC g h x = 0 /\ hfr g h x = 0).
  Proof.
    intros I Hrd. pose proof (entv_rd s h HF Hrd) as Ec. pose proof (ROWS_pos g wf) as PR. pose proof (HF_lt_MARK g wf) as HM.
    pose proof (HF_pos g) as HP.
    assert (Hh : h < nbf g (ms_frames s)) by (apply (ent_nz_lt g s h I); rewrite Ec; lia).
    assert (Hne : entv s h <> MARK) by (rewrite Ec; lia).
    pose proof (K1 g wf s h I Hh Hne) as K. rewrite Ec in K.
    assert (K1p : sumf (pend g h) (ms_pool s) = 0) by lia.
    assert (K1h : gheld g s h = 0) by lia.
    assert (K1f : sumf (gfr g h) (ms_pool s) = 0) by lia.
    assert (K1o : goor g s h = 0) by lia.
    split; [exact Hh|]. split; [exact Hne|]. split; [|split].
    - pose proof (gsum_zero g _ K1o (ROWS - 1) 63 ltac:(lia) ltac:(lia)) as O. cbv beta in O. unfold oor, fidx in O.
      pose proof (HF_64 g wf). destruct (N.leb_spec (ms_frames s) (h * HF + (ROWS - 1) * 64 + 63)); [cbn in O; lia|]. nia.
    - intros r i Hr Hi. split; [exact (gsum_zero g _ K1h r i Hr Hi)|].
      apply sumf_all_zero. intros x Hx. pose proof (sumf_zero _ _ K1f x Hx) as G0. exact (gsum_zero g _ G0 r i Hr Hi).
    - intros x Hx. apply (quiet_thread g wf h x).
      + apply (local_gwf g wf (ms_frames s)). exact (proj1 (Forall_forall _ _) (I_L g s I) x Hx).
      + pose proof (sumf_zero _ _ K1p x Hx). pose proof (sumf_zero _ _ K1f x Hx). lia.
  Qed.

  (* a completely free entry is claimed: HF -> MARK; it goes to the thread or, with the whole block, to the client *)
  Lemma inv_ent_claim s t x0 x' h held' a cnt a' cnt' :
    Inv g s -> nth_error (ms_pool s) t = Some x0 -> rd_ent s h = Some HF ->
    ent_own x0 a cnt -> ent_own x' a' cnt' ->
    (forall h' r i, r < ROWS -> i < 64 ->
       heldc (fidx g h' r i) held' + b2n (inb a' cnt' h') = heldc (fidx g h' r i) (ms_held s) + b2n (inb a cnt h') + b2n (h' =? h)) ->
    (forall h', h' <> h -> hugec g h' held' + b2n (inb a' cnt' h') <= hugec g h' (ms_held s) + b2n (inb a cnt h')) ->
    isBad x' = 0 -> local_b g (ms_frames s) x' = true ->
    Forall (fun b => blk_ok (ms_frames s) b = true) held' ->
    Inv g (mk_ent s h MARK t x' held').
  Proof.
    intros I Ht Hrd O0 O1 Hfr Hhu Hb Hl Hhe.
    pose proof (entv_rd s h HF Hrd) as Ec. pose proof (HF_lt_MARK g wf) as HM.
    destruct (ent_full_empty s h I Hrd) as (Hh & Hne & Hin & Hz & Hq).
    apply (inv_ent g s t x0 x' h HF MARK held' I Ht Hrd); try assumption.
    - intros h' Hne'. constructor; intros;
        rewrite ?(EO_fr _ _ _ O0), ?(EO_fr _ _ _ O1), ?(EO_hfr _ _ _ O0), ?(EO_hfr _ _ _ O1), ?(EO_tr _ _ _ O0), ?(EO_tr _ _ _ O1),
          ?(EO_pend _ _ _ O0), ?(EO_pend _ _ _ O1), ?(EO_trc _ _ _ O0), ?(EO_trc _ _ _ O1), ?(EO_nd _ _ _ O0), ?(EO_nd _ _ _ O1) by assumption;
        try reflexivity.
      + rewrite (Hfr h' r i) by assumption. destruct (N.eqb_spec h' h); [contradiction|cbn; lia].
      + apply (Hhu h' Hne').
    - constructor; intros; rewrite ?(mk_ent_entv _ _ _ _ _ _ _ _ Hrd), ?N.eqb_refl, ?mk_ent_bit, ?mk_ent_zeros in *;
        try (exfalso; lia); try lia.
      + cbn [ms_held mk_ent set_held]. rewrite Ec, (EO_tr _ _ _ O1), (EO_tr _ _ _ O0), (EO_fr _ _ _ O0), (EO_fr _ _ _ O1) by assumption.
        specialize (Hfr h r i ltac:(assumption) ltac:(assumption)). rewrite N.eqb_refl in Hfr.
        unfold isMark. destruct (N.eqb_spec HF MARK); [lia|]. rewrite N.eqb_refl. cbn [b2n] in *. lia.
      + cbn [ms_held mk_ent set_held]. rewrite (EO_fr _ _ _ O0), (EO_fr _ _ _ O1) by assumption.
        specialize (Hfr h r i ltac:(assumption) ltac:(assumption)). rewrite N.eqb_refl in Hfr.
        destruct (Hz r i ltac:(assumption) ltac:(assumption)) as [Z1 Z2]. cbn [b2n] in *. lia.
      + rewrite (EO_nd _ _ _ O1), (EO_nd _ _ _ O0).
        assert (sumf (needsC g h) (ms_pool s) = 0) by (apply sumf_all_zero; intros x Hx; apply (Hq x Hx)). lia.
  Qed.

  (* a held block of huge order in entry coordinates *)
  Lemma cover_huge_blk a k h r i : (hord g <= k)%nat -> r < ROWS -> i < 64 ->
    cover (a * HF, k) (fidx g h r i) = inb a (pow2 (k - hord g)) h.
  Proof.
    intros Hk Hr Hi. unfold cover, fidx. cbn [fst snd]. rewrite (pow2_split (hord g) k Hk), <- HF_pow2, <- N.add_assoc.
    apply (inb_ents g). apply (rowbit_lt g wf); assumption.
  Qed.
  Lemma hugeb_huge_blk a k h : (hord g <= k)%nat -> hugeb g h (a * HF, k) = b2n (inb a (pow2 (k - hord g)) h).
  Proof.
    intros Hk. unfold hugeb, cover. cbn [fst snd]. destruct (Nat.leb_spec (hord g) k); [|lia]. cbn [andb].
    rewrite (pow2_split (hord g) k Hk), <- HF_pow2. replace (h * HF) with (h * HF + 0) by lia.
    pose proof (HF_pos g). rewrite (inb_ents g a _ h 0) by lia. reflexivity.
  Qed.

  (* the ghost at HC / HU in entry coordinates *)
  Lemma own_put_HC fm c gi q : cwf g fm c = true -> (hord g <= c_order c)%nat -> is_put c = true ->
    ent_own (TRun c (HC gi q)) (c_huge g c + q) (c_hnum g c - q).
  Proof.
    intros Hc Hk Hp. apply ent_own_ghuge. cbn [ghost_of gpc]. rewrite Hp.
    destruct (huge_call_aligned_geom g fm c Hc Hk (is_put_not_get c Hp)) as [E1 E2].
    rewrite E1, E2, N.mul_sub_distr_r, N.mul_add_distr_r. reflexivity.
  Qed.
  Lemma own_get_HC c gi q : is_put c = false -> ent_own (TRun c (HC gi q)) (group_h g c gi) q.
  Proof. intros Hp. apply ent_own_ghuge. cbn [ghost_of gpc]. rewrite Hp. reflexivity. Qed.
  Lemma own_get_HU c gi q : is_put c = false -> ent_own (TRun c (HU gi q)) (group_h g c gi) (q + 1).
  Proof. intros Hp. apply ent_own_ghuge. cbn [ghost_of gpc]. rewrite Hp. reflexivity. Qed.

  Definition next_group_thr (c : call) (gi : N) : thr :=
    if gi + 1 <? group_cnt g c then TRun c (HC (gi + 1) 0) else TIdle (Some (Err EMemory)).
  Lemma next_group_eq s t c gi : next_group g s t c gi = set_thr s t (next_group_thr c gi).
  Proof. unfold next_group, next_group_thr. destruct (gi + 1 <? group_cnt g c); [reflexivity|apply finish_err]. Qed.
  Lemma next_group_own c gi : is_put c = false -> exists a, ent_own (next_group_thr c gi) a 0.
  Proof.
    intros Hp. unfold next_group_thr. destruct (gi + 1 <? group_cnt g c).
    - exists (group_h g c (gi + 1)). apply own_get_HC. exact Hp.
    - exists 0. apply ent_own_idle.
  Qed.
  Lemma next_group_local fm c gi q : cwf g fm c = true -> lpc g fm c (HC gi q) = true ->
    local_b g fm (next_group_thr c gi) = true /\ isBad (next_group_thr c gi) = 0.
  Proof.
    intros Hc L. cbn [lpc] in L. unfold next_group_thr. destruct (gi + 1 <? group_cnt g c) eqn:E; [|split; reflexivity].
    split; [|reflexivity]. cbn [local_b lpc]. assert (0 <? c_hnum g c = true) by (apply N.ltb_lt, pow2_pos). lia.
  Qed.

  Lemma step_HC s t c gi q c0 : Inv g s -> nth_error (ms_pool s) t = Some (TRun c (HC gi q)) ->
    Inv g (fst (mstep g s t c0)).
  Proof.
    run_pc I Ht Hc L. assert (Hk : (hord g <= c_order c)%nat) by lia.
    destruct (huge_group g (ms_frames s) c gi Hc Hk) as [Hgrp Hal].
    set (gh := group_h g c gi) in *. set (h := gh + q).
    destruct (has_ent g s h I) as [cur Ev]; [unfold h; lia|]. rewrite Ev.
    pose proof (HF_lt_MARK g wf) as HM. pose proof (HF_pos g) as HP.
    destruct (is_put c) eqn:Ep.
    - (* put: the entry is the marker *)
      assert (Ecur : cas_cur g c = MARK /\ cas_new g c = HF /\ gh = c_huge g c) by (destruct c; try discriminate; auto).
      destruct Ecur as (E1 & E2 & E3). rewrite E1, E2.
      pose proof (own_put_HC (ms_frames s) c gi q Hc Hk Ep) as O0. rewrite <- E3 in O0.
      set (x' := if q + 1 <? c_hnum g c then TRun c (HC gi (q + 1)) else TIdle (Some (Ok 0))).
      assert (O1 : ent_own x' (gh + (q + 1)) (c_hnum g c - (q + 1))).
      { unfold x'. destruct (q + 1 <? c_hnum g c) eqn:Eq.
        - pose proof (own_put_HC (ms_frames s) c gi (q + 1) Hc Hk Ep) as O. rewrite <- E3 in O. exact O.
        - replace (c_hnum g c - (q + 1)) with 0 by lia. apply ent_own_idle. }
      destruct (inv_ent_release s t _ x' h cur _ _ _ _ I Ht Ev O0 O1) as [-> Hinv].
      + unfold inb, h. lia.
      + intros h'. unfold inb, h. lia.
      + unfold x'. destruct (q + 1 <? c_hnum g c); reflexivity.
      + unfold x'. destruct (q + 1 <? c_hnum g c) eqn:Eq; [|reflexivity]. cbn [local_b lpc]. lia.
      + rewrite N.eqb_refl. cbn [fst]. unfold x' in Hinv.
        destruct (q + 1 <? c_hnum g c); [exact Hinv|].
        rewrite finish_put by exact Ep. destruct c; try discriminate. exact Hinv.
    - (* get / get_at: the entry must be completely free *)
      assert (Ecur : cas_cur g c = HF /\ cas_new g c = MARK) by (destruct c; try discriminate; auto).
      destruct Ecur as (E1 & E2). rewrite E1, E2.
      pose proof (own_get_HC c gi q Ep) as O0. fold gh in O0.
      destruct (N.eqb_spec cur HF) as [->|Hne]; cbn [fst].
      + destruct (q + 1 <? c_hnum g c) eqn:Eq.
        * (* one more entry claimed *)
          pose proof (own_get_HC c gi (q + 1) Ep) as O1. fold gh in O1.
          apply (inv_ent_claim s t _ (TRun c (HC gi (q + 1))) h (ms_held s) _ _ _ _ I Ht Ev O0 O1).
          -- intros h' r i _ _. unfold inb, h. lia.
          -- intros h' Hne'. unfold inb, h in *. lia.
          -- reflexivity.
          -- cbn [local_b lpc]. lia.
          -- apply I.
        * (* the last entry: the block is handed out *)
          assert (Ehn : pow2 (c_order c - hord g) = q + 1) by (unfold c_hnum in *; lia).
          destruct (ent_full_empty s h I Ev) as (_ & _ & Hin & _).
          assert (Ef : finish (wr_ent s h MARK) t c (match c with CPut _ _ => Ok 0 | _ => Ok (gh * HF) end)
                       = mk_ent s h MARK t (TIdle (Some (Ok (gh * HF)))) ((gh * HF, c_order c) :: ms_held s))
            by (destruct c; try discriminate; reflexivity).
          rewrite Ef.
          apply (inv_ent_claim s t _ (TIdle _) h _ _ _ gh 0 I Ht Ev O0 (ent_own_idle _ _)).
          -- intros h' r i Hr Hi. rewrite heldc_cons, (cover_huge_blk gh (c_order c) h' r i Hk Hr Hi), Ehn. unfold inb, h. lia.
          -- intros h' Hne'. rewrite hugec_cons, (hugeb_huge_blk gh (c_order c) h' Hk), Ehn. unfold inb, h in *. lia.
          -- reflexivity.
          -- reflexivity.
          -- constructor; [|apply I]. unfold blk_ok. cbn [fst snd]. apply andb_true_iff. split; [apply N.eqb_eq; exact Hal|].
             apply N.leb_le. rewrite (pow2_split (hord g) (c_order c) Hk), <- HF_pow2, Ehn. unfold h in Hin. lia.
      + destruct (N.eqb_spec q 0) as [->|Hq].
        * rewrite next_group_eq. destruct (next_group_own c gi Ep) as [a O1].
          destruct (next_group_local (ms_frames s) c gi 0 Hc L) as [Hl Hb].
          apply (inv_plain g s t _ _ I Ht); [|exact Hb|exact Hl].
          intros h'. apply (gsame_ent_own s _ _ _ _ _ _ h' O0 O1). unfold inb. lia.
        * apply (inv_goto g s t c _ (HU gi (q - 1)) I Ht).
          -- cbn [gpc]. rewrite Ep, N.sub_add by lia. apply geq_refl.
          -- cbn [lpc]. rewrite Ep. cbn [negb]. lia.
  Qed.

  Lemma step_HU s t c gi q c0 : Inv g s -> nth_error (ms_pool s) t = Some (TRun c (HU gi q)) ->
    Inv g (fst (mstep g s t c0)).
  Proof.
    run_pc I Ht Hc L. assert (Hk : (hord g <= c_order c)%nat) by lia.
    assert (Ep : is_put c = false) by (destruct (is_put c); [cbn in L; lia|reflexivity]).
    assert (L0 : lpc g (ms_frames s) c (HC gi q) = true) by (cbn [lpc]; lia).
    destruct (huge_group g (ms_frames s) c gi Hc Hk) as [Hgrp Hal].
    set (gh := group_h g c gi) in *. set (h := gh + q).
    destruct (has_ent g s h I) as [cur Ev]; [unfold h; lia|]. rewrite Ev.
    assert (Ecur : cas_cur g c = HF /\ cas_new g c = MARK) by (destruct c; try discriminate; auto).
    destruct Ecur as (E1 & E2). rewrite E1, E2.
    pose proof (own_get_HU c gi q Ep) as O0. fold gh in O0.
    set (x' := if q =? 0 then next_group_thr c gi else TRun c (HU gi (q - 1))).
    assert (O1 : exists a, ent_own x' a q /\ (q <> 0 -> a = gh)).
    { unfold x'. destruct (N.eqb_spec q 0) as [->|Hq].
      - destruct (next_group_own c gi Ep) as [a O]. exists a. split; [exact O|congruence].
      - exists gh. split; [|reflexivity]. pose proof (own_get_HU c gi (q - 1) Ep) as O. fold gh in O.
        rewrite N.sub_add in O by lia. exact O. }
    destruct O1 as (a & O1 & Ha).
    destruct (inv_ent_release s t _ x' h cur _ _ _ _ I Ht Ev O0 O1) as [-> Hinv].
    - unfold inb, h. lia.
    - intros h'. unfold inb, h. destruct (N.eq_dec q 0); [lia|]. rewrite (Ha n). lia.
    - unfold x'. destruct (q =? 0); [apply (next_group_local (ms_frames s) c gi q Hc L0)|reflexivity].
    - unfold x'. destruct (N.eqb_spec q 0); [apply (next_group_local (ms_frames s) c gi q Hc L0)|].
      cbn [local_b lpc]. rewrite Ep. cbn [negb]. lia.
    - rewrite N.eqb_refl. cbn [fst]. unfold x' in Hinv.
      destruct (q =? 0); [rewrite next_group_eq|]; exact Hinv.
  Qed.
End Huge.
