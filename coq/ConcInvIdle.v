(* Preservation of the invariant: an idle thread starts a call (for put: the ghost held list is split by
   `client_take` and the block moves to the thread). *)
From Coq Require Import PeanoNat.
From LLF Require Import Base BitLemmas Row RowProofs Bitfield Lower Spec LowerMachine
  ConcBase ConcInvDef ConcInvGeom ConcInvStep ConcInvTac ConcInvAt.

(* two adjacent intervals of length P make up one of length 2 * P *)
Lemma inb_halves lo P x : b2n (inb lo P x) + b2n (inb (lo + P) P x) = b2n (inb lo (2 * P) x).
Proof. unfold inb. lia. Qed.
(* a = 2 * b or 2 * b + 1: the interval number a and its neighbour a xor 1 are the halves of number b at twice the length *)
Lemma buddy_intervals P a x :
  b2n (inb (P * a) P x) + b2n (inb (N.lxor a 1 * P) P x) = b2n (inb (a / 2 * (2 * P)) (2 * P) x).
Proof.
  rewrite lxor_1. destruct (N.even a) eqn:Ev.
  - apply N.even_spec in Ev. destruct Ev as [b ->]. rewrite (N.mul_comm 2 b), N.div_mul by discriminate.
    replace (P * (b * 2)) with (b * (2 * P)) by lia. replace ((b * 2 + 1) * P) with (b * (2 * P) + P) by lia.
    apply inb_halves.
  - assert (Ho : N.odd a = true) by (rewrite <- N.negb_even, Ev; reflexivity).
    apply N.odd_spec in Ho. destruct Ho as [b ->].
    replace ((2 * b + 1) / 2) with b by (apply (N.div_unique _ 2 b 1); lia).
    rewrite N.add_sub. replace (P * (2 * b + 1)) with (b * (2 * P) + P) by lia. replace (2 * b * P) with (b * (2 * P)) by lia.
    rewrite N.add_comm. apply inb_halves.
Qed.

(* a block and its buddy make up the parent *)
Lemma buddy_cover f k x : f mod pow2 k = 0 ->
  b2n (cover (f, k) x) + b2n (cover (N.lxor (f / pow2 k) 1 * pow2 k, k) x)
  = b2n (cover (f / pow2 (S k) * pow2 (S k), S k) x).
Proof.
  intros Hal. pose proof (pow2_nz k) as Hn.
  pose proof (N.div_mod f (pow2 k) Hn) as E. rewrite Hal, N.add_0_r in E.
  assert (E2 : f / pow2 (S k) = f / pow2 k / 2).
  { rewrite pow2_S, (N.mul_comm 2 (pow2 k)), <- N.div_div by (assumption || discriminate). reflexivity. }
  unfold cover. cbn [fst snd]. rewrite E2, pow2_S. rewrite E at 1. apply buddy_intervals.
Qed.

Lemma siblings_cover n : forall f k x, f mod pow2 k = 0 ->
  sumf (fun b => b2n (cover b x)) (siblings f k n) + b2n (cover (f, k) x)
  = b2n (cover (f / pow2 (k + n) * pow2 (k + n), (k + n)%nat) x).
Proof.
  induction n as [|n IH]; intros f k x Hal.
  - cbn [siblings]. rewrite sumf_nil, Nat.add_0_r. pose proof (pow2_nz k) as Hn.
    pose proof (N.div_mod f (pow2 k) Hn) as E. rewrite Hal, N.add_0_r in E. rewrite (N.mul_comm (f / pow2 k)), <- E. lia.
  - cbn [siblings]. rewrite sumf_cons.
    assert (Hal' : (f / pow2 (S k) * pow2 (S k)) mod pow2 (S k) = 0) by (apply N.mod_mul, pow2_nz).
    specialize (IH _ (S k) x Hal'). pose proof (buddy_cover f k x Hal) as Bd.
    replace (k + S n)%nat with (S k + n)%nat by lia.
    assert (Ed : f / pow2 (S k) * pow2 (S k) / pow2 (S k + n) = f / pow2 (S k + n)).
    { rewrite pow2_add. apply div_mul_div; apply pow2_nz. }
    rewrite Ed in IH. clear - IH Bd.
    set (c1 := cover (f, k) x) in *. set (c2 := cover (N.lxor (f / pow2 k) 1 * pow2 k, k) x) in *.
    set (c3 := cover (f / pow2 (S k) * pow2 (S k), S k) x) in *. lia.
Qed.

Lemma siblings_aligned n : forall f k, Forall (fun b => fst b mod pow2 (snd b) = 0) (siblings f k n).
Proof. induction n; intros f k; cbn [siblings]; constructor; [cbn [fst snd]; apply N.mod_mul, pow2_nz|apply IHn]. Qed.
Lemma siblings_orders n : forall f k, Forall (fun b => (snd b < k + n)%nat) (siblings f k n).
Proof. induction n; intros f k; cbn [siblings]; constructor; [cbn [snd]; lia|].
  eapply Forall_impl; [|apply IHn]. cbn beta. intros b Hb. lia. Qed.

Section Idle.
  Variable g : geom.
  Hypothesis wf : wf_geom g.
  Notation HF := (HF g).
  Notation THUGE := (THUGE g).
  Notation ROWS := (ROWS g).

  (* carving (f,k) out of the held block (F,K) that contains it *)
  Lemma carve fm f k F K : blk_in f k F K = true -> f mod pow2 k = 0 -> blk_ok fm (F, K) = true ->
    (forall x, sumf (fun b => b2n (cover b x)) (siblings f k (K - k)) + b2n (cover (f, k) x) = b2n (cover (F, K) x)) /\
    (forall h, sumf (hugeb g h) (siblings f k (K - k)) + hugeb g h (f, k) <= hugeb g h (F, K)) /\
    Forall (fun b => blk_ok fm b = true) (siblings f k (K - k)).
  Proof.
    intros Hin Hal Hok. unfold blk_in in Hin. unfold blk_ok in Hok. cbn [fst snd] in Hok.
    assert (HkK : (k <= K)%nat) by lia.
    pose proof (pow2_nz K) as HnK. pose proof (pow2_pos k) as Hpk.
    assert (Eanc : f / pow2 (k + (K - k)) * pow2 (k + (K - k)) = F).
    { replace (k + (K - k))%nat with K by lia.
      pose proof (N.div_mod F (pow2 K) HnK) as EF. assert (F mod pow2 K = 0) by lia.
      assert (f / pow2 K = F / pow2 K).
      { symmetry. apply (N.div_unique f (pow2 K) (F / pow2 K) (f - F)); lia. }
      lia. }
    assert (Hcov : forall x, sumf (fun b => b2n (cover b x)) (siblings f k (K - k)) + b2n (cover (f, k) x) = b2n (cover (F, K) x)).
    { intros x. rewrite (siblings_cover (K - k) f k x Hal), Eanc. replace (k + (K - k))%nat with K by lia. reflexivity. }
    split; [exact Hcov|]. split.
    - intros h. destruct (Nat.leb_spec (hord g) K) as [HK|HK].
      + specialize (Hcov (h * HF)).
        assert (Hle : sumf (hugeb g h) (siblings f k (K - k)) <= sumf (fun b => b2n (cover b (h * HF))) (siblings f k (K - k))).
        { apply sumf_le_in. intros b _. unfold hugeb. destruct (Nat.leb (hord g) (snd b)); cbn [andb]; lia. }
        unfold hugeb at 2 3. cbn [snd]. destruct (Nat.leb_spec (hord g) K); [|lia]. cbn [andb].
        destruct (Nat.leb (hord g) k); cbn [andb]; lia.
      + assert (Hz : sumf (hugeb g h) (siblings f k (K - k)) = 0).
        { apply sumf_all_zero. intros b Hb. pose proof (proj1 (Forall_forall _ _) (siblings_orders (K - k) f k) b Hb) as Ho.
          cbn beta in Ho. unfold hugeb. destruct (Nat.leb_spec (hord g) (snd b)); [lia|reflexivity]. }
        rewrite Hz. unfold hugeb. cbn [snd]. destruct (Nat.leb_spec (hord g) k); [lia|]. cbn. lia.
    - (* a sibling is aligned, and its last frame lies in (F, K), hence in range *)
      apply Forall_forall. intros b Hb.
      pose proof (proj1 (Forall_forall _ _) (siblings_aligned (K - k) f k) b Hb) as Hab. cbn beta in Hab.
      pose proof (pow2_pos (snd b)) as Hpb.
      assert (HF_in : F + pow2 K <= fm) by (clear - Hok; lia).
      pose proof (Hcov (fst b + pow2 (snd b) - 1)) as Hlast.
      pose proof (sumf_ge_in (fun b0 => b2n (cover b0 (fst b + pow2 (snd b) - 1))) _ b Hb) as Hge. cbn beta in Hge.
      unfold blk_ok. apply andb_true_iff. split; [apply N.eqb_eq, Hab|apply N.leb_le].
      revert Hlast Hge. generalize (sumf (fun b0 => b2n (cover b0 (fst b + pow2 (snd b) - 1))) (siblings f k (K - k))).
      unfold cover, inb. cbn [fst snd]. clear - Hpb HF_in. intros S0 Hlast Hge. lia.
  Qed.

  Lemma client_take_spec fm f k : f mod pow2 k = 0 -> forall held held',
    client_take held f k = Some held' -> Forall (fun b => blk_ok fm b = true) held ->
    (forall x, heldc x held = heldc x held' + b2n (cover (f, k) x)) /\
    (forall h, hugec g h held' + hugeb g h (f, k) <= hugec g h held) /\
    Forall (fun b => blk_ok fm b = true) held'.
  Proof.
    intros Hal. induction held as [|[F K] r IH]; intros held' Ht Hok; cbn [client_take] in Ht; [discriminate|].
    inversion Hok as [|? ? Hb Hr]; subst.
    destruct (blk_in f k F K) eqn:Hin.
    - inversion Ht; subst held'. destruct (carve fm f k F K Hin Hal Hb) as (Hc & Hh & Hf).
      split; [|split].
      + intros x. unfold heldc. rewrite sumf_app, sumf_cons. specialize (Hc x). lia.
      + intros h. unfold hugec. rewrite sumf_app, sumf_cons. specialize (Hh h). lia.
      + apply Forall_app. split; assumption.
    - destruct (client_take r f k) as [r'|] eqn:Er; [|discriminate]. inversion Ht; subst held'.
      destruct (IH r' eq_refl Hr) as (Hc & Hh & Hf). split; [|split].
      + intros x. unfold heldc in *. rewrite !sumf_cons. specialize (Hc x). lia.
      + intros h. unfold hugec in *. rewrite !sumf_cons. specialize (Hh h). lia.
      + constructor; assumption.
  Qed.

  Lemma call_ok_cwf s c : call_ok g s c = cwf g (ms_frames s) c.
  Proof. reflexivity. Qed.

  Lemma entry_local fm c : cwf g fm c = true -> lpc g fm c (entry_pc g c) = true.
  Proof.
    intros Hc. pose proof (THUGE_pos g) as PT.
    assert (H0 : 0 <? c_hnum g c = true) by (apply N.ltb_lt, pow2_pos).
    assert (Hg : (hord g <= c_order c)%nat -> 0 <? group_cnt g c = true).
    { intros Hk. apply N.ltb_lt. destruct c; cbn [group_cnt]; try lia.
      apply N.div_str_pos. split; [apply pow2_pos|].
      unfold c_hnum. rewrite THUGE_pow2. apply pow2_le. unfold cwf, tord in Hc. cbn [c_order] in *. lia. }
    destruct c as [st o|f o|f o]; cbn [entry_pc c_order] in *;
      (destruct (Nat.leb_spec (hord g) o) as [Hk|Hk]; cbn [lpc c_order is_get is_getat is_put]; unfold small; cbn [c_order];
       [specialize (Hg Hk); destruct (Nat.leb_spec (hord g) o); lia | destruct (Nat.ltb_spec o (hord g)); lia]).
  Qed.

  Lemma step_Idle s t l c0 : Inv g s -> nth_error (ms_pool s) t = Some (TIdle l) ->
    Inv g (fst (mstep g s t c0)).
  Proof.
    intros I Ht. unfold mstep. rewrite Ht. rewrite call_ok_cwf.
    destruct (cwf g (ms_frames s) c0) eqn:Hc; [|exact I].
    pose proof (entry_local (ms_frames s) c0 Hc) as Hl.
    assert (Hloc : local_b g (ms_frames s) (TRun c0 (entry_pc g c0)) = true) by (cbn [local_b]; rewrite Hc, Hl; reflexivity).
    pose proof (HF_pos g) as HP.
    destruct c0 as [st o|f o|f o].
    - cbn [fst]. apply (inv_same g s t _ _ I Ht); [|reflexivity|exact Hloc].
      cbn [ghost_of entry_pc]. destruct (hord g <=? o)%nat; apply geq_sym, geq_idle; reflexivity.
    - cbn [fst]. apply (inv_same g s t _ _ I Ht); [|reflexivity|exact Hloc].
      cbn [ghost_of entry_pc]. destruct (hord g <=? o)%nat; apply geq_sym, geq_idle; reflexivity.
    - destruct (client_take (ms_held s) f o) as [held'|] eqn:Et; [|exact I]. cbn [fst].
      change (Inv g (mk_thr s t (TRun (CPut f o) (entry_pc g (CPut f o))) held')).
      assert (Hal : f mod pow2 o = 0) by (unfold cwf in Hc; lia).
      destruct (client_take_spec (ms_frames s) f o Hal _ _ Et (I_H g s I)) as (Hcv & Hhu & Hok).
      apply (inv_thr g s t _ _ held' I Ht); [|reflexivity|exact Hloc|exact Hok].
      intros h. cbn [entry_pc]. destruct (Nat.leb_spec (hord g) o) as [Hk|Hk].
      + constructor; intros; try (gsimp; cbn [is_put]; gsimp; unfold inb; try lia; destr_if; lia).
        * rewrite (Hcv (fidx g h r i)). gsimp. cbn [is_put]. gsimp. unfold cover, inb, c_n. cbn [fst snd c_order c_frame]. lia.
        * specialize (Hhu h). unfold hugeb in Hhu. cbn [snd] in Hhu. destruct (Nat.leb_spec (hord g) o); [|lia].
          gsimp. cbn [is_put]. gsimp. unfold cover, inb, c_n in *. cbn [fst snd c_order c_frame andb] in *. lia.
      + constructor; intros; try (gsimp; unfold inb; try lia; destr_if; lia).
        * rewrite (Hcv (fidx g h r i)). gsimp. unfold cover, inb, c_n. cbn [fst snd c_order c_frame]. lia.
        * specialize (Hhu h). gsimp. cbn. lia.
  Qed.
End Idle.
