(* Proofs for Properties/ConcSeq.v.
   "Every quiescent state reached by the explored sequential histories AND concurrent interleavings" (C10, C14):
   the sequential theorems of C10 / C14 are stated for any state satisfying the invariant `UpperInv`; the concurrent
   theorem Conc_upper_safe_with_changes says that the state of the whole-allocator machine M2 satisfies it whenever no
   call is in flight, after ANY interleaving (scope of Properties/Conc.v: valid parameters, no
   change_tree(Online) in the schedule - finding D16).  This file only composes them, so that the claim "after every
   interleaving, then a drain, then the checked call" is a theorem and not a reading of two files.
   `st` below is the quiescent end state of the interleaving with the ghost `off` computed along the run (C10);
   C14 are the per-class statistics of that state. *)
From Coq Require Import List NArith.
From LLF Require Import Base Row Bitfield Lower Spec LowerFactsProofs Upper UpperInvDef UpperPrims UpperPutProofs
  UpperStatsProofs UpperGetProofs UpperGetComplete Handoff GlueProofs GlueHistory
  LowerMachine UpperMachine ConcInvDef ConcInv UpperConcInvDef UpperConcInv UpperConcProps.

Theorem c10_after_every_interleaving : forall g policy u held0 n sch,
  wf_geom g -> pol_refl_match policy -> pol_demote_trans policy -> pol_never_invalid policy ->
  UpperInv g policy (ustate_new u) -> HeldInit g (low u) held0 -> sched_valid g u sch ->
  let x := UpperConcInv.grun g policy sch (uboot u held0 n, zeros u) in
  let st := {| us := m2_up (fst x); off := snd x |} in
  uquiescent (fst x) ->
  exists st', ghost_lift (llfree_drain g policy) st = (Ok tt, st') /\ UpperInv g policy st' /\
    low (us st') = low (us st) /\ present_slots (us st') = [] /\
    (* base order *)
    (forall rq st'', valid_req (us st') rq -> r_order rq = 0%nat -> frames (low (us st')) < W64 ->
       ghost_lift (fun v => llfree_get g policy v None rq) st' = (Err EMemory, st'') ->
       (forall i t, tree_at (us st') i = Some t -> t_free t = 0) /\ exact_free (abs g (low (us st'))) = sumN (off st')) /\
    (* targeted *)
    (forall f rq t, valid_req (us st') rq -> check g (us st') f rq = Ok tt -> tree_at (us st') (f / TF g) = Some t ->
       ((exists c st'', ghost_lift (fun v => llfree_get g policy v (Some f) rq) st' = (Ok (f, c), st'')) <->
        (pow2 (r_order rq) <= t_free t /\ spec_get_enabled (abs g (low (us st'))) f (r_order rq) = true))).
Proof.
  intros g policy u held0 n sch WF PR PT PN HU HH SV x st Q.
  destruct (conc_upper_safe_off g policy u held0 n sch WF PR PT HU HH SV) as (_ & _ & _ & SI). specialize (SI Q). fold x st in SI.
  (* C10: drain the end state of the interleaving ... *)
  destruct (ghost_lift (llfree_drain g policy) st) as [r st'] eqn:E.
  destruct (llfree_drain_correct g policy WF (lower_facts_proved g WF) st r st' SI E) as (-> & I & L & _ & P & _).
  exists st'. split; [reflexivity|]. split; [exact I|]. split; [exact L|]. split; [exact P|]. split.
  - (* ... then a base-order allocation fails only if every free frame is hidden by an offline tree *)
    intros rq st'' Hv Ho Hfr Hg.
    destruct (drained_base_fail_all_hidden g policy WF PR PN st' rq st'' I Hv P Ho Hfr Hg) as (A & _ & C). split; assumption.
  - (* ... and a targeted allocation succeeds iff the counter covers it and the block is free *)
    intros f rq t Hv Hc Ht. apply valid_req_local in Hv.
    exact (get_at_complete g policy WF (lower_facts_proved g WF) PR PT PN st' f rq t I Hv P Hc Ht).
Qed.

Theorem c14_after_every_interleaving : forall g policy u held0 n sch,
  wf_geom g -> pol_refl_match policy -> pol_demote_trans policy ->
  UpperInv g policy (ustate_new u) -> HeldInit g (low u) held0 -> sched_valid g u sch ->
  let x := UpperConcInv.grun g policy sch (uboot u held0 n, zeros u) in
  uquiescent (fst x) ->
  exists ts, llfree_tree_stats g (m2_up (fst x)) = Ok ts /\
    length (ts_classes ts) = 8%nat /\
    sumN (map cs_free (ts_classes ts)) = ts_free ts /\
    sumN (map (fun c => cs_free c + cs_alloc c) (ts_classes ts)) = ntrees (m2_up (fst x)) * TF g.
Proof.
  intros g policy u held0 n sch WF PR PT HU HH SV x Q.
  destruct (conc_upper_safe_off g policy u held0 n sch WF PR PT HU HH SV) as (_ & _ & _ & SI). specialize (SI Q).
  destruct (tree_stats_correct g policy WF (lower_facts_proved g WF) _ SI) as (ts & A & _ & B & C & D).
  exists ts. repeat split; assumption.
Qed.
