(* Preservation of the invariant: get at small orders (pcs G1x, G2x, G3x). One lemma per pc. *)
From Coq Require Import PeanoNat.
From LLF Require Import Base BitLemmas Row RowProofs Bitfield Lower Spec AbsLemmas LowerMachine
  ConcBase ConcInvDef ConcInvGeom ConcInvStep ConcInvTac.

Section Get.
  Variable g : geom.
  Hypothesis wf : wf_geom g.
  Notation HF := (HF g).
  Notation THUGE := (THUGE g).
  Notation ROWS := (ROWS g).

  Lemma next_child_inv s t c p j : Inv g s -> nth_error (ms_pool s) t = Some (TRun c p) -> geq (gpc g c p) gh0 ->
    is_get c && small g c = true -> Inv g (next_child g s t c j).
  Proof.
    intros I Ht E L. unfold next_child. destruct (j + 1 <? THUGE) eqn:Ej.
    - apply (inv_goto g s t c p (G1L (j + 1)) I Ht E). cbn [lpc]. rewrite L, Ej. reflexivity.
    - apply (inv_err g s t c p _ I Ht E).
  Qed.

  Lemma step_G1L s t c j c0 : Inv g s -> nth_error (ms_pool s) t = Some (TRun c (G1L j)) ->
    Inv g (fst (mstep g s t c0)).
  Proof.
    run_pc I Ht Hc L.
    destruct (has_ent g s (child_h g c j) I) as [v Ev]; [apply child_h_lt; lia|].
    rewrite Ev. cbn [fst].
    apply (inv_retry g s t c _ _ (G1C j v) _ I Ht (geq_refl _)).
    - intros E. cbn [lpc]. rewrite E. lia.
    - intros _. apply (next_child_inv s t c _ j I Ht (geq_refl _)). lia.
  Qed.

  Lemma step_G1C s t c j v c0 : Inv g s -> nth_error (ms_pool s) t = Some (TRun c (G1C j v)) ->
    Inv g (fst (mstep g s t c0)).
  Proof.
    run_pc I Ht Hc L.
    destruct (has_ent g s (child_h g c j) I) as [cur Ev]; [apply child_h_lt; lia|].
    rewrite Ev. destruct (e_dec v (c_n c)) as [v'|] eqn:Ed; [|cbn [isSome] in L; lia].
    destruct (N.eqb_spec cur v) as [->|Hne]; cbn [fst].
    - (* the decrement takes effect *)
      destruct (e_dec_some _ _ _ Ed) as (Hm & Hle & ->). pose proof (c_n_pos c) as Hn.
      assert (Hh : child_h g c j < nbf g (ms_frames s)) by (apply (ent_nz_lt g s _ I); rewrite (entv_rd s _ v Ev); lia).
      apply (inv_dec g wf s t _ (TRun c _) _ v (c_n c) I Ht Ev Hh Hm Hle (geq_refl _)).
      + destruct (c_order c <=? 6)%nat; apply geq_refl.
      + reflexivity.
      + cbn [local_b]. rewrite Hc. apply N.ltb_lt in Hh.
        destruct (c_order c <=? 6)%nat eqn:E6; cbn [lpc].
        * rewrite E6. pose proof (ROWS_pos g wf). lia.
        * assert (0 <? c_chunks g c = true); [|assert (0 <? c_nr c = true); [|lia]].
          -- apply N.ltb_lt. unfold c_chunks. apply N.div_str_pos. split; [apply pow2_pos|].
             unfold c_nr. rewrite (ROWS_pow2 g wf). apply pow2_le.
             unfold small in L. destruct (Nat.ltb_spec (c_order c) (hord g)); lia.
          -- apply N.ltb_lt. apply pow2_pos.
    - (* the CAS failed: retry with the current value *)
      apply (inv_retry g s t c _ _ (G1C j cur) _ I Ht (geq_refl _)).
      + intros E. cbn [lpc]. rewrite E. lia.
      + intros _. apply (next_child_inv s t c _ j I Ht (geq_refl _)). lia.
  Qed.



  Lemma next_row_inv s t c p j i : Inv g s -> nth_error (ms_pool s) t = Some (TRun c p) ->
    geq (gpc g c p) (gpend (child_h g c j) (c_n c)) ->
    is_get c && small g c && (c_order c <=? 6)%nat && (j <? THUGE) && (i <? ROWS)
      && (child_h g c j <? nbf g (ms_frames s)) = true ->
    Inv g (next_row g s t c j i).
  Proof.
    intros I Ht E L. unfold next_row. pose proof (ROWS_pos g wf).
    destruct (i + 1 <? ROWS) eqn:Ei.
    - apply (inv_goto g s t c p (G2L j (i + 1)) I Ht E). cbn [lpc]. lia.
    - apply (inv_goto g s t c p (G3L j) I Ht E). cbn [lpc]. lia.
  Qed.

  Lemma step_G2L s t c j i c0 : Inv g s -> nth_error (ms_pool s) t = Some (TRun c (G2L j i)) ->
    Inv g (fst (mstep g s t c0)).
  Proof.
    run_pc I Ht Hc L. pose proof (ROWS_pos g wf).
    set (r := (i + c_start c mod ROWS) mod ROWS).
    destruct (has_row g wf s (child_h g c j) r I) as (e & Ev & He); [lia|apply N.mod_lt; lia|].
    rewrite Ev. cbn [fst].
    apply (inv_retry g s t c _ _ (G2C j i e) _ I Ht (geq_refl _)).
    - intros E. cbn [lpc]. rewrite E. lia.
    - intros _. apply (next_row_inv s t c _ j i I Ht (geq_refl _)). lia.
  Qed.

  Lemma step_G2C s t c j i e c0 : Inv g s -> nth_error (ms_pool s) t = Some (TRun c (G2C j i e)) ->
    Inv g (fst (mstep g s t c0)).
  Proof.
    run_pc I Ht Hc L. pose proof (ROWS_pos g wf).
    set (r := (i + c_start c mod ROWS) mod ROWS).
    assert (Hr : r < ROWS) by (apply N.mod_lt; lia).
    assert (Hh : child_h g c j < nbf g (ms_frames s)) by lia.
    destruct (has_row g wf s (child_h g c j) r I Hh Hr) as (cur & Ev & Hcur).
    rewrite Ev. destruct (fza e (c_order c)) as [[v' off]|] eqn:Ef; [|cbn [isSome] in L; lia].
    destruct (N.eqb_spec cur e) as [->|Hne]; cbn [fst].
    - (* the block is taken *)
      assert (Hk6 : (c_order c <= 6)%nat) by lia.
      assert (Hk : (c_order c < hord g)%nat) by (apply small_lt; lia).
      destruct (fza_some e (c_order c) v' off Hcur Hk6 Ef) as (Hal & Hfit & Hfree & _ & _).
      rewrite finish_get_row by (apply is_get_not_put; lia).
      apply (inv_alloc_block g wf s t _ _ r e v' off (c_order c) _ I Ht Ev
               (fza_lt e (c_order c) v' off Hcur Hk6 Ef) Hh Hr Hk Hk6 Hfit Hal).
      + intros i' _. apply (fza_testbit e (c_order c) v' off i' Hcur Hk6 Ef).
      + intros i' Hi'. apply (proj1 (block_free_spec e (c_order c) off) Hfree). unfold inb, pow2 in Hi'. lia.
      + apply pending_geq, geq_refl.
    - apply (inv_retry g s t c _ _ (G2C j i cur) _ I Ht (geq_refl _)).
      + intros E. cbn [lpc]. rewrite E. lia.
      + intros _. apply (next_row_inv s t c _ j i I Ht (geq_refl _)). lia.
  Qed.

  (* multi-row search *)
  Definition next_chunk_pc (c : call) (j ch : N) : pc :=
    if ch + 1 <? c_chunks g c then G2R j (ch + 1) 0 else G3L j.
  Lemma next_chunk_eq s t c j ch : next_chunk g s t c j ch = goto s t c (next_chunk_pc c j ch).
  Proof. unfold next_chunk, next_chunk_pc. destruct (ch + 1 <? c_chunks g c); reflexivity. Qed.
  Lemma next_chunk_ghost c j ch : gpc g c (next_chunk_pc c j ch) = gpend (child_h g c j) (c_n c).
  Proof. unfold next_chunk_pc. destruct (ch + 1 <? c_chunks g c); reflexivity. Qed.
  Lemma next_chunk_local fm c j ch q :
    lpc g fm c (G2R j ch q) = true -> lpc g fm c (next_chunk_pc c j ch) = true.
  Proof.
    cbn [lpc]. intros L. unfold next_chunk_pc. destruct (ch + 1 <? c_chunks g c) eqn:E; cbn [lpc]; [|lia].
    assert (0 <? c_nr c = true) by (apply N.ltb_lt, pow2_pos). lia.
  Qed.

  Lemma lo_row_lt c ch q : (7 <= c_order c)%nat -> ch <? c_chunks g c = true -> q <? c_nr c = true -> ch * c_nr c + q < ROWS.
  Proof. intros H7 Hch Hq. pose proof (chunk_fits g c ch (q + 1) H7 Hch ltac:(lia)). lia. Qed.

  Lemma step_G2R s t c j ch q c0 : Inv g s -> nth_error (ms_pool s) t = Some (TRun c (G2R j ch q)) ->
    Inv g (fst (mstep g s t c0)).
  Proof.
    run_pc I Ht Hc L.
    destruct (has_row g wf s (child_h g c j) (ch * c_nr c + q) I) as (e & Ev & He); [lia|apply lo_row_lt; lia|].
    rewrite Ev. cbn [fst].
    destruct (e =? 0).
    - destruct (q + 1 <? c_nr c) eqn:Eq.
      + apply (inv_goto g s t c _ (G2R j ch (q + 1)) I Ht (geq_refl _)). cbn [lpc]. lia.
      + apply (inv_goto g s t c _ (G2W j ch 0) I Ht (geq_sym _ _ (geq_gtr0 _ _ _))). cbn [lpc].
        assert (0 <? c_nr c = true) by (apply N.ltb_lt, pow2_pos). lia.
    - rewrite next_chunk_eq. apply (inv_goto g s t c _ _ I Ht); [|apply (next_chunk_local _ c j ch q L)].
      rewrite next_chunk_ghost. apply geq_refl.
  Qed.

  Lemma step_G2W s t c j ch q c0 : Inv g s -> nth_error (ms_pool s) t = Some (TRun c (G2W j ch q)) ->
    Inv g (fst (mstep g s t c0)).
  Proof.
    run_pc I Ht Hc L.
    set (h := child_h g c j) in *. set (lo := ch * c_nr c).
    assert (Hr : lo + q < ROWS) by (apply lo_row_lt; lia).
    assert (Hh : h < nbf g (ms_frames s)) by lia.
    destruct (has_row g wf s h (lo + q) I Hh Hr) as (cur & Ev & Hcur).
    rewrite Ev. destruct (N.eqb_spec cur 0) as [->|Hne]; cbn [fst].
    - destruct (q + 1 <? c_nr c) eqn:Eq.
      + (* one more row in transit *)
        rewrite goto_row.
        apply (inv_fill g s t _ (TRun c (G2W j ch (q + 1))) (gtr h (c_n c) lo q) I Ht (geq_refl _) (geq_refl _) Ev Hh Hr); [reflexivity|].
        cbn [local_b lpc]. fold h. lia.
      + (* the last row: the block is handed out *)
        rewrite finish_get_row by (apply is_get_not_put; lia).
        assert (Hn : pow2 (c_order c) = 64 * (q + 1)).
        { rewrite (pow2_split 6 (c_order c)), pow2_6 by lia. unfold c_nr in *. lia. }
        assert (Hk : (c_order c < hord g)%nat) by (apply small_lt; lia).
        apply (inv_alloc_rows g wf s t _ h lo q (c_order c) _ I Ht Ev Hh Hr Hk Hn); [apply geq_refl|].
        pose proof (needs_counter g s t _ h I Ht Hh ltac:(unfold needsC; cbn; rewrite N.eqb_refl; reflexivity)) as Hm.
        pose proof (zero_bit_in_range g s h (lo + q) 63 I Hh Hr ltac:(lia) Hm) as Hin.
        unfold bit in Hin. rewrite (rowv_rd s h _ 0 Ev), N.bits_0 in Hin. specialize (Hin eq_refl). unfold fidx in Hin.
        unfold blk_ok. cbn [fst snd]. apply andb_true_iff. split; [apply N.eqb_eq|apply N.leb_le; lia].
        pose proof (pow2_nz (c_order c)).
        apply mod_add_aligned; [assumption|apply mod_mul_aligned; [assumption|apply HF_mod_pow2; lia]|].
        unfold lo. replace (ch * c_nr c * 64) with (ch * pow2 (c_order c)) by (unfold c_nr in *; nia).
        apply mod_mul_aligned; [assumption|apply N.mod_same; assumption].
    - destruct (N.eqb_spec q 0) as [->|Hq].
      + rewrite next_chunk_eq. apply (inv_goto g s t c _ _ I Ht); [|apply (next_chunk_local _ c j ch 0 L)].
        rewrite next_chunk_ghost. apply geq_gtr0.
      + apply (inv_goto g s t c _ (G2U j ch (q - 1)) I Ht); [|cbn [lpc]; fold h; lia].
        cbn [gpc]. rewrite N.sub_add by lia. apply geq_refl.
  Qed.

  Lemma step_G2U s t c j ch q c0 : Inv g s -> nth_error (ms_pool s) t = Some (TRun c (G2U j ch q)) ->
    Inv g (fst (mstep g s t c0)).
  Proof.
    run_pc I Ht Hc L.
    set (h := child_h g c j) in *. set (lo := ch * c_nr c).
    assert (Hr : lo + q < ROWS) by (apply lo_row_lt; lia).
    assert (Hh : h < nbf g (ms_frames s)) by lia.
    destruct (has_row g wf s h (lo + q) I Hh Hr) as (cur & Ev & Hcur).
    rewrite Ev.
    set (p' := if q =? 0 then next_chunk_pc c j ch else G2U j ch (q - 1)).
    destruct (inv_unfill g wf s t _ (TRun c p') (gtr h (c_n c) lo q) cur I Ht (geq_refl _)) as [-> Hinv]; try assumption.
    - unfold p'. cbn [ghost_of]. destruct (N.eqb_spec q 0) as [->|Hq].
      + rewrite next_chunk_ghost. apply geq_sym, geq_gtr0.
      + cbn [gpc]. rewrite N.sub_add by lia. apply geq_refl.
    - reflexivity.
    - cbn [local_b]. rewrite Hc. unfold p'. destruct (N.eqb_spec q 0) as [->|Hq]; [apply (next_chunk_local _ c j ch 0 L)|].
      cbn [lpc]. fold h. lia.
    - rewrite N.eqb_refl. cbn [fst]. unfold p' in Hinv.
      destruct (q =? 0); [rewrite next_chunk_eq|]; rewrite goto_row; exact Hinv.
  Qed.

  (* undo of the decrement *)
  Lemma step_G3L s t c j c0 : Inv g s -> nth_error (ms_pool s) t = Some (TRun c (G3L j)) ->
    Inv g (fst (mstep g s t c0)).
  Proof.
    run_pc I Ht Hc L.
    destruct (has_ent g s (child_h g c j) I) as [v Ev]; [apply child_h_lt; lia|].
    rewrite Ev. cbn [fst].
    destruct (inc_possible g wf s t _ (child_h g c j) (c_n c) v I Ht ltac:(lia) (geq_refl _) Ev) as (Ei & _).
    rewrite Ei. apply (inv_goto g s t c _ (G3C j v) I Ht (geq_refl _)). cbn [lpc]. rewrite Ei. cbn [isSome]. lia.
  Qed.

  Lemma step_G3C s t c j v c0 : Inv g s -> nth_error (ms_pool s) t = Some (TRun c (G3C j v)) ->
    Inv g (fst (mstep g s t c0)).
  Proof.
    run_pc I Ht Hc L.
    destruct (has_ent g s (child_h g c j) I) as [cur Ev]; [apply child_h_lt; lia|].
    rewrite Ev. destruct (e_inc g v (c_n c)) as [v'|] eqn:Ed; [|cbn [isSome] in L; lia].
    assert (Hh : child_h g c j < nbf g (ms_frames s)) by lia.
    destruct (inc_possible g wf s t _ _ (c_n c) cur I Ht Hh (geq_refl _) Ev) as (Ei & Hm & Hle).
    destruct (N.eqb_spec cur v) as [->|Hne]; cbn [fst].
    - rewrite Ei in Ed. inversion Ed; subst v'. unfold next_child.
      destruct (j + 1 <? THUGE) eqn:Ej; [|rewrite finish_err].
      + apply (inv_inc g wf s t _ (TRun c _) _ v (c_n c) I Ht Ev Hh Hm); try apply geq_refl; [reflexivity|].
        cbn [local_b lpc]. lia.
      + apply (inv_inc g wf s t _ (TIdle _) _ v (c_n c) I Ht Ev Hh Hm); try reflexivity; apply geq_refl.
    - rewrite Ei. apply (inv_goto g s t c _ (G3C j cur) I Ht (geq_refl _)). cbn [lpc]. rewrite Ei. cbn [isSome]. lia.
  Qed.
End Get.
