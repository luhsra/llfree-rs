(* The invariant is inductive: every step of the machine preserves it, and it holds initially for a lower
   allocator state satisfying LowerInv whose allocated part is exactly the client's initial blocks. *)
From Coq Require Import PeanoNat.
From LLF Require Import Base BitLemmas Row RowProofs Bitfield Lower Spec LowerMachine
  ConcBase ConcInvDef ConcInvGeom ConcInvStep ConcInvTac ConcInvGet ConcInvAt ConcInvPut ConcInvHuge ConcInvIdle.

Section Main.
  Variable g : geom.
  Hypothesis wf : wf_geom g.
  Notation HF := (HF g).
  Notation THUGE := (THUGE g).
  Notation ROWS := (ROWS g).

  Theorem step_inv s t c0 : Inv g s -> Inv g (fst (mstep g s t c0)).
  Proof.
    intros I. destruct (nth_error (ms_pool s) t) as [x|] eqn:Ht.
    2:{ unfold mstep. rewrite Ht. exact I. }
    destruct x as [l|c p|x c].
    - eapply step_Idle; eassumption.
    - destruct p.
      + eapply step_G1L; eassumption.
      + eapply step_G1C; eassumption.
      + eapply step_G2L; eassumption.
      + eapply step_G2C; eassumption.
      + eapply step_G2R; eassumption.
      + eapply step_G2W; eassumption.
      + eapply step_G2U; eassumption.
      + eapply step_G3L; eassumption.
      + eapply step_G3C; eassumption.
      + eapply step_HC; eassumption.
      + eapply step_HU; eassumption.
      + eapply step_A1L; eassumption.
      + eapply step_A1C; eassumption.
      + eapply step_A3L; eassumption.
      + eapply step_A3C; eassumption.
      + eapply step_TL; eassumption.
      + eapply step_TC; eassumption.
      + eapply step_TN; eassumption.
      + eapply step_TW; eassumption.
      + eapply step_TU; eassumption.
      + eapply step_P1; eassumption.
      + eapply step_PP2; eassumption.
      + eapply step_PP3; eassumption.
      + eapply step_PS2L; eassumption.
      + eapply step_PS2C; eassumption.
    - unfold mstep. rewrite Ht. exact I.
  Qed.

  Theorem run_inv sch : forall s, Inv g s -> Inv g (mrun g sch s).
  Proof. induction sch as [|[t c] r IH]; intros s I; [exact I|]. cbn [mrun fold_left fst snd]. apply IH, step_inv, I. Qed.

  (* The client's initial blocks are exactly the allocated part of l: they are aligned and in range; for every
     frame slot of every bitfield, "bit set or under a marker entry" (counted with multiplicity: under a
     marker the rows are zero) equals the number of initial blocks covering the frame, plus one for the slots
     at or beyond `frames` (which are set and belong to nobody); blocks of huge order cover marker entries only.
     It holds for (free_all, []) and (reserve_all, alloc_all_held): see ConcInvInit.v. *)
  Record HeldInit (l : lower) (held0 : list (N * nat)) : Prop := {
    HI_ok : Forall (fun b => blk_ok (frames l) b = true) held0;
    HI_exact : forall h r i, h < nbf g (frames l) -> r < ROWS -> i < 64 ->
      b2n (bit (boot l held0 0) h r i) + isMark (entv (boot l held0 0) h)
      = heldc (fidx g h r i) held0 + oor (frames l) (fidx g h r i);
    HI_huge : forall h, entv (boot l held0 0) h <> MARK -> hugec g h held0 = 0
  }.

  Theorem boot_inv l held0 n : LowerInv g l -> HeldInit l held0 -> Inv g (boot l held0 n).
  Proof.
    intros (L1 & L2 & L3 & L4) [Hok Hex Hhu].
    assert (Hz : forall f : thr -> N, f (TIdle None) = 0 -> sumf f (repeat (TIdle None) n) = 0) by (intros; apply sumf_repeat_zero; assumption).
    pose proof (nbf_le_ents g (frames l)) as Hle. destruct (quiet_idle g None) as [Qf Qt Qc Qh Qp Qn].
    assert (Hrows : forall h, h < nbf g (frames l) -> exists e rows,
               nth_error (ents l) (nn h) = Some e /\ nth_error (bfs l) (nn h) = Some rows /\ huge_ok g (frames l) h e rows).
    { intros h Hh.
      destruct (nth_error (ents l) (nn h)) as [e|] eqn:Ee.
      2:{ exfalso. apply nth_error_None in Ee. rewrite L2 in Ee. unfold nn in *. lia. }
      destruct (nth_error (bfs l) (nn h)) as [rows|] eqn:Eb.
      2:{ exfalso. apply nth_error_None in Eb. rewrite L1 in Eb. unfold nn in *. lia. }
      exists e, rows. split; [reflexivity|split; [reflexivity|]]. pose proof (L3 _ _ _ Ee Eb) as H. unfold nn in H. rewrite N2Nat.id in H. exact H. }
    constructor; cbn [ms_frames ms_ents ms_bfs ms_pool ms_held boot].
    - exact L1.
    - exact L2.
    - intros h rows Eb. assert (Hh : (h < length (bfs l))%nat) by (apply nth_error_Some; congruence).
      destruct (Hrows (N.of_nat h)) as (e & rows' & Ee & Eb' & Hok'); [rewrite L1 in Hh; unfold nn in Hh; lia|].
      unfold nn in Eb'. rewrite Nat2N.id in Eb'. rewrite Eb in Eb'. inversion Eb'; subst rows'. apply Hok'.
    - intros h Hh. unfold entv, rd_ent. cbn [ms_ents boot]. destruct (nth_error (ents l) (nn h)) as [e|] eqn:Ee; [|reflexivity].
      apply (L4 _ _ Ee). apply nth_error_None. rewrite L1. unfold nn in *. lia.
    - intros h Hh He. destruct (Hrows h Hh) as (e & rows & Ee & Eb & Hok' & Hm & _).
      unfold entv, rd_ent in He. cbn [ms_ents boot] in He. rewrite Ee in He. apply (Hm He).
    - intros h r i Hh Hr Hi. rewrite !Hz by auto. rewrite !N.add_0_r. apply (Hex h r i Hh Hr Hi).
    - intros h Hh He r i Hr Hi. rewrite Hz by auto. rewrite N.add_0_r.
      destruct (Hrows h Hh) as (e & rows & Ee & Eb & Hok' & Hm & _).
      pose proof (Hex h r i Hh Hr Hi) as X. change (entv (boot l held0 0) h) with (entv (boot l held0 n) h) in X. rewrite He in X.
      unfold entv, rd_ent in He. cbn [ms_ents boot] in He. rewrite Ee in He. destruct (Hm He) as [Hzero Hin].
      assert (Hb : bit (boot l held0 0) h r i = false).
      { unfold bit, rowv, rd_row. cbn [ms_bfs boot]. rewrite Eb. destruct (nth_error rows (nn r)) as [v|] eqn:Ev; [|apply N.bits_0].
        rewrite (Forall_nth_error _ _ _ _ Hzero Ev). apply N.bits_0. }
      rewrite Hb in X. unfold isMark, oor in X. rewrite N.eqb_refl in X. pose proof (rowbit_lt g wf r i Hr Hi). unfold fidx in *.
      destruct (N.leb_spec (frames l) (h * HF + r * 64 + i)); [lia|]. cbn [b2n] in X. lia.
    - intros h Hh He. rewrite !Hz by auto. rewrite N.mul_0_r, !N.add_0_r.
      destruct (Hrows h Hh) as (e & rows & Ee & Eb & [Hl Hf] & _ & Hc & _).
      unfold entv, rd_ent, zeros in *. cbn [ms_ents ms_bfs boot] in *. rewrite Ee in *. rewrite Eb.
      destruct (Hc He) as [-> _]. symmetry. apply sumf_cz_count. exact Hf.
    - intros h Hh He. apply Hz, Qn.
    - apply Hz. reflexivity.
    - intros h He. rewrite Hz by auto. rewrite N.add_0_r. apply (Hhu h He).
    - apply Forall_forall. intros x Hx. apply repeat_spec in Hx. subst x. reflexivity.
    - exact Hok.
  Qed.
End Main.
