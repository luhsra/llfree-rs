(* Thread-local invariants of machine M2 (UpperMachine.v).  A property T of (memory, pool entry of a thread) that
   holds of the entry written when a call starts, that the thread maintains for itself across its own accesses,
   and that no access of a thread disturbs for the others, holds of every thread of every state reachable from
   `uboot`: `ustep_all`, `urun_all`, `uboot_all`.  Instances: well-formedness of primitive and continuation stack
   (UpperProgress.v), the classes stored in the frames of a get (UpperConcClass.v). *)
From Coq Require Import PeanoNat.
From LLF Require Import Base Row Bitfield Lower Sorted Upper LowerMachine ConcBase UpperMachine.

(* the pool entry that `apply_settled` writes *)
Definition thr_of (c : ucall) (x : UpperMachine.settled) : uthr :=
  match x with SRun p k => URun c p k | SDone r => UIdle (Some r) | SCrash x => UPanic x c end.

Lemma apply_settled_up s t c x : m2_up (apply_settled s t c x) = m2_up s.
Proof. destruct x as [p k|r|x]; cbn [apply_settled]; try reflexivity. unfold ufinish. destruct c, r as [[? ?]| |]; reflexivity. Qed.
Lemma apply_settled_pool s t c x : m2_pool (apply_settled s t c x) = upd (m2_pool s) t (thr_of c x).
Proof. destruct x as [p k|r|x]; cbn [apply_settled]; try reflexivity. unfold ufinish. destruct c, r as [[? ?]| |]; reflexivity. Qed.

Section ThreadInv.
  Variable g : geom.
  Variable policy : N -> N -> N -> pol.
  Variable T : upper -> uthr -> Prop.

  Definition all_thr (s : m2state) : Prop := forall t x, nth_error (m2_pool s) t = Some x -> T (m2_up s) x.

  Lemma all_thr_upd s s' t x : m2_pool s' = upd (m2_pool s) t x ->
    (forall y, T (m2_up s) y -> T (m2_up s') y) -> T (m2_up s') x -> all_thr s -> all_thr s'.
  Proof.
    intros Ep Hm Hx H t' y E. rewrite Ep in E. destruct (Nat.eq_dec t' t) as [->|Hne].
    - pose proof (nth_error_some_lt _ _ _ E) as L. rewrite upd_length in L.
      rewrite nth_error_upd_same in E by exact L. injection E as <-. exact Hx.
    - rewrite nth_error_upd_other in E by congruence. apply Hm. exact (H t' y E).
  Qed.

  Lemma uboot_all u held0 n : (forall u, T u (UIdle None)) -> all_thr (uboot u held0 n).
  Proof.
    intros Hidle t x E. cbn [uboot m2_pool] in E. apply nth_error_In, repeat_spec in E. subst x. apply Hidle.
  Qed.

  Hypothesis T_start : forall u c, T u (thr_of c (settle g policy SETTLE u (enter_call g u c))).
  Hypothesis T_step : forall u c p k, T u (URun c p k) ->
    let '(u', _, o) := prim_step g policy u p in
    (forall x, T u x -> T u' x) /\
    T u' (match o with
          | OStay p' => URun c p' k
          | OVal v => thr_of c (settle g policy SETTLE u' (ARet v k))
          | OCrash z => UPanic z c
          end).

  Theorem ustep_all s t c0 : all_thr s -> all_thr (fst (ustep g policy s t c0)).
  Proof.
    intros H. unfold ustep. destruct (nth_error (m2_pool s) t) as [[l|c p k|z c]|] eqn:Et; try exact H.
    - (* a call starts *)
      assert (S : forall s1, m2_up s1 = m2_up s -> m2_pool s1 = m2_pool s ->
                all_thr (apply_settled s1 t c0 (settle g policy SETTLE (m2_up s1) (enter_call g (m2_up s1) c0)))).
      { intros s1 Eu Ep. apply (all_thr_upd s _ t (thr_of c0 (settle g policy SETTLE (m2_up s1) (enter_call g (m2_up s1) c0)))).
        - rewrite apply_settled_pool, Ep. reflexivity.
        - rewrite apply_settled_up, Eu. exact (fun y Hy => Hy).
        - rewrite apply_settled_up. apply T_start.
        - exact H. }
      destruct c0 as [frame r|f rq| |m ch]; cbn [fst]; try (apply S; reflexivity).
      destruct (client_take (m2_held s) f (r_order rq)); cbn [fst]; [apply S; reflexivity | exact H].
    - (* an access *)
      pose proof (T_step (m2_up s) c p k (H t _ Et)) as Hs.
      destruct (prim_step g policy (m2_up s) p) as [[u' ev] o]. cbn [fst]. destruct Hs as [Hm Hx].
      destruct o as [p'|v|z].
      + apply (all_thr_upd s _ t (URun c p' k)); [reflexivity | exact Hm | exact Hx | exact H].
      + apply (all_thr_upd s _ t (thr_of c (settle g policy SETTLE u' (ARet v k)))).
        * exact (apply_settled_pool (with_up s u') t c _).
        * rewrite apply_settled_up. exact Hm.
        * rewrite apply_settled_up. exact Hx.
        * exact H.
      + apply (all_thr_upd s _ t (UPanic z c)); [reflexivity | exact Hm | exact Hx | exact H].
  Qed.

  Theorem urun_all sch : forall s, all_thr s -> all_thr (urun g policy sch s).
  Proof.
    induction sch as [|[t c] sch IH]; intros s H; [exact H|].
    cbn [urun fold_left fst snd]. apply IH. apply ustep_all. exact H.
  Qed.
End ThreadInv.
