(* The rule all proofs about the search loops of Upper.v (`sb_try`, `sb_loop`, `search_best`, `search_loop`) go
   through, for any `access` function. *)
From Coq Require Import List NArith Lia.
From LLF Require Import Base Row Bitfield Lower Sorted SortedProofs Upper.

Lemma sb_add_In {K V} (le : K -> K -> bool) cap (buf : list (K * V)) x y :
  In y (sb_add le cap buf x) -> y = x \/ In y buf.
Proof.
  unfold sb_add. destruct (Nat.ltb (length buf) cap).
  - intros H. apply insert_at_in in H. exact H.
  - destruct (sb_pos le (fst x) buf); [auto|].
    intros H. apply insert_at_in in H. destruct H as [H|H]; [auto|].
    right. destruct buf; [destruct H|right; exact H].
Qed.

Lemma walk_idx_lt start n i : n <> 0 -> walk_idx start n i < n.
Proof. intros Hn. unfold walk_idx. destruct (N.even i); apply N.mod_lt; exact Hn. Qed.

(* one step of `sb_loop`, with the pattern `PMatch 255` as a comparison (a case split on the literal goes through
   every binary digit) *)
Lemma sb_loop_S {A} g (access : upper -> N -> res A * upper) rate cap u start i k best :
  sb_loop g access rate cap u start i (S k) best =
  let idx := walk_idx start (ntrees u) i in
  match tree_at u idx with
  | None => (Panic (SIndex 35), u)
  | Some t =>
      if t_res t then sb_loop g access rate cap u start (i + 1) k best else
      match rate (t_class t) (t_free t) with
      | PMatch m =>
          if m =? 255 then
            match access u idx with
            | (Err EMemory, u') => sb_loop g access rate cap u' start (i + 1) k best
            | other => other
            end
          else sb_loop g access rate cap u start (i + 1) k
                 (sb_add N.leb cap best (cand_key (PMatch m) (t_free t =? TF g), idx))
      | PInvalid => sb_loop g access rate cap u start (i + 1) k best
      | p => sb_loop g access rate cap u start (i + 1) k (sb_add N.leb cap best (cand_key p (t_free t =? TF g), idx))
      end
  end.
Proof.
  cbn [sb_loop]. cbv zeta. destruct (tree_at u _) as [t|]; [|reflexivity].
  destruct (t_res t); [reflexivity|]. destruct (rate _ _) as [m| | |]; try reflexivity.
  destruct (N.eqb_spec m 255) as [->|Hm]; [reflexivity|].
  destruct m as [|p]; [reflexivity|].
  repeat (destruct p as [p|p|]; try reflexivity). contradiction.
Qed.

(* One rule for all four loops.  They call `access` on one index after the other while it fails with
   Err EMemory and stop at the first other result; so if `I` holds at the start and comes back after every
   failed access, and `Q` holds of every other result of an access, the loop ends in `I` (Err EMemory) or in `Q`.
   `V` is what is known of the visited indices (candidates are remembered and accessed later). *)
Definition loop_out {A} (I : upper -> Prop) (Q : res A -> upper -> Prop) (r : res A) (u' : upper) : Prop :=
  match r with Err EMemory => I u' | _ => Q r u' end.

Section Hoare.
  Variable g : geom.
  Context {A : Type}.
  Variable access : upper -> N -> res A * upper.
  Variable V : N -> Prop.
  Variable I : upper -> Prop.
  Variable Q : res A -> upper -> Prop.
  Notation out := (loop_out I Q).

  Hypothesis Hacc : forall u i r u', I u -> V i -> access u i = (r, u') -> out r u'.
  Hypothesis HV : forall u start i, I u -> V (walk_idx start (ntrees u) i).
  Hypothesis Hnone : forall u i s, I u -> V i -> tree_at u i = None -> Q (Panic s) u.

  (* one access, then `rest` if it failed with Err EMemory *)
  Lemma access_or_else (rest : upper -> res A * upper) u i r u' :
    I u -> V i -> (forall u1, I u1 -> rest u1 = (r, u') -> out r u') ->
    match access u i with (Err EMemory, u1) => rest u1 | other => other end = (r, u') -> out r u'.
  Proof.
    intros HI Hi Hrest H. destruct (access u i) as [ra u1] eqn:E. pose proof (Hacc _ _ _ _ HI Hi E) as Ho.
    destruct ra as [x|e|s]; [inversion H; subst; exact Ho| |inversion H; subst; exact Ho].
    destruct e; try (inversion H; subst; exact Ho). eauto.
  Qed.

  Lemma sb_try_out cands : Forall (fun c => V (snd c)) cands ->
    forall u r u', I u -> sb_try access u cands = (r, u') -> out r u'.
  Proof.
    induction cands as [|[k i] rest IH]; intros Hc u r u' HI H; cbn [sb_try] in H.
    - inversion H; subst. exact HI.
    - inversion Hc as [|? ? Hi Hrest]; subst.
      apply (access_or_else (fun u1 => sb_try access u1 rest) u i r u' HI Hi); [|exact H]. eauto.
  Qed.

  Lemma sb_loop_out rate cap k : forall u start i best r u',
    I u -> Forall (fun c => V (snd c)) best ->
    sb_loop g access rate cap u start i k best = (r, u') -> out r u'.
  Proof.
    induction k as [|k IH]; intros u start i best r u' HI Hb H.
    - cbn [sb_loop] in H. eapply sb_try_out; [|exact HI|exact H]. unfold sb_iter_rev.
      apply Forall_forall. intros x Hx. apply in_rev in Hx. rewrite Forall_forall in Hb. auto.
    - rewrite sb_loop_S in H. cbv zeta in H. pose proof (HV u start i HI) as Hi.
      set (idx := walk_idx start (ntrees u) i) in *.
      assert (Hadd : forall key, Forall (fun c => V (snd c)) (sb_add N.leb cap best (key, idx))).
      { intros key. apply Forall_forall. intros x Hx. apply sb_add_In in Hx. rewrite Forall_forall in Hb.
        destruct Hx as [->|Hx]; [exact Hi|auto]. }
      destruct (tree_at u idx) as [t|] eqn:Ht; [|inversion H; subst; eapply Hnone; eauto].
      destruct (t_res t); [eauto|].
      destruct (rate (t_class t) (t_free t)) as [m| | |]; eauto.
      destruct (m =? 255); eauto.
      apply (access_or_else (fun u1 => sb_loop g access rate cap u1 start (i + 1) k best) u idx r u' HI Hi); [|exact H]. eauto.
  Qed.

  Lemma search_best_out rate cap u start offset len r u' :
    I u -> ((0 <? len - offset) && (ntrees u =? 0) = true -> Q (Panic (SArith 1)) u) ->
    search_best g access rate cap u start offset len = (r, u') -> out r u'.
  Proof.
    unfold search_best. intros HI Hz H. destruct ((0 <? len - offset) && (ntrees u =? 0)).
    - inversion H; subst. exact (Hz eq_refl).
    - eapply sb_loop_out; eauto.
  Qed.

  Lemma search_loop_out k : forall u start i r u',
    I u -> search_loop access u start i k = (r, u') -> out r u'.
  Proof.
    induction k as [|k IH]; intros u start i r u' HI H; cbn [search_loop] in H.
    - inversion H; subst. exact HI.
    - apply (access_or_else (fun u1 => search_loop access u1 start (i + 1) k) u _ r u' HI (HV u start i HI)); [|exact H]. eauto.
  Qed.
End Hoare.
