(* C16, part 1: the bounded sorted candidate buffer (`SortedBuffer`, as repaired) keeps the
   `min cap |xs|` best elements of every insertion sequence, sorted, and is read best first.
   Proofs about the model in Sorted.v; `le` is any total preorder on keys (boolean `<=`). *)
From LLF Require Import Base Sorted.
From Coq Require Import Arith PeanoNat Sorting.Sorted Sorting.Permutation.

(* ascending / descending by key; StronglySorted = every element is related to ALL later ones *)
Definition kle {K V} (le : K -> K -> bool) (a b : K * V) : Prop := le (fst a) (fst b) = true.
Definition kge {K V} (le : K -> K -> bool) (a b : K * V) : Prop := le (fst b) (fst a) = true.
Definition asc_by {K V} (le : K -> K -> bool) (l : list (K * V)) : Prop := StronglySorted (kle le) l.
Definition desc_by {K V} (le : K -> K -> bool) (l : list (K * V)) : Prop := StronglySorted (kge le) l.

Section Generic.
  Context {A : Type}.
  Lemma StronglySorted_app (R : A -> A -> Prop) l1 l2 :
    StronglySorted R l1 -> StronglySorted R l2 ->
    (forall a b, In a l1 -> In b l2 -> R a b) ->
    StronglySorted R (l1 ++ l2).
  Proof.
    induction l1 as [|a l1 IH]; intros H1 H2 H; cbn [app]; auto.
    inversion H1; subst. constructor.
    - apply IH; auto. intros; apply H; cbn [In]; auto.
    - apply Forall_app; split; auto.
      apply Forall_forall; intros b Hb. apply H; cbn [In]; auto.
  Qed.

  Lemma StronglySorted_rev (R : A -> A -> Prop) l :
    StronglySorted R l -> StronglySorted (fun a b => R b a) (rev l).
  Proof.
    induction 1 as [|a l Hs IH Hf]; cbn [rev]; [constructor|].
    apply StronglySorted_app; auto.
    - repeat constructor.
    - intros x y Hx [<-|[]]. apply in_rev in Hx.
      rewrite Forall_forall in Hf; auto.
  Qed.
End Generic.

Section SortedBufferProofs.
  Context {K V : Type}.
  Variable le : K -> K -> bool.
  Hypothesis le_total : forall a b, le a b || le b a = true.
  Hypothesis le_trans : forall a b c, le a b = true -> le b c = true -> le a c = true.

  Notation E := (K * V)%type.

  Lemma kle_trans (a b c : E) : (kle le) a b -> (kle le) b c -> (kle le) a c.
  Proof. unfold kle; eauto. Qed.

  Lemma not_le_ge a b : le a b = false -> le b a = true.
  Proof. intros H; generalize (le_total a b); rewrite H; auto. Qed.

  (* insert_at *)
  Lemma insert_at_perm n (x : E) l : Permutation (x :: l) (insert_at n x l).
  Proof.
    revert l; induction n as [|n IH]; intros [|a r]; cbn [insert_at]; auto.
    eapply perm_trans; [apply perm_swap|]. apply perm_skip, IH.
  Qed.

  Lemma insert_at_length n (x : E) l : length (insert_at n x l) = S (length l).
  Proof. symmetry. apply (Permutation_length (insert_at_perm n x l)). Qed.

  Lemma insert_at_in n (x y : E) l : In y (insert_at n x l) <-> y = x \/ In y l.
  Proof.
    split; intros H.
    - apply (Permutation_in _ (Permutation_sym (insert_at_perm n x l))) in H.
      destruct H; auto.
    - apply (Permutation_in _ (insert_at_perm n x l)). destruct H; [left|right]; auto.
  Qed.

  (* inserting at the position found by sb_pos keeps the list sorted *)
  Lemma insert_sorted (x : E) l :
    StronglySorted (kle le) l -> StronglySorted (kle le) (insert_at (sb_pos le (fst x) l) x l).
  Proof.
    induction l as [|[k' v'] r IH]; intros Hs; cbn [sb_pos insert_at].
    - repeat constructor.
    - inversion Hs as [|? ? Hr Hf]; subst.
      destruct (le (fst x) k') eqn:Ele; cbn [insert_at].
      + constructor; auto. constructor; [exact Ele|].
        eapply Forall_impl; [|exact Hf]. intros b Hb. eapply kle_trans; [|exact Hb]. exact Ele.
      + constructor; auto.
        apply Forall_forall; intros y Hy. apply insert_at_in in Hy. destruct Hy as [->|Hy].
        * apply not_le_ge; exact Ele.
        * rewrite Forall_forall in Hf; auto.
  Qed.

  (* one insertion preserves the invariant *)
  (* seen = everything inserted so far; buf = the buffer; dropped = what was discarded *)
  Definition sb_inv (cap : nat) (seen buf : list E) : Prop :=
    length buf = Nat.min cap (length seen) /\
    StronglySorted (kle le) buf /\
    exists dropped, Permutation seen (buf ++ dropped) /\
                    forall d k, In d dropped -> In k buf -> (kle le) d k.

  Lemma sb_inv_nil cap : sb_inv cap [] [].
  Proof.
    split; [cbn; lia|]. split; [constructor|]. exists []; split; auto. intros ? ? [].
  Qed.

  Lemma sb_add_inv cap seen buf x :
    sb_inv cap seen buf -> sb_inv cap (seen ++ [x]) (sb_add le cap buf x).
  Proof.
    intros (Hlen & Hs & dropped & Hperm & Hdrop).
    pose proof (Permutation_length Hperm) as Hl. rewrite app_length in Hl.
    assert (Hx : Permutation (seen ++ [x]) (x :: buf ++ dropped)).
    { eapply perm_trans; [apply Permutation_app_comm|]. cbn [app]. apply perm_skip, Hperm. }
    unfold sb_add, sb_inv. rewrite app_length; cbn [length].
    destruct (Nat.ltb (length buf) cap) eqn:Hlt.
    - (* not full: nothing has been dropped yet *)
      apply Nat.ltb_lt in Hlt.
      assert (dropped = []) by (destruct dropped; auto; cbn [length] in Hl; lia). subst dropped.
      rewrite insert_at_length. split; [lia|]. split; [apply insert_sorted; auto|].
      exists []. split; [|intros ? ? []].
      rewrite app_nil_r in *. eapply perm_trans; [exact Hx|]. apply insert_at_perm.
    - apply Nat.ltb_ge in Hlt.
      assert (Hcap : length buf = cap) by lia.
      destruct buf as [|[k' v'] t]; cbn [sb_pos].
      + (* capacity 0 *)
        split; [cbn [length] in *; lia|]. split; [constructor|].
        exists (x :: dropped). split; [exact Hx|]. intros ? ? _ [].
      + inversion Hs as [|? ? Ht Hf]; subst. rewrite Forall_forall in Hf.
        destruct (le (fst x) k') eqn:Ele.
        * (* full, not better than the minimum: x is dropped *)
          split; [cbn [length] in *; lia|]. split; [exact Hs|].
          exists (x :: dropped). split.
          { eapply perm_trans; [exact Hx|]. apply Permutation_middle. }
          intros d k [<-|Hd] Hk; [|apply Hdrop; auto].
          destruct Hk as [<-|Hk]; [exact Ele|].
          eapply kle_trans; [|apply Hf, Hk]. exact Ele.
        * (* full, better than the minimum: the minimum is dropped *)
          cbn [tl]. rewrite insert_at_length. split; [cbn [length] in *; lia|].
          split; [apply insert_sorted; auto|].
          exists ((k', v') :: dropped). split.
          { eapply perm_trans; [exact Hx|]. cbn [app].
            eapply perm_trans; [apply perm_swap|].
            eapply perm_trans; [|apply Permutation_middle]. apply perm_skip.
            change (Permutation ((x :: t) ++ dropped)
                      (insert_at (sb_pos le (fst x) t) x t ++ dropped)).
            apply Permutation_app_tail, insert_at_perm. }
          assert (Hmin : forall k, In k (insert_at (sb_pos le (fst x) t) x t) -> (kle le) (k', v') k).
          { intros k Hk. apply insert_at_in in Hk. destruct Hk as [->|Hk]; [|apply Hf, Hk].
            apply not_le_ge; exact Ele. }
          intros d k [<-|Hd] Hk; [apply Hmin, Hk|].
          eapply kle_trans; [|apply Hmin, Hk]. apply Hdrop; cbn [In]; auto.
  Qed.

  Lemma sb_fold_inv cap xs : forall seen buf,
    sb_inv cap seen buf -> sb_inv cap (seen ++ xs) (fold_left (sb_add le cap) xs buf).
  Proof.
    induction xs as [|x xs IH]; intros seen buf H; cbn [fold_left].
    - rewrite app_nil_r; exact H.
    - replace (seen ++ x :: xs) with ((seen ++ [x]) ++ xs) by (rewrite <- app_assoc; reflexivity).
      apply IH, sb_add_inv, H.
  Qed.

  (* the theorems *)
  (* (a) length and ascending order, (b) sub-multiset, (c) top-N *)
  Theorem sb_add_all_topN cap (xs : list E) :
    let kept := sb_add_all le cap xs in
    length kept = Nat.min cap (length xs) /\
    asc_by le kept /\
    exists dropped, Permutation xs (kept ++ dropped) /\
                    forall d k, In d dropped -> In k kept -> le (fst d) (fst k) = true.
  Proof. exact (sb_fold_inv cap xs [] [] (sb_inv_nil cap)). Qed.

  Theorem sb_add_all_length cap (xs : list E) :
    length (sb_add_all le cap xs) = Nat.min cap (length xs).
  Proof. apply sb_add_all_topN. Qed.

  Theorem sb_add_all_sorted cap (xs : list E) : asc_by le (sb_add_all le cap xs).
  Proof. apply sb_add_all_topN. Qed.

  (* every kept element was inserted *)
  Corollary sb_add_all_incl cap (xs : list E) : incl (sb_add_all le cap xs) xs.
  Proof.
    destruct (sb_add_all_topN cap xs) as (_ & _ & dropped & Hp & _).
    intros y Hy. apply (Permutation_in _ (Permutation_sym Hp)). apply in_or_app; auto.
  Qed.

  (* nothing is dropped while the capacity suffices *)
  Corollary sb_add_all_fits cap (xs : list E) :
    (length xs <= cap)%nat -> Permutation xs (sb_add_all le cap xs).
  Proof.
    intros Hle. destruct (sb_add_all_topN cap xs) as (Hl & _ & dropped & Hp & _).
    pose proof (Permutation_length Hp) as Hl'. rewrite app_length in Hl'.
    assert (dropped = []) by (destruct dropped; auto; cbn [length] in Hl'; lia). subst.
    rewrite app_nil_r in Hp; exact Hp.
  Qed.

  (* (d) read order: best first, and it is the same elements *)
  Theorem sb_iter_rev_best_first cap (xs : list E) :
    let tried := sb_iter_rev (sb_add_all le cap xs) in
    desc_by le tried /\ Permutation tried (sb_add_all le cap xs).
  Proof.
    unfold sb_iter_rev; split.
    - apply (StronglySorted_rev (kle le)). apply sb_add_all_sorted.
    - apply Permutation_sym, Permutation_rev.
  Qed.

  (* the first candidate tried is a maximum of everything inserted *)
  Corollary sb_iter_rev_head_max cap (xs : list E) b rest :
    sb_iter_rev (sb_add_all le cap xs) = b :: rest ->
    forall x, In x xs -> le (fst x) (fst b) = true.
  Proof.
    intros Hb x Hx.
    destruct (sb_add_all_topN cap xs) as (_ & _ & dropped & Hp & Hd).
    destruct (sb_iter_rev_best_first cap xs) as (Hs & Hperm). rewrite Hb in Hs, Hperm.
    assert (Hbk : In b (sb_add_all le cap xs)).
    { apply (Permutation_in _ Hperm); cbn [In]; auto. }
    apply (Permutation_in _ Hp) in Hx. apply in_app_or in Hx. destruct Hx as [Hx|Hx].
    - apply (Permutation_in _ (Permutation_sym Hperm)) in Hx. destruct Hx as [<-|Hx].
      + generalize (le_total (fst b) (fst b)). destruct (le (fst b) (fst b)); auto.
      + inversion Hs as [|? ? _ Hf]; subst. rewrite Forall_forall in Hf. apply Hf, Hx.
    - apply Hd; auto.
  Qed.
End SortedBufferProofs.

(* instances and non-vacuity *)
Lemma Nleb_total a b : N.leb a b || N.leb b a = true.
Proof. destruct (N.leb a b) eqn:E; auto. cbn. apply N.leb_le. apply N.leb_gt in E. lia. Qed.
Lemma Nleb_trans a b c : N.leb a b = true -> N.leb b c = true -> N.leb a c = true.
Proof. rewrite !N.leb_le; lia. Qed.

(* capacity 3, five insertions (value = insertion index): the three largest keys are kept,
   the two smallest dropped; ties: the earlier (4,1) sits above the later (4,3) *)
Example sb_example_run :
  sb_add_all N.leb 3 [(2,0); (4,1); (1,2); (4,3); (3,4)] = [(3,4); (4,3); (4,1)].
Proof. vm_compute. reflexivity. Qed.
Example sb_example_tried :
  sb_iter_rev (sb_add_all N.leb 3 [(2,0); (4,1); (1,2); (4,3); (3,4)]) = [(4,1); (4,3); (3,4)].
Proof. vm_compute. reflexivity. Qed.
(* a full buffer accepts a new maximum and drops the minimum *)
Example sb_example_new_max :
  sb_add_all N.leb 2 [(1,0); (2,1); (3,2)] = [(2,1); (3,2)].
Proof. vm_compute. reflexivity. Qed.
(* the hypotheses of the theorems are satisfiable and the conclusion is not trivial *)
Example sb_example_spec :
  exists dropped, Permutation [(2,0); (4,1); (1,2); (4,3); (3,4)]
                    (sb_add_all N.leb 3 [(2,0); (4,1); (1,2); (4,3); (3,4)] ++ dropped) /\
                  dropped <> [].
Proof.
  destruct (sb_add_all_topN N.leb Nleb_total Nleb_trans 3 [(2,0); (4,1); (1,2); (4,3); (3,4)])
    as (Hl & _ & dropped & Hp & _).
  exists dropped; split; auto. intros ->. apply Permutation_length in Hp.
  rewrite app_nil_r, Hl in Hp. cbn in Hp. lia.
Qed.

(* finding D9: the pinned (unrepaired) `add` loses the maximum *)
(* capacity 3: insert key 5, then key 3: the buffer holds only 3 *)
Lemma C16_old_refuted :
  fold_left (old_add N.leb) [(5,0); (3,1)] [None; None; None] = [Some (3,1); None; None].
Proof. vm_compute. reflexivity. Qed.
(* and a full buffer never accepts a new maximum: capacity 1, insert 0 then 1 *)
Lemma C16_old_refuted_full :
  fold_left (old_add N.leb) [(0,0); (1,1)] [None] = [Some (0,0)].
Proof. vm_compute. reflexivity. Qed.
